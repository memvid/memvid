(* C10 Every search hit is a valid answer to the query.
   Short proofs stand under the statements; what they rest on is in Proofs/HitsProofs.v (for (3), the
   evaluator's date term, in Proofs/QueryProofs.v).  The model (Model/Hits.v) follows
   try_tantivy_search after the engine call, resolve_chunk_context, collect_token_occurrences,
   search_with_lex_fallback and search_with_filters_only line by line and IMPORTS C32's evaluator
   (Model/Query.v), C35's slices and str slicing (Model/Snippet.v), C16's cursor (Model/SearchPage.v).

   Readings fixed (DESIGN.md, C10): the "frame content" a hit's range indexes is the text
   resolve_chunk_context yields (an unchunked document: its search text incl. the appended
   title:/uri:/tags: lines; a chunk: its position inside the parent's concatenated chunks); "satisfies
   the query" is C32's `eval` on the lower-cased search text.  A date:[a TO b] term is a term of that
   evaluator (DateRange::matches = eval_term (TDate a b)), so "satisfies the date-range filter" is part
   of "satisfies the query" (theorem 3).

   Result.  For the pipeline that answers whenever the engine answers (try_tantivy_search) the property
   holds for ANY engine output, with no hypothesis on the engine for every clause but "active".
   The route taken when the engine rejects the query and the query has no text token
   (search_with_filters_only -- reached through the public API by a wildcard without a literal prefix such
   as `*` or `*alp*`, which Tantivy's RegexQuery rejects) used to check neither the frame status nor the
   request's uri / scope (findings F-C10-1 / F-C10-2); /repo dcf427c repaired it, the
   model follows the repaired code, and the full property is proved for that route too (theorem 8), with
   "active" read directly off the table: that loop does check frame.status. *)
From MV Require Import Base.Prelude Model.Query Model.Snippet Proofs.SnippetProofs Model.Hits Proofs.HitsProofs.
From MV Require Base.Facts Model.SearchPage Model.Store Model.Reads Properties.C08 Proofs.QueryProofs.
Local Open Scope N_scope.

(* hit_good pd tbl parsed rq cands h  :=
     (h.frame_id, h.score) is one of the engine's candidates, and there are a frame f and a chunk
     context ci with
       toc.frames[h.frame_id] = f,
       cand_ok: passes_filters rq f (request uri via uri_matches, else scope prefix),
                resolve_chunk_context tbl f = Ok ci,
                eval parse_date parsed (doc of f with content_lower = lower(search_text or ci.text)) = true,
       h.chunk_range = (ci.start, ci.end), h.chunk_text = utf8 ci.text,
       ci.start <= range.0 < range.1 <= ci.start + |chunk_text|,
       &chunk_text[range.0 - ci.start .. range.1 - ci.start] = Ok h.text (on char boundaries), non-empty,
       matches >= 1. *)

(* (1) THE COMPOSITION THEOREM.  For every date oracle, content-date oracle, every re-sort that returns
   members of its input, every frame table, parsed query, analyser output (tokens), request and -- the
   point -- EVERY engine output `cands`: if the Tantivy pipeline answers, the response holds at most
   max(1, top_k) hits, their ranks are 1..n, and every hit is good in the sense above. *)
Theorem C10_every_hit_valid_for_any_engine_output :
  forall (parse_date : str -> option Z) (content_ts : list str -> option Z) (resort : list ev -> list ev)
         (tbl : table) (parsed : expr) (tokens : list bytes) (rq : request),
    (forall l x, In x (resort l) -> In x l) ->
    forall (has_lex : bool) (cands : list (N * N)) (r : response),
      tantivy_post parse_date content_ts resort has_lex tbl parsed tokens rq cands = Ok (Some r) ->
      llen (r_hits r) <= N.max (rq_top_k rq) 1 /\
      ranks_ok (r_hits r) /\
      Forall (hit_good parse_date tbl parsed rq cands) (r_hits r).
Proof. exact hits_valid. Qed.
Print Assumptions C10_every_hit_valid_for_any_engine_output.

(* the same with the query given as TEXT and parsed by C32's parser model *)
Theorem C10_every_hit_valid_query_text :
  forall alnum parse_date content_ts resort tbl (q : str) parsed depth tokens rq has_lex cands r,
    (forall l x, In x (resort l) -> In x l) ->
    parse_query alnum parse_date q = (Ok parsed, depth) ->
    tantivy_post parse_date content_ts resort has_lex tbl parsed tokens rq cands = Ok (Some r) ->
    llen (r_hits r) <= N.max (rq_top_k rq) 1 /\ ranks_ok (r_hits r) /\
    Forall (hit_good parse_date tbl parsed rq cands) (r_hits r).
Proof. intros. eapply hits_valid; eauto. Qed.
Print Assumptions C10_every_hit_valid_query_text.

(* (2) range inside chunk_range: chunk_range = (start, start + |chunk_text|) as soon as the payloads of
   the table are valid UTF-8 (from_utf8_lossy is then the identity; search-text contexts need nothing) *)
Theorem C10_range_inside_chunk_range :
  forall parse_date tbl parsed rq cands h,
    payloads_utf8 tbl -> hit_good parse_date tbl parsed rq cands h ->
    fst (h_chunk_range h) <= fst (h_range h) /\ fst (h_range h) < snd (h_range h) /\
    snd (h_range h) <= snd (h_chunk_range h).
Proof.
  intros pd tbl parsed rq cands h HP (_ & f & ci & Hg & (_ & Hr & _) & Hcr & Hct & H1 & H2 & H3 & _).
  pose proof (Facts.post_ok (resolve_post tbl f) Hr HP (get_In Hg)) as Hc. unfold ci_consistent in Hc.
  rewrite Hcr. cbn [fst snd]. rewrite Hct in H3. lia.
Qed.
Print Assumptions C10_range_inside_chunk_range.

(* (3) every conjunct of a conjunctive query holds of the hit's frame; a date:[a TO b] conjunct means
   DateRange::matches: no bound at all, or one of frame.timestamp / the parsed content dates is in range *)
Theorem C10_conjuncts_and_date_range :
  forall pd l d,
    eval pd (EAnd l) d = true ->
    (forall c, In c l -> eval pd c d = true) /\
    (forall a b, In (ETerm (TDate a b)) l ->
       (a = None /\ b = None) \/ exists t, In t (date_candidates pd d) /\ in_range a b t = true).
Proof.
  intros pd l d H. cbn [eval] in H. rewrite forallb_forall in H. split; [exact H|].
  intros a b Hc. right. apply QueryProofs.eval_date. exact (H _ Hc).
Qed.
Print Assumptions C10_conjuncts_and_date_range.

(* (4) "Active".  The evaluation loop does NOT look at frame.status; a hit is Active because the engine
   only holds Active frames: with C08's index invariant (for every history, `lex r` holds Active
   committed frames whenever no instant-indexed put waits for its commit), the engine returning
   indexed documents only (hypothesis on the oracle), and the table's status column being the store's.
   A delete takes effect at commit: between delete_frame and commit the frame is still Active in the
   table and may be returned. *)
Theorem C10_hits_name_active_frames_partial :
  forall parse_date content_ts resort tbl parsed tokens rq has_lex cands r,
    (forall l x, In x (resort l) -> In x l) ->
    forall rops,
      let rs := fst (Reads.rrun Reads.rstore0 rops) in
      Reads.tdirty rs = false ->
      (forall i, is_active tbl i = Reads.is_active (Store.committed (Reads.base rs)) i) ->
      (forall c, In c cands -> In (fst c) (Reads.lex rs)) ->
      tantivy_post parse_date content_ts resort has_lex tbl parsed tokens rq cands = Ok (Some r) ->
      forall h, In h (r_hits r) -> is_active tbl (h_frame h) = true.
Proof.
  intros pd cts resort tbl parsed tokens rq has_lex cands r Hres rops rs Htd Hst Heng Hr h Hh.
  destruct (hits_valid pd cts resort tbl parsed tokens rq Hres has_lex cands r Hr) as (_ & _ & Hall).
  rewrite Forall_forall in Hall. destruct (Hall h Hh) as (Hin & _).
  rewrite Hst. pose proof (C08.C08_index_sets_hold_active_frames_only rops) as (_ & _ & H3).
  apply (H3 Htd). apply (Heng _ Hin).
Qed.
Print Assumptions C10_hits_name_active_frames_partial.

(* (5) the pipeline never panics: C35's call-site theorem covers `end + window/2` and the
   `chunk_text[local_start..local_end]` slicing (slices are in bounds, on char boundaries) *)
Theorem C10_post_evaluation_never_panics :
  forall parse_date content_ts resort tbl parsed tokens rq,
    (forall l x, In x (resort l) -> In x l) ->
    forall has_lex cands s,
      texts_in_range tbl -> rq_snippet_chars rq < USIZE_LIMIT ->
      tantivy_post parse_date content_ts resort has_lex tbl parsed tokens rq cands <> Panic s.
Proof.
  intros pd cts resort tbl parsed tokens rq Hres has_lex cands s HT HS H.
  exact (Facts.post_panic (tantivy_post_post pd cts resort tbl parsed tokens rq Hres has_lex cands) H (conj HT HS)).
Qed.
Print Assumptions C10_post_evaluation_never_panics.

(* (6) hit assembly IS C16's page loop: forgetting text / matches / chunk range / rank / score, the hits
   are what Model/SearchPage.v's outer_loop (emit_tantivy, early break) yields on the same evaluated
   list, so C16's pagination theorems speak about these hits *)
Theorem C10_assembly_is_C16_page_loop :
  forall tbl k offset evs hits produced st',
    Forall (fun d => get tbl (ev_frame d) <> None) evs ->
    outer_loop tbl k offset evs (hits, produced) = Ok st' ->
    SearchPage.outer_loop SearchPage.emit_tantivy k offset true (map edoc_of evs) (map core hits, produced)
    = (map core (fst st'), snd st').
Proof. exact outer_loop_sim. Qed.
Print Assumptions C10_assembly_is_C16_page_loop.

(* (7) SECOND PIPELINE, search_with_lex_fallback, for ANY answer `ms` of the legacy index: at most
   max(1, top_k) hits, ranks 1..n, every hit names a frame of the table that is in the candidate
   filter, the parsed query holds on the INDEX'S content for that frame, the text is the frame content
   (frame_content) at the hit's range and the range lies inside the chunk range inside the content.
   Partial: that the index's content is the frame's search text, its uri / scope filtering
   (compute_matches applies it; the loop does not re-check) and "active" rest on the legacy index. *)
Theorem C10_lex_fallback_partial :
  forall parse_date canonical_text tbl parsed rq candidate_filter ms r,
    lex_fallback parse_date canonical_text tbl parsed rq candidate_filter (Some ms) = Ok r ->
    llen (r_hits r) <= N.max (rq_top_k rq) 1 /\ ranks_ok (r_hits r) /\
    Forall (lex_hit_good parse_date canonical_text tbl parsed candidate_filter ms) (r_hits r).
Proof.
  intros pd canonical_text tbl parsed rq cf ms r.
  exact (Facts.post_ok (lex_fallback_post pd canonical_text tbl parsed rq cf ms)).
Qed.
Print Assumptions C10_lex_fallback_partial.

(* (8) SECOND PIPELINE, search_with_filters_only (query without text token, the engine gave no answer),
   as repaired: for ANY table whose ids are its positions (C06), any query, request, candidate filter and
   search-text oracle: at most max(1, top_k) hits, ranks 1..n, and every hit names an existing frame that
   is ACTIVE, passes the request's uri / scope filter, lies in the candidate filter, whose lower-cased
   search text satisfies the query; text = the first max(snippet_chars, 80) chars of that search text,
   range = chunk range = (0, |text|).  No known class. *)
Theorem C10_filters_only_hits_valid :
  forall pd frame_search_text tbl parsed rq cf r,
    filters_only pd frame_search_text tbl parsed rq cf = Ok r -> dense tbl ->
    llen (r_hits r) <= N.max (rq_top_k rq) 1 /\
    map h_rank (r_hits r) = map (fun i => 1 + N.of_nat i) (seq 0 (length (r_hits r))) /\
    forall h, In h (r_hits r) ->
      in_filter cf (h_frame h) = true /\
      exists f st, get tbl (h_frame h) = Some f /\ f_status f = 0 /\ passes_filters rq f = true /\
                   frame_search_text f = Ok st /\ eval pd parsed (doc_of f (lower st)) = true /\
                   h_text h = utf8 (firstn (N.to_nat (N.max (rq_snippet_chars rq) 80)) st) /\
                   h_range h = (0, len (h_text h)) /\ h_chunk_range h = h_range h.
Proof.
  intros pd frame_search_text tbl parsed rq cf r Hr Hd.
  apply filters_only_valid in Hr. destruct Hr as (H1 & H2 & Hall & Hcf).
  split; [exact H1|]. split; [exact H2|]. intros h Hh. split; [apply Hcf; exact Hh|].
  rewrite Forall_forall in Hall. destruct (Hall h Hh) as (f & st & Hin & Hid & Hrest).
  exists f, st. rewrite <- Hid. split; [exact (dense_get tbl f Hd Hin) | exact Hrest].
Qed.
Print Assumptions C10_filters_only_hits_valid.

(* without the density hypothesis: the same about a frame OF THE TABLE carrying the hit's id *)
Theorem C10_filters_only_always :
  forall parse_date frame_search_text parsed rq tbl candidate_filter r,
    filters_only parse_date frame_search_text tbl parsed rq candidate_filter = Ok r ->
    llen (r_hits r) <= N.max (rq_top_k rq) 1 /\
    map h_rank (r_hits r) = map (fun i => 1 + N.of_nat i) (seq 0 (length (r_hits r))) /\
    Forall (fo_hit_good parse_date frame_search_text parsed rq tbl) (r_hits r) /\
    forall h, In h (r_hits r) -> in_filter candidate_filter (h_frame h) = true.
Proof. exact filters_only_valid. Qed.
Print Assumptions C10_filters_only_always.

(* the two former findings as regression examples on the repaired route: the query `*` returns neither
   the Deleted frame nor the frame outside the requested scope *)
Theorem C10_filters_only_regression :
  option_map (fun r => map h_frame (r_hits r))
             (match w_search [w_frame 0 2 None; w_frame 1 0 None] (w_rq None) with Ok r => Some r | _ => None end)
    = Some [1] /\
  option_map (fun r => map h_frame (r_hits r))
             (match w_search [w_frame 0 0 (Some w_uri_a); w_frame 1 0 (Some w_uri_b)] (w_rq (Some w_uri_b)) with
              | Ok r => Some r | _ => None end)
    = Some [1].
Proof. split; vm_compute; reflexivity. Qed.
Print Assumptions C10_filters_only_regression.

(* Non-vacuity: a four-frame table, all Active; the query  alpha AND NOT tag:"red"  parsed by C32's
   parser, scope mv2://docs/, an engine answer naming a stale id (9), the frame tagged red (1), the
   frame outside the scope (2), a frame without "alpha" (3) and frame 0: exactly one hit, the whole
   23-byte text "Alpha beta. Gamma alpha" of frame 0, with both occurrences counted. *)
(* for the literals below; not at the head of the file, where it would make the bare `length` of the
   statements above the one of String *)
From Coq Require Import String Ascii.
Fixpoint cps (s : string) : str :=
  match s with EmptyString => [] | String a r => N_of_ascii a :: cps r end.
Arguments cps _%string.

Definition nv_frame (id status : N) (uri : string) (tags : list string) (text : string) : frame :=
  mkFrame id status 0 (Some (cps uri)) None (map cps tags) [] 0%Z [] (Some (cps text)) None None None None None.
Arguments nv_frame id status uri%string tags text%string.
Definition nv_tbl : table :=
  [nv_frame 0 0 "mv2://docs/a" ["x"%string] "Alpha beta. Gamma alpha";
   nv_frame 1 0 "mv2://docs/b" ["red"%string] "alpha red";
   nv_frame 2 0 "mv2://other/c" [] "alpha elsewhere";
   nv_frame 3 0 "mv2://docs/d" [] "nothing here"].
Definition nv_rq : request := mkRq 3 80 None (Some (cps "mv2://docs/")) None.
Definition ascii_alnum (c : N) : bool :=
  ((48 <=? c) && (c <=? 57) || (65 <=? c) && (c <=? 90) || (97 <=? c) && (c <=? 122)).
Definition nv_parsed : outcome expr := fst (parse_query ascii_alnum (fun _ => None) (cps "alpha AND NOT tag:""red""")).

Example C10_nonvacuous :
  exists parsed r,
    nv_parsed = Ok parsed /\
    tantivy_post (fun _ => None) (fun _ => None) (fun l => l) false nv_tbl parsed [utf8 (cps "alpha")] nv_rq
                 [(9, 5); (1, 4); (2, 3); (3, 2); (0, 1)] = Ok (Some r) /\
    map (fun h => (h_rank h, h_frame h, h_range h, h_chunk_range h, h_matches h)) (r_hits r) = [(1, 0, (0, 23), (0, 23), 2)] /\
    payloads_utf8 nv_tbl /\ texts_in_range nv_tbl.
Proof.
  eexists. eexists. split; [vm_compute; reflexivity|]. split; [vm_compute; reflexivity|].
  split; [vm_compute; reflexivity|]. split.
  - intros f n s Hf Hp. cbn in Hf. destruct Hf as [<-|[<-|[<-|[<-|[]]]]]; discriminate Hp.
  - intros f ci Hf Hr. cbn in Hf.
    destruct Hf as [<-|[<-|[<-|[<-|[]]]]]; vm_compute in Hr; inversion Hr; vm_compute; reflexivity.
Qed.

(* chunked document: parent 0 (manifest of 2 chunks), chunks 1 and 2 with payloads of 6 and 5 bytes;
   a hit on chunk 2 lies at offset 6 inside the parent's concatenated chunks *)
Definition nv_chunk (id idx : N) (text : string) : frame :=
  mkFrame id 0 1 None None [] [] 0%Z [] (Some (cps text)) (Some 0) (Some idx) None
          (Some (N.of_nat (String.length text))) (Some (N.of_nat (String.length text), cps text)).
Arguments nv_chunk id idx text%string.
Definition nv_tbl2 : table :=
  [mkFrame 0 0 0 None None [] [] 0%Z [] (Some (cps "alpha ")) None None (Some 2) (Some 0) None;
   nv_chunk 1 0 "alpha "; nv_chunk 2 1 "gamma"].
Example C10_nonvacuous_chunk :
  exists r,
    tantivy_post (fun _ => None) (fun _ => None) (fun l => l) false nv_tbl2 (ETerm (TWord (cps "gamma")))
                 [utf8 (cps "gamma")] (mkRq 1 0 None None None) [(2, 7)] = Ok (Some r) /\
    map (fun h => (h_frame h, h_range h, h_chunk_range h, h_text h)) (r_hits r) = [(2, (6, 11), (6, 11), utf8 (cps "gamma"))].
Proof. eexists. split; vm_compute; reflexivity. Qed.

(* filters-only route: a Deleted frame, an Active frame outside the scope, an Active frame inside it *)
Example C10_nonvacuous_filters_only :
  let tbl := [w_frame 0 2 (Some w_uri_b); w_frame 1 0 (Some w_uri_a); w_frame 2 0 (Some w_uri_b)] in
  exists r, w_search tbl (w_rq (Some w_uri_b)) = Ok r /\ dense tbl /\ map h_frame (r_hits r) = [2] /\
            map h_range (r_hits r) = [(0, 5)].
Proof.
  eexists. split; [vm_compute; reflexivity|]. split; [|split; vm_compute; reflexivity].
  intros i f Hi. destruct i as [|[|[|i]]]; cbn in Hi; inversion Hi; try reflexivity.
  destruct i; discriminate.
Qed.
