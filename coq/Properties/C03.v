(* C03 Power-loss durability of synced data (protocol level, partial; same model as C02).
   Disk model: a completed fsync makes an inode's content durable; un-synced writes of an inode
   may be lost from the end (any prefix survives); an un-synced rename may be lost.
   Short proofs stand under the statements; what they rest on is in Proofs/FsProtoProofs.v. *)
From MV Require Import Base.Prelude Model.FsProto Proofs.FsProtoProofs.

(* Staged commit: power loss at any point leaves the old or the new image; once commit has
   returned (all operations executed, including the directory fsync) only the new image. *)
Theorem C03_staged_commit_power_safe :
  forall (c : content) (t : list fsop), staged_commit_ok t = true ->
    (forall p q, t = p ++ q -> forall c', after_power_loss (exec (fs0 c) p) c' -> c' = c \/ c' = new_image c t) /\
    (forall c', after_power_loss (exec (fs0 c) t) c' -> c' = new_image c t).
Proof.
  intros c t Hok. destruct (staged_commit_stages c t Hok) as [Hpre Hend]. split.
  - intros p q E c'. apply stage_power_loss, (Hpre p q E).
  - intros c'. apply synced_power_loss, Hend.
Qed.
Print Assumptions C03_staged_commit_power_safe.

(* A put that has returned: the record write was fsynced, so every power-loss image holds it. *)
Theorem C03_acknowledged_record_is_durable :
  forall (c : content) (r z : wr) (s : fs), synced c s ->
  forall c', after_power_loss (exec s [WriteMem r; FsyncMem; WriteMem z]) c' -> c' = c ++ [r] \/ c' = c ++ [r; z].
Proof. intros c r z s (<- & _ & Hs). apply wal_append_durable, Hs. Qed.
Print Assumptions C03_acknowledged_record_is_durable.

(* ... and the fsync is necessary: before it the record may be lost. *)
Theorem C03_unsynced_record_may_be_lost :
  forall (c : content) (r : wr) (s : fs), synced c s -> after_power_loss (exec s [WriteMem r]) c.
Proof. intros c r s (_ & <- & _). apply wal_append_unsynced_may_lose. Qed.
Print Assumptions C03_unsynced_record_may_be_lost.

Example C03_nonvacuous :
  let t := [FsyncMem; OpenTmp; CopyToTmp; FsyncTmp; WriteTmp (W 1); FsyncTmp; RenameTmp; FsyncDir] in
  staged_commit_ok t = true /\
  after_power_loss (exec (fs0 [W 0]) (firstn 7 t)) [W 0] /\ after_power_loss (exec (fs0 [W 0]) (firstn 7 t)) [W 0; W 1].
Proof.
  split; [reflexivity|]. split.
  - right. split; reflexivity.
  - left. exists 0%nat. reflexivity.
Qed.
