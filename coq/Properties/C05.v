(* C05 Embedded log never loses or resurrects records.
   Short proofs stand under the statements; what they rest on is in Proofs/WalProofs.v; model
   Model/Wal.v; spec Model/WalSpec.v. *)
From MV Require Import Base.Prelude Model.Wal Model.WalSpec Proofs.WalProofs.
Local Open Scope N_scope.

(* For ANY 32-byte hash function H, ANY region size > 0 and ANY list of operations
   (append of any payload size, checkpoint, stats, pending, records_after, reopen from the
   header written at the last checkpoint, should_checkpoint), starting from a fresh region:
   the model of EmbeddedWal produces exactly the outputs the abstract specification
   Model/WalSpec.v allows, where
     - pending_records returns exactly the records appended since the last checkpoint, in order;
     - an append either gets the next sequence number and joins the pending list, or is refused
       with too-large / empty / too-small / full and changes nothing;
     - a checkpoint empties the pending list; stats report the pending bytes;
     - reopening from the header changes nothing.
   In particular no record from before the checkpoint is ever reported as pending and no
   acknowledged record is lost. *)
Theorem C05_log_refines_spec :
  forall (H : bytes -> bytes), (forall p, length (H p) = 32%nat) ->
  forall (thr : N * N) (period size : N) (ops : list wop),
    0 < size -> N.of_nat (length ops) < 2 ^ 64 ->
    exists w0, open_wal H (zeros (N.to_nat size)) size (mkHdr 0 0) = Ok w0 /\
               spec_run size (mkA [] 0 0) ops (wrun H thr period (w0, mkHdr 0 0) ops).
Proof.
  (* the fresh region is a log in use with no records; opening it is reopening that log *)
  intros H H32 thr period size ops Hpos Hb.
  destruct (reopen_refines H H32 _ _ _ (blank_inv H size Hpos)) as (w0 & Eo & HI & Ea & Hs & Hw).
  exists w0. split; [exact Eo|]. cbn [wsize sequence] in Hs, Hw.
  rewrite <- Hw. change (mkA [] 0 0) with (abs (mkWal (zeros (N.to_nat size)) size 0 0 0 0 0 0) []).
  rewrite <- Ea. apply (wrun_refines H H32); [exact HI | lia].
Qed.
Print Assumptions C05_log_refines_spec.

(* The scan lemma on its own: a region holding the images of any well-formed record list,
   followed by a zero header or by fewer than 48 bytes, scans back to exactly that list. *)
Theorem C05_scan_returns_written_records :
  forall (H : bytes -> bytes), (forall p, length (H p) = 32%nat) ->
  forall recs fuel tail cursor size,
    Forall rec_ok recs -> (length recs < fuel)%nat -> cursor + total recs <= size ->
    stops tail (cursor + total recs) size ->
    scan_from H fuel (images H recs ++ tail) cursor size = Ok (recs, cursor + total recs).
Proof. exact scan_images. Qed.
Print Assumptions C05_scan_returns_written_records.

(* constants tied to the source (regenerated each run) *)
Require MV.Gen.Consts.
Theorem C05_consts_tied : EH = MV.Gen.Consts.ENTRY_HEADER_SIZE.
Proof. reflexivity. Qed.
Print Assumptions C05_consts_tied.

(* Non-vacuity: a 200-byte region, toy 32-byte hash; the history fills the region to within
   48 bytes of its end (the case the original code got wrong), checkpoints, wraps, reopens. *)
Definition toyH (x : bytes) : bytes := repeat (fold_left N.add x 7 mod 256) 32.
Definition demo_ops : list wop :=
  [WAppend 30 1; WAppend 40 2; WPending; WCheckpoint; WPending; WAppend 1 3; WAppend 200 4;
   WAppend 10 5; WPending; WReopen; WPending; WCheckpoint; WAppend 100 6; WPending; WStats].
Example C05_nonvacuous :
  (forall p, length (toyH p) = 32%nat) /\
  exists w0, open_wal toyH (zeros 200) 200 (mkHdr 0 0) = Ok w0 /\
    wrun toyH (3, 4) 1000 (w0, mkHdr 0 0) demo_ops =
    [OSeq (Ok 1); OSeq (Ok 2);
     (* head now 166 of 200: fewer than 48 bytes left, both records still pending *)
     ORecs (Ok [mkRec 1 (payload_of 30 1); mkRec 2 (payload_of 40 2)]);
     OSeq (Ok 2); ORecs (Ok []);
     OSeq (Ok 3);            (* does not fit behind 166, nothing pending: wraps to offset 0 *)
     OSeq (Err 1);           (* 248 > 200: too small *)
     OSeq (Ok 4);
     ORecs (Ok [mkRec 3 (payload_of 1 3); mkRec 4 (payload_of 10 5)]);
     OOpen (Ok 0);
     ORecs (Ok [mkRec 3 (payload_of 1 3); mkRec 4 (payload_of 10 5)]);
     OSeq (Ok 4); OSeq (Ok 5); ORecs (Ok [mkRec 5 (payload_of 100 6)]); OStats 148 5].
Proof.
  split; [intros p; apply repeat_length|].
  eexists. split; [vm_compute; reflexivity|]. vm_compute. reflexivity.
Qed.
