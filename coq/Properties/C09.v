(* C09 Lexical search finds every matching document (recall).
   "If a single-word query occurs as a whole word in the searchable text of k active frames
    and k is at most top_k, search returns hits for all k frames -- with the default options
    and whether or not the fast pre-filter is enabled."

   Short proofs stand under the statements; what they rest on is in Proofs/RecallProofs.v (for
   (3a) also the closed form of the filters, Proofs/SketchFilterProofs.v).  Model:
   Model/Recall.v (sketch pre-filter and the pipeline of Memvid::search) on top of
   Model/Sketch.v (C39), Model/AsOf.v (C11), Model/SearchPage.v (C16).

   Reading.  M is the list of the k matching frames.  The search engine (Tantivy) is an
   oracle `engine : filter -> limit -> ranked (frame, score)` with the one hypothesis
   engine_recall: every frame of M inside the filter is returned whenever at most `limit`
   frames of M are inside the filter.  `toc` is what the evaluation loop reads per frame;
   `evaluable toc top_k f` says frame f survives it (in the table, parsed.evaluate true: the
   word occurs in its text) and has at least one non-empty in-range snippet.  cf0 is the
   candidate filter built before the sketch stage: None with the default options.

   THE PROPERTY AS STATED IS REFUTED twice by the faithful model, both reproduced on the
   unchanged implementation:
     F-C09-1 sketch-false-negative   (pre-filter on): the SimHash test `hamming <= 32` of
             score_entry rejects the entry of a frame that contains the query word; the
             frame is then not in the candidate filter handed to the engine.
     F-C09-2 snippets-exceed-top-k   (with or without the pre-filter): top_k bounds the
             number of SNIPPETS, a document with several snippets takes several of the
             top_k places and a later matching frame gets no hit although k <= top_k.
   Outside these two classes recall is proved for every corpus, query sketch, score function,
   engine satisfying engine_recall, top_k. *)
From MV Require Import Base.Prelude Base.SortFacts Model.Sketch Model.AsOf Model.SearchPage Model.Recall
  Proofs.SketchFilterProofs Proofs.RecallProofs.
From MV Require Base.Facts Proofs.AsOfProofs.
Local Open Scope N_scope.

(* (1) recall outside the known classes *)
Theorem C09_recall_outside_known :
  forall (S : Type) (score_fn : N -> N -> N -> N -> N -> S) (s_le : S -> S -> bool) (s_zero : S)
         (engine : option (list N) -> N -> list (N * N)) (toc : N -> tocfacts) (combined : N -> Z -> N)
         (es : list entry) (q : qsketch) (top_k : N) (has_text no_sketch : bool)
         (cf0 : option (list N)) (has_lex : bool) (M : list N),
    let rq := mkSreq top_k None has_text no_sketch in
    top_k <= USIZE_MAX ->                            (* top_k is a usize *)
    NoDup M -> M <> [] -> len M <= top_k ->
    (forall f, In f M -> in_cf cf0 f = true) ->
    engine_recall engine M ->
    (forall f, In f M -> evaluable toc top_k f = true) ->
    known_sketch S score_fn s_le s_zero es q rq cf0 M = false ->
    known_snippets S score_fn s_le s_zero engine toc combined es q rq cf0 = false ->
    exists p, search S score_fn s_le s_zero engine toc combined es q rq cf0 has_lex = Ok (Some p) /\
              forall f, In f M -> In f (hit_frames p).
Proof. exact recall_outside_known. Qed.
Print Assumptions C09_recall_outside_known.

(* (2) pre-filter disabled.
   With no_sketch the sketch class is empty: recall holds for ALL corpora (any sketch track,
   any query sketch) under the engine hypothesis, k <= top_k, outside F-C09-2 only.  The
   engine is asked for doc_limit = max(20, 4 * max(top_k, 1)) >= k documents (no filter with
   the default options), which is why k <= top_k suffices for the engine hypothesis to apply. *)
Theorem C09_recall_no_sketch_outside_known :
  forall (S : Type) (score_fn : N -> N -> N -> N -> N -> S) (s_le : S -> S -> bool) (s_zero : S)
         (engine : option (list N) -> N -> list (N * N)) (toc : N -> tocfacts) (combined : N -> Z -> N)
         (es : list entry) (q : qsketch) (top_k : N) (has_text : bool) (has_lex : bool) (M : list N),
    let rq := mkSreq top_k None has_text true in
    top_k <= USIZE_MAX ->
    NoDup M -> M <> [] -> len M <= top_k ->
    engine_recall engine M ->
    (forall f, In f M -> evaluable toc top_k f = true) ->
    known_snippets S score_fn s_le s_zero engine toc combined es q rq None = false ->
    exists p, search S score_fn s_le s_zero engine toc combined es q rq None has_lex = Ok (Some p) /\
              forall f, In f M -> In f (hit_frames p).
Proof.
  intros S score_fn s_le s_zero engine toc combined es q top_k has_text has_lex M rq
         Husize Hnd Hne Hlen Heng Hev Hsnip.
  apply recall_outside_known; try assumption.
  - intros f _. reflexivity.
  - apply no_sketch_never_drops.
Qed.
Print Assumptions C09_recall_no_sketch_outside_known.

(* (3) what the sketch class is.
   (a) the bloom side cannot cause it: for ANY tokenizer / token hash / weights, the entry
       generate_sketch makes for a text and the sketch from_query makes for a query share a
       set filter bit as soon as text and query share one token (both filters are the closed form
       SketchFilterProofs.built of lists holding the token's hash, as in C39's no-false-negative
       theorem; term_filter_maybe_overlaps asks for ANY common bit). *)
Theorem C09_bloom_side_never_rejects :
  forall (token : Type) (token_eqb : token -> token -> bool) (hash_token : token -> N),
    (forall a b, token_eqb a b = true -> a = b) ->
    forall (raw_weight : token -> N -> Z) (fid : N) (doc_tokens query_tokens : list token) (v : variant) (t : token),
      (forall t c, (raw_weight t c <= 715827882)%Z) ->
      In t doc_tokens -> In t query_tokens ->
      exists e q, generate_sketch token token_eqb hash_token raw_weight fid doc_tokens v = Ok e /\
                  from_query token token_eqb hash_token query_tokens v = Ok q /\
                  e_frame_id e = fid /\
                  filters_overlap (e_filter e) (q_filter q) = true.
Proof.
  intros token token_eqb hash_token Hsound raw_weight fid doc_tokens query_tokens v t Hw Hd Hq.
  destruct (generate_sketch_filter token token_eqb hash_token raw_weight Hw fid doc_tokens v) as (e & He & Hid & Hfe).
  destruct (from_query_filter token_eqb hash_token query_tokens v) as (q & Hq' & Hfq).
  exists e, q. split; [exact He|]. split; [exact Hq'|]. split; [exact Hid|].
  rewrite Hfe, Hfq. apply (built_overlap (hash_token t) (term_filter_size_nz v)); apply weights_cover; assumption.
Qed.
Print Assumptions C09_bloom_side_never_rejects.

(* (b) the sketch candidates are exactly the ids of the entries passing
       `overlap && hamming <= 32`, cut to max_candidates = max(500, top_k.saturating_mul(10)) *)
Theorem C09_sketch_candidates_characterised :
  forall (S : Type) (score_fn : N -> N -> N -> N -> N -> S) (s_le : S -> S -> bool) (s_zero : S),
    (forall a b c d e, s_le s_zero (score_fn a b c d e) = true) ->
    forall (q : qsketch) (es : list entry) (maxc : N),
      (forall f, In f (sketch_candidate_ids S score_fn s_le s_zero q es maxc) ->
                 exists e, In e es /\ e_frame_id e = f /\ entry_passes q SKETCH_HAMMING_THRESHOLD e = true) /\
      (len (filter (entry_passes q SKETCH_HAMMING_THRESHOLD) es) <= maxc ->
       forall e, In e es -> entry_passes q SKETCH_HAMMING_THRESHOLD e = true ->
                 In (e_frame_id e) (sketch_candidate_ids S score_fn s_le s_zero q es maxc)) /\
      len (sketch_candidate_ids S score_fn s_le s_zero q es maxc) <= maxc.
Proof.
  intros S score_fn s_le s_zero Hz q es maxc. split; [|split].
  - intros f. apply (candidate_ids_sound S score_fn s_le s_zero Hz).
  - intros Hn e. apply (candidate_ids_complete S score_fn s_le s_zero Hz); assumption.
  - apply (candidate_ids_bounded S score_fn s_le s_zero Hz).
Qed.
Print Assumptions C09_sketch_candidates_characterised.

(* (c) hence the class is empty whenever every matching frame has an entry under its own
       number that passes the test, and no more than max(500, sat(10 * top_k)) entries pass: what
       remains is a Hamming distance above 32, the max_candidates cut, or an entry carrying
       another frame's number (after reopen, see (6)). *)
Theorem C09_sketch_class_needs_failing_entry :
  forall (S : Type) (score_fn : N -> N -> N -> N -> N -> S) (s_le : S -> S -> bool) (s_zero : S),
    (forall a b c d e, s_le s_zero (score_fn a b c d e) = true) ->
    forall (es : list entry) (q : qsketch) (top_k : N) (has_text no_sketch : bool) (cf0 : option (list N)) (M : list N),
      (forall f, In f M -> exists e, In e es /\ e_frame_id e = f /\ entry_passes q SKETCH_HAMMING_THRESHOLD e = true) ->
      len (filter (entry_passes q SKETCH_HAMMING_THRESHOLD) es) <= sketch_max_candidates top_k ->
      known_sketch S score_fn s_le s_zero es q (mkSreq top_k None has_text no_sketch) cf0 M = false.
Proof.
  intros S score_fn s_le s_zero Hz es q top_k has_text no_sketch cf0 M Hpass Hcut.
  apply sketch_drops_false. intros f Hf H0. apply final_filter_keeps; [exact H0|]. intros _.
  destruct (Hpass f Hf) as (e & He & <- & Hp). apply (candidate_ids_complete S score_fn s_le s_zero Hz); assumption.
Qed.
Print Assumptions C09_sketch_class_needs_failing_entry.

(* (4) refutation, pre-filter on: F-C09-1.
   Real values of the implementation (generate_sketch / QuerySketch::from_query, variant
   Small), see the witness block below: WITNESS_A contains the query word, Hamming
   distance of its SimHash to the query's is above 32; WITNESS_B does not contain it and
   passes.  The candidate set is {1}; the engine, restricted to it, has nothing; frame 0 is
   lost -- while the same request with no_sketch returns it. *)
(* query "gikubak": hash_token = 1112779195657537185 (first 8 bytes of BLAKE3, little endian)
   WITNESS_A = generate_sketch(0, "gikubak widulek wikuhak wiruduk wixaluk", Small, None): Hamming distance 34
   WITNESS_B = generate_sketch(1, "rutabek ruvohak ruvoruk", Small, None): Hamming distance 31, shares a filter bit *)
Definition witness_hash : N := 1112779195657537185.
Definition witness_A : entry :=
  mkEntry 0 6175153369182855145 [0; 0; 32; 16; 66; 0; 0; 8; 42; 1; 0; 16; 129; 32; 8; 4] [1374528617; 1883428121] 500 23 0.
Definition witness_B : entry :=
  mkEntry 1 4764081030674116695 [32; 0; 0; 2; 2; 0; 0; 0; 0; 0; 136; 8; 16; 0; 16; 16] [3228455331; 2830933559] 300 23 0.
Definition witness_q : qsketch :=
  match from_query N N.eqb (fun h => h) [witness_hash] Small with Ok q => q | _ => mkQ 0 [] [] 0 end.
Definition witness_engine := table_engine2 [(0, 1065353216)].
Definition witness_toc (f : N) : tocfacts := mkToc true 0 60 [[(0, 60)]] 0%Z.
Definition witness_combined (s : N) (_ : Z) : N := s.

Theorem C09_recall_refuted_sketch :
  exists (es : list entry) (q : qsketch) (top_k : N) (M : list N),
    NoDup M /\ M <> [] /\ len M <= top_k /\ top_k <= USIZE_MAX /\
    engine_recall witness_engine M /\
    (forall f, In f M -> evaluable witness_toc top_k f = true) /\
    known_snippets unit unit_score unit_le tt witness_engine witness_toc witness_combined es q (mkSreq top_k None true false) None = false /\
    (* the matching frame's own entry fails only the Hamming test *)
    (forall e, In e es -> e_frame_id e = 0 ->
               filters_overlap (e_filter e) (q_filter q) = true /\ 32 < hamming_distance (e_simhash e) (q_simhash q)) /\
    (* pre-filter on: a response without the matching frame *)
    (exists p, search unit unit_score unit_le tt witness_engine witness_toc witness_combined es q (mkSreq top_k None true false) None false = Ok (Some p) /\
               exists f, In f M /\ ~ In f (hit_frames p)) /\
    (* pre-filter off: the frame is returned *)
    (exists p, search unit unit_score unit_le tt witness_engine witness_toc witness_combined es q (mkSreq top_k None true true) None false = Ok (Some p) /\
               forall f, In f M -> In f (hit_frames p)) /\
    known_sketch unit unit_score unit_le tt es q (mkSreq top_k None true false) None M = true.
Proof.
  exists [witness_A; witness_B], witness_q, 10, [0].
  split; [repeat constructor; intros []|].
  split; [discriminate|]. split; [vm_compute; discriminate|]. split; [vm_compute; discriminate|].
  split; [exact (table_engine2_recall [(0, 1065353216)])|].
  split; [intros f [<-|[]]; vm_compute; reflexivity|].
  split; [vm_compute; reflexivity|].
  split.
  { intros e [<-|[<-|[]]] Hid; [|vm_compute in Hid; discriminate].
    split; [vm_compute; reflexivity | vm_compute; reflexivity]. }
  split.
  { eexists. split; [vm_compute; reflexivity|]. exists 0. split; [left; reflexivity|]. vm_compute. intros []. }
  split.
  { eexists. split; [vm_compute; reflexivity|]. intros f [<-|[]]. vm_compute. left. reflexivity. }
  vm_compute. reflexivity.
Qed.
Print Assumptions C09_recall_refuted_sketch.

(* (5) refutation, pre-filter off: F-C09-2.
   Two matching frames, top_k = 2: the better-ranked frame 0 has two snippets, both hits are
   its, frame 1 gets none (the shape of the recorded witness on the implementation) *)
Definition crowd_engine := table_engine2 [(0, 1073741824); (1, 1065353216)].
Definition crowd_toc (f : N) : tocfacts :=
  if f =? 0 then mkToc true 0 317 [[(0, 91)]; [(0, 91); (168, 317)]] 432000%Z
  else mkToc true 0 65 [[(0, 65)]] 1%Z.

Theorem C09_recall_refuted_no_sketch :
  forall (S : Type) (score_fn : N -> N -> N -> N -> N -> S) (s_le : S -> S -> bool) (s_zero : S)
         (es : list entry) (q : qsketch),
  exists (top_k : N) (M : list N),
    NoDup M /\ M <> [] /\ len M <= top_k /\ top_k <= USIZE_MAX /\
    engine_recall crowd_engine M /\
    (forall f, In f M -> evaluable crowd_toc top_k f = true) /\
    known_sketch S score_fn s_le s_zero es q (mkSreq top_k None true true) None M = false /\
    (exists p, search S score_fn s_le s_zero crowd_engine crowd_toc combined_days es q (mkSreq top_k None true true) None false = Ok (Some p) /\
               exists f, In f M /\ ~ In f (hit_frames p)) /\
    known_snippets S score_fn s_le s_zero crowd_engine crowd_toc combined_days es q (mkSreq top_k None true true) None = true.
Proof.
  intros S score_fn s_le s_zero es q. exists 2, [0; 1].
  split; [repeat constructor; [intros [H|[]]; discriminate | intros []]|].
  split; [discriminate|]. split; [vm_compute; discriminate|]. split; [vm_compute; discriminate|].
  split; [exact (table_engine2_recall [(0, 1073741824); (1, 1065353216)])|].
  split; [intros f [<-|[<-|[]]]; vm_compute; reflexivity|].
  split; [apply no_sketch_never_drops|].
  split.
  - exists (mkPage [(0, (0, 91)); (0, (168, 317))] 3 (Some 2)).
    split.
    + unfold search, final_filter, sketch_applies. cbn [r_has_text r_no_sketch r_top_k r_cursor].
      rewrite !andb_false_r. vm_compute. reflexivity.
    + exists 1. split; [right; left; reflexivity|]. vm_compute. intros [H|[H|[]]]; discriminate.
  - unfold known_snippets, evaluated_docs, final_filter, sketch_applies. cbn [r_has_text r_no_sketch r_top_k r_cursor].
    rewrite !andb_false_r. vm_compute. reflexivity.
Qed.
Print Assumptions C09_recall_refuted_no_sketch.

(* (6) close + reopen.
   The on-disk sketch track stores no frame ids (finding F-C39-1): after reopen the entries
   are numbered 0,1,2,.. in file order.  For the tracks Memvid itself builds (variant Small,
   16-byte filters) with ids 0,1,2,.. in insertion order (Sketch.known_ids = false: every
   frame got an entry), the frames whose entries pass the sketch test are the same before and
   after; SimHash and filter survive, only the score (length hint, flags) changes. *)
Theorem C09_reopen_dense_same_passing :
  forall (q : qsketch) (thr : N) (t : track),
    t_variant t = Small ->
    Forall (fun e => length (e_filter e) = 16%nat) (t_entries t) ->
    known_ids t = false ->
    map e_frame_id (filter (entry_passes q thr) (t_entries (reopened t)))
    = map e_frame_id (filter (entry_passes q thr) (t_entries t)).
Proof.
  intros q thr t Hv Hf Hk. unfold reopened, readback. cbn [t_entries]. rewrite Hv.
  (* ids and test results agree position by position *)
  apply map_filter_agree; [|apply reopen_passing_positions, Hf].
  rewrite norm_from_ids. symmetry.
  apply negb_false_iff in Hk. exact (proj1 (Facts.list_eqb_spec N.eqb N.eqb_eq _ _) Hk).
Qed.
Print Assumptions C09_reopen_dense_same_passing.

(* and when the ids are NOT dense (frame 0 has no entry) the reopened track names the wrong
   frames: the entry of frame 2 passes, is numbered 1 after reopen, frame 2 is no candidate *)
Theorem C09_reopen_sparse_renumbers :
  exists (t : track) (q : qsketch),
    t_variant t = Small /\ Forall (fun e => length (e_filter e) = 16%nat) (t_entries t) /\
    known_ids t = true /\
    sketch_candidate_ids unit unit_score unit_le tt q (t_entries t) 500 = [2] /\
    sketch_candidate_ids unit unit_score unit_le tt q (t_entries (reopened t)) 500 = [1].
Proof.
  exists (mkTrack Small [mkEntry 1 18446744073709551615 (repeat 1 16) [7; 9] 0 7 0;
                         mkEntry 2 0 (repeat 1 16) [7; 9] 0 7 0]),
         (mkQ 0 (repeat 1 16) [7] 1).
  split; [reflexivity|]. split; [repeat constructor|]. vm_compute. repeat split; reflexivity.
Qed.
Print Assumptions C09_reopen_sparse_renumbers.

(* non-vacuity.
   The hypotheses of (1) are met by a non-trivial instance with the pre-filter ON and a
   filter that really removes a frame: three frames, two match and pass the sketch test, the
   third fails it; both matching frames are returned *)
Example C09_hypotheses_satisfiable :
  let es := [mkEntry 0 0 (repeat 1 16) [7] 0 7 0; mkEntry 1 18446744073709551615 (repeat 1 16) [8] 0 7 0;
             mkEntry 2 255 (repeat 1 16) [9] 0 7 0] in
  let q := mkQ 0 (repeat 1 16) [7] 1 in
  let engine := table_engine2 [(2, 1073741824); (0, 1065353216)] in
  let M := [2; 0] in
  let rq := mkSreq 2 None true false in
  NoDup M /\ len M <= 2 /\ engine_recall engine M /\
  (forall f, In f M -> evaluable witness_toc 2 f = true) /\
  known_sketch unit unit_score unit_le tt es q rq None M = false /\
  known_snippets unit unit_score unit_le tt engine witness_toc witness_combined es q rq None = false /\
  final_filter unit unit_score unit_le tt es q true false 2 None = Some [0; 2] /\
  option_map hit_frames
    (match search unit unit_score unit_le tt engine witness_toc witness_combined es q rq None false with
     | Ok p => p | _ => None end) = Some [2; 0].
Proof.
  cbv zeta. split; [repeat constructor; [intros [H|[]]; discriminate | intros []]|].
  split; [vm_compute; discriminate|].
  split; [exact (table_engine2_recall [(2, 1073741824); (0, 1065353216)])|].
  split; [intros f [<-|[<-|[]]]; vm_compute; reflexivity|].
  vm_compute. repeat split; reflexivity.
Qed.

(* the score hypothesis `every score >= min_score 0.0` holds for the score-free instance *)
Example C09_unit_score_zero_least : forall a b c d e, unit_le tt (unit_score a b c d e) = true.
Proof. reflexivity. Qed.
