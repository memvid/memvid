(* C21 Doctor preserves committed data, heals, and is idempotent.
   Short proofs stand under the statements; what they rest on is in Proofs/DoctorProofs.v and Proofs/DoctorRun.v.
   Model: Model/Doctor.v (abstract file; probe -> compute -> open -> phases -> verify as in doctor.rs).

   Reading of the property text used here.
   * "active frame ... never removed or altered" = the frame-table row (status) and the content of the
     frame.  Embeddings live in the vector index, not in the frame.  Since fix 83a83e8 (F-C14-1) a vector
     rebuild re-encodes the entries of the index it loads, so the embeddings of active frames survive every
     doctor run on an index that still decodes (stated: f_nvec unchanged).  An index whose bytes are damaged
     holds the only copy: it comes back holding just the embeddings of the pending records (none when nothing
     is pending) -- stated (theorem 2) and observed, not counted as an altered frame.
   * "an immediate second doctor run reports Clean" = a second run with default options (with an option
     that forces work -- rebuild_* or vacuum -- the plan is never a no-op, so the status is Healed by
     construction; proved: Clean iff nothing is forced, never Failed).
   * the damage list is taken literally: header pointer, a TOC checksum (header copy or the copy stored in
     the TOC), footer fields, index segments -- alone or combined, on a closed or a crash-interrupted file,
     except that pointer and footer may not BOTH be lost (then nothing locates the TOC: boundary below).

   The property as stated is REFUTED in one remaining class (known finding F-C21-2 toc-checksum-field) and
   proved outside it for every listed damage, every pending-record list and all 32 option combinations.
   F-C21-1 (stale-pointer-after-replay) was repaired in /repo by f76b325 (HealHeaderPointer only moves the
   pointer forward); the model follows the repaired action, the action before the fix is kept as
   heal_ptr_unfixed / doctor_unfixed for the historical lemma. *)
From MV Require Import Base.Prelude Model.Doctor Proofs.DoctorProofs Proofs.DoctorRun.
Local Open Scope N_scope.

(* (1) every damage of the list, applied to any sound file (closed or with pending acknowledged records,
       indexes in any state), any options without dry_run, outside the known class: the result is a
       healthy file whose frame table is exactly committed rows + pending records applied (so every active
       frame is kept with its content and no acknowledged record is dropped), the report is Clean or Healed
       with verification passed, the file opens and verifies, and a second default run reports Clean and
       changes no row. *)
Theorem C21_doctor_heals_every_listed_damage_outside_known : forall d o f,
  sound f -> o_dry o = false -> known_class o (damage_file d f) = false ->
  let r := doctor o (damage_file d f) in
  healthy (fst r) /\ f_rows (fst r) = view f /\ preserves (view f) (f_rows (fst r)) = true /\
  (r_status (snd r) = 0 \/ r_status (snd r) = 1) /\ r_verified (snd r) = Some true /\
  verify (fst r) = Ok true /\ opens (fst r) = true /\
  r_status (snd (doctor default_opts (fst r))) = 0 /\ f_rows (fst (doctor default_opts (fst r))) = view f.
Proof.
  intros d o f Hs Hdry Hk. cbv zeta.
  destruct (damage_wf d f Hs) as (Hwf & Hview).
  unfold known_class in Hk. rewrite Hdry in Hk.
  destruct (doctor_heals o (damage_file d f) Hdry Hwf Hk) as ([Hh Hold Hr _] & Hst & Hvf).
  rewrite Hview in Hr.
  destruct (healthy_wf _ Hh Hold) as (Hwf2 & Hk2).
  destruct (doctor_second_run default_opts _ eq_refl Hh Hold) as (_ & Hr2 & Hs2).
  split; [exact Hh|]. split; [exact Hr|].
  split; [rewrite Hr; apply preserves_refl|].
  split; [rewrite Hst; destruct (is_noop _); [left|right]; reflexivity|].
  split; [exact Hvf|]. split; [exact (healthy_verify _ Hh)|].
  split; [unfold opens; rewrite (try_open_wf _ Hwf2 Hk2); reflexivity|].
  split; [exact Hs2|]. rewrite Hr2. exact Hr.
Qed.
Print Assumptions C21_doctor_heals_every_listed_damage_outside_known.

(* (2) the same for ANY combination of listed damages (any file satisfying wf: TOC body decodes, no older
       commit in the file, log readable, pointer and footer not both lost), with the status rule and the
       vector count made explicit. *)
Theorem C21_doctor_heals_outside_known : forall o f,
  wf f -> o_dry o = false -> known_class o f = false ->
  healthy (fst (doctor o f)) /\
  f_rows (fst (doctor o f)) = view f /\
  preserves (view f) (f_rows (fst (doctor o f))) = true /\
  r_status (snd (doctor o f)) = (if is_noop (compute o f) then 0 else 1) /\
  r_verified (snd (doctor o f)) = Some true /\
  verify (fst (doctor o f)) = Ok true /\
  f_nvec (fst (doctor o f)) = (if vec_bad (f_vec f) && negb (replayed f) then 0 else f_nvec f).
Proof.
  intros o f Hwf Hdry Hk. unfold known_class in Hk. rewrite Hdry in Hk.
  destruct (doctor_heals o f Hdry Hwf Hk) as (Hl & Hst & Hvf).
  split; [exact (hl_healthy _ _ Hl)|]. split; [exact (hl_rows _ _ Hl)|].
  split; [rewrite (hl_rows _ _ Hl); apply preserves_refl|]. split; [exact Hst|]. split; [exact Hvf|].
  split; [exact (healthy_verify _ (hl_healthy _ _ Hl))|exact (hl_nvec _ _ Hl)].
Qed.
Print Assumptions C21_doctor_heals_outside_known.

(* (3) idempotence: on a healthy file any non-dry run leaves a healthy file with the same rows; it reports
       Clean exactly when the options force nothing (Healed otherwise, never Failed). *)
Theorem C21_second_run : forall o m,
  o_dry o = false -> healthy m -> f_older m = None ->
  healthy (fst (doctor o m)) /\ f_rows (fst (doctor o m)) = f_rows m /\
  r_status (snd (doctor o m)) = (if forces o then 1 else 0).
Proof. exact doctor_second_run. Qed.
Print Assumptions C21_second_run.

(* (4) dry_run changes nothing, for every file whatsoever; Clean iff the plan is a no-op, else PlanOnly. *)
Theorem C21_dry_run_changes_nothing : forall o f, o_dry o = true ->
  fst (doctor o f) = f /\ r_status (snd (doctor o f)) = (if is_noop (compute o f) then 0 else 4) /\
  r_verified (snd (doctor o f)) = None.
Proof. intros o f Hd. unfold doctor, doctor_gen. rewrite Hd. repeat split. Qed.
Print Assumptions C21_dry_run_changes_nothing.

(* (5) when the first run says Clean: exactly when header, TOC and footer agree, nothing is pending, no
       index needs a rebuild and no option forces work. *)
Theorem C21_clean_iff_nothing_to_do : forall o f, wf f ->
  is_noop (compute o f) = true <->
  (read_toc f = true /\ f_H f = f_S f /\ replayed f = false /\ needs_time_of f = false /\
   vec_bad (f_vec f) = false /\ forces o = false).
Proof. exact is_noop_wf. Qed.
Print Assumptions C21_clean_iff_nothing_to_do.

(* Refutations: the faithful model violates the property as stated. *)
Definition base_closed : afile :=
  mkFile 9000 9000 9500 7 7 7 true true true None WClean 12 IxOk true IxOk 2 [(0, 1000); (2, 0); (0, 3000)].
Definition base_pending : afile :=
  mkFile 9000 9000 9500 7 7 7 true true true None (WPending [PIns 4000; PDel 0]) 12 IxOk true IxOk 2
         [(0, 1000); (2, 0); (0, 3000)].

(* F-C21-1 stale-pointer-after-replay (repaired by f76b325): header pointer damaged on a crash-interrupted
   file whose pending records insert a frame.  The F-C21-1 witness heals: rows = committed + pending applied,
   Healed, verification passed, second run Clean. *)
Example C21_regression_stale_pointer_heals :
  let f := damage_file (DPtr 9001) base_pending in
  let r := doctor default_opts f in
  sound base_pending /\ stale_ptr_class f = true /\
  f_rows (fst r) = view base_pending /\ preserves (view base_pending) (f_rows (fst r)) = true /\
  r_status (snd r) = 1 /\ r_verified (snd r) = Some true /\ opens (fst r) = true /\
  r_status (snd (doctor default_opts (fst r))) = 0.
Proof. vm_compute. repeat split; try reflexivity; exact I. Qed.

(* historical: with the action as it was before the fix (`!=` instead of `<`) the open inside doctor replays
   (the TOC moves), HealHeaderPointer writes the planned -- now stale -- offset into the header and Finalize
   writes the TOC there, on top of the payload the replay just stored: the acknowledged frame is altered,
   verification fails, status Failed. *)
Theorem C21_unfixed_stale_pointer_refuted : exists d o f,
  sound f /\ o_dry o = false /\
  preserves (view f) (f_rows (fst (doctor_unfixed o (damage_file d f)))) = false /\
  r_status (snd (doctor_unfixed o (damage_file d f))) = 3.
Proof. exists (DPtr 9001), default_opts, base_pending. vm_compute. repeat split; try reflexivity; exact I. Qed.
Print Assumptions C21_unfixed_stale_pointer_refuted.

(* the branch the repaired action still has (target ahead of the handle's pointer: write it) is never taken on
   a listed file (wf): the planned target is the TOC offset the probe saw, the handle's pointer after the open is
   that offset, or one further when the replay inserted a frame. *)
Theorem C21_heal_pointer_target_never_ahead : forall o f m0 extra t,
  wf f -> known_toc_cksum f = false ->
  open_for_doctor (compute o f) f = inl (m0, extra) -> pl_heal_ptr (compute o f) = Some t ->
  (t <= f_ptr m0)%N /\ heal_ptr m0 (Some t) = m0.
Proof. exact heal_ptr_target_never_ahead. Qed.
Print Assumptions C21_heal_pointer_target_never_ahead.

(* F-C21-2 toc-checksum-field: the checksum stored inside the TOC damaged, nothing pending.  The TOC is
   recovered from the header hint, but open re-verifies the stored checksum after the (empty) replay and
   fails; doctor reports Failed, the file still does not open, a second run fails the same way. *)
Theorem C21_refuted_toc_checksum : exists d o f,
  sound f /\ o_dry o = false /\
  r_status (snd (doctor o (damage_file d f))) = 3 /\
  opens (fst (doctor o (damage_file d f))) = false /\
  r_status (snd (doctor default_opts (fst (doctor o (damage_file d f))))) = 3.
Proof. exists (DTocCk 8), default_opts, base_closed. vm_compute. repeat split; try reflexivity; exact I. Qed.
Print Assumptions C21_refuted_toc_checksum.

(* the remaining class is exactly what the outside_known theorems exclude *)
Example C21_known_classes :
  known_class default_opts (damage_file (DPtr 9001) base_pending) = false /\
  known_class default_opts (damage_file (DTocCk 8) base_closed) = true /\
  known_class default_opts (damage_file (DTocCk 8) base_pending) = false /\
  known_class default_opts (damage_file (DPtr 9001) base_closed) = false /\
  known_class (mkOpts false false false false true) (damage_file (DPtr 9001) base_pending) = false.
Proof. vm_compute. repeat split. Qed.

(* Boundaries: outside the property's damage list. *)
(* an unreadable log is zeroed by doctor: the rows stay the committed ones -- acknowledged pending records
   are dropped -- and the report is Clean or Healed all the same.  A torn last record (power loss during an
   append; a killed process cannot tear the single write) puts a crash-left file here. *)
Theorem C21_boundary_corrupt_log_drops_pending : forall o f ps,
  o_dry o = false -> f_wal f = WCorrupt ps -> healthy (zero_log f) -> f_older f = None ->
  f_rows (fst (doctor o f)) = f_rows f /\ r_status (snd (doctor o f)) <> 3.
Proof.
  intros o f ps Hdry Hw Hh Ho.
  destruct (healthy_wf _ Hh Ho) as (Hwf & Hk).
  destruct (doctor_corrupt_log o f ps Hdry Hw Hwf Hk) as (Hl & Hs).
  split; [exact (hl_rows _ _ Hl)|]. rewrite Hs. destruct (is_noop _); discriminate.
Qed.
Print Assumptions C21_boundary_corrupt_log_drops_pending.

Example C21_boundary_corrupt_log_example :
  let f := mkFile 9000 9000 9500 7 7 7 true true true None (WCorrupt [PIns 4000]) 12 IxOk true IxOk 2 [(0, 1000)] in
  view f = [(0, 1000); (0, 4000)] /\ f_rows (fst (doctor default_opts f)) = [(0, 1000)] /\
  r_status (snd (doctor default_opts f)) = 0.
Proof. vm_compute. repeat split. Qed.

(* an older commit (footer + TOC) still intact inside the file is what recover_toc finds first when the last
   footer is damaged: doctor then restores the OLDER table and reports Healed.  The correspondence run counts
   such files (tag older-valid-footer-in-file); none was produced by commit so far. *)
Example C21_boundary_older_commit_restored :
  let f := mkFile 9000 9000 9500 7 7 7 false true true (Some ([(0, 1000)], 6000, 5)) WClean 12 IxOk true IxOk 0
                  [(0, 1000); (0, 2000)] in
  f_rows (fst (doctor default_opts f)) = [(0, 1000)] /\ r_status (snd (doctor default_opts f)) = 1.
Proof. vm_compute. repeat split. Qed.

(* pointer AND footer lost: nothing locates the TOC; doctor fails, rewrites only the header pointer (to the
   footer position), rows untouched *)
Example C21_boundary_pointer_and_footer_lost :
  let f := damage_file (DPtr 17) (damage_file DFooter base_closed) in
  r_status (snd (doctor default_opts f)) = 3 /\ f_rows (fst (doctor default_opts f)) = f_rows base_closed /\
  opens (fst (doctor default_opts f)) = false.
Proof. vm_compute. repeat split. Qed.

(* vectors: a forced rebuild on an index that decodes keeps the count; a damaged index on a closed file
   comes back empty; on a crash-left file it holds what the replay wrote (the pending embeddings) *)
Example C21_vectors_after_doctor :
  f_nvec (fst (doctor (mkOpts false false true false false) base_closed)) = 2 /\
  f_nvec (fst (doctor default_opts (damage_file DVec base_closed))) = 0 /\
  f_vec (fst (doctor default_opts (damage_file DVec base_closed))) = IxNone /\
  f_nvec (fst (doctor default_opts (damage_file DVec base_pending))) = f_nvec base_pending /\
  f_vec (fst (doctor default_opts (damage_file DVec base_pending))) = IxOk.
Proof. vm_compute. repeat split. Qed.

Example C21_nonvacuous_hypotheses :
  sound base_closed /\ sound base_pending /\
  wf (damage_file DFooter (damage_file (DHdrCk 9) (damage_file DTime base_pending))) /\
  known_class (mkOpts true false true true false) (damage_file DFooter (damage_file (DHdrCk 9) (damage_file DTime base_pending))) = false /\
  healthy (fst (doctor default_opts (damage_file (DPtr 0) base_closed))).
Proof.
  assert (Hc : sound base_closed) by (vm_compute; repeat split).
  split; [exact Hc|]. split; [|split; [|split]].
  - vm_compute. repeat split.
  - (* wf: the footer is lost, but no damage here touches the pointer *)
    split; [reflexivity|]. split; [reflexivity|]. split; [exact I|]. right. reflexivity.
  - reflexivity.
  - apply (hl_healthy (damage_file (DPtr 0) base_closed)), doctor_heals.
    + reflexivity.
    + apply damage_wf. exact Hc.
    + reflexivity.
Qed.

Example C21_nonvacuous_run :
  let f := damage_file DFooter (damage_file (DHdrCk 9) (damage_file DVec base_pending)) in
  let r := doctor (mkOpts false false false true false) f in
  r_status (snd r) = 1 /\ r_phases (snd r) = [1; 2; 4; 3; 5; 6] /\
  f_rows (fst r) = [(2, 0); (2, 0); (0, 3000); (0, 4000)] /\ f_nvec (fst r) = 2 /\
  r_status (snd (doctor default_opts (fst r))) = 0.
Proof. vm_compute. repeat split. Qed.
