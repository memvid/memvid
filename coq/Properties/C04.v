(* C04 Recovery is crash-safe and idempotent (partial).
   At frame-table level (Model/Store.v) replay at open = applying the pending log records
   (do_commit); at protocol level replay rewrites the file in place (class 3 of Corr/C02.v's
   classify), so crash-safety DURING replay is not derivable from the protocol: it is explored
   on the real code by nested kill enumeration (harness/src/c04.rs). *)
From MV Require Import Base.Prelude Model.Store Model.StoreSpec Proofs.StoreProofs.
Local Open Scope N_scope.

(* Replay exposes exactly what was acknowledged: from any state that exposes the frames R (J s R),
   the table after replay equals R, the frames the memory exposed before (committed + pending). *)
Theorem C04_replay_shows_every_acknowledged_op :
  forall s R extra, J s R ->
    committed (do_commit s extra) = R /\ view (do_commit s extra) = R /\ pending (do_commit s extra) = [].
Proof.
  intros s R extra HJ. split; [exact (J_view _ _ HJ)|]. split; [exact (J_view _ _ (J_commit s R extra HJ))|reflexivity].
Qed.
Print Assumptions C04_replay_shows_every_acknowledged_op.

(* Idempotence: replaying / opening again (any number of times) changes no frame. *)
Theorem C04_replay_idempotent :
  forall s R e1 e2, J s R ->
    view (do_commit (do_commit s e1) e2) = view (do_commit s e1) /\
    committed (do_commit (do_commit s e1) e2) = committed (do_commit s e1).
Proof.
  (* a commit leaves an empty log, and replaying an empty log computes to the committed table, on every store *)
  intros s R e1 e2 _. split; reflexivity.
Qed.
Print Assumptions C04_replay_idempotent.

(* and a crash+replay step of the model leaves the reference table as it is (nothing lost, nothing added) *)
Theorem C04_crash_replay_refines :
  forall s R extra, J s R -> let '(s1, o) := sstep s (OCrash extra) in J s1 R.
Proof.
  intros s R extra HJ. rewrite sstep_crash. apply J_commit, HJ.
Qed.
Print Assumptions C04_crash_replay_refines.

Example C04_nonvacuous :
  let s := fst (srun store0 [OPut (Some 1) 1000 0 0 None; OCommit 1; OPut None 2000 2 0 None; OUpdate 0 None None None]) in
  pending s <> [] /\ map f_id (committed (do_commit s 0)) = [0; 1; 2; 3; 4] /\
  map f_status (committed (do_commit (do_commit s 0) 0)) = [1; 0; 0; 0; 0].
Proof. vm_compute. repeat split. discriminate. Qed.
