(* C38 SIMD distance equals the scalar definition.
   "For every pair of equal-length f32 vectors of any length, the accelerated L2 distance
    equals the scalar L2 distance up to floating-point rounding, is symmetric, and is zero
    when the vectors are equal."
   Short proofs stand under the statements; what they rest on is in Proofs/SimdL2Proofs.v
   (carrier-generic, axiom-free) and Proofs/SimdL2Float.v (IEEE facts from Flocq).  The kernel
   (Model/SimdL2.v) is ONE definition over a carrier F; the code is its instance at binary32
   (Model/SimdL2F32.v).

   What is NOT a theorem here: the quantitative bound |simd - scalar| <= 2*gamma_{n+1}*scalar.
   It is tested on every generated case by the harness oracle (harness/src/c38.rs). *)
From Coq Require Import ZArith List.
From Flocq Require Import IEEE754.BinarySingleNaN.
From MV Require Import Base.Prelude Model.SimdL2 Model.SimdL2F32 Proofs.SimdL2Proofs Proofs.SimdL2Float Corr.C38.

(* (i) "equal up to rounding": over ANY carrier whose addition is a commutative monoid
   (every commutative ring; subtraction and multiplication are arbitrary), for EVERY length,
   the 8-lane accumulation + horizontal sum + scalar remainder is exactly the scalar
   definition -- the plain left-to-right sum of (a_i - b_i)*(a_i - b_i).  So on floats the
   two computations differ only in the order in which the same roundings-of-sums happen. *)
Theorem C38_exact_kernel_equals_scalar_definition :
  forall (F : Type) (zero : F) (add sub mul : F -> F -> F),
    (forall x y, add x y = add y x) ->
    (forall x y z, add x (add y z) = add (add x y) z) ->
    (forall x, add zero x = x) ->
    forall a b : list F, length a = length b ->
      l2_distance_squared_simd F zero zero add sub mul a b = Ok (l2sq_scalar F zero add sub mul a b).
Proof.
  intros F zero add sub mul Hc Ha H0 a b Hl.
  exact (simd_sq_exact F zero zero add sub mul Hc Ha H0 eq_refl a b Hl).
Qed.
Print Assumptions C38_exact_kernel_equals_scalar_definition.

(* ... instantiated at the ring Z: the kernel computes  sum_i (a_i - b_i)^2  exactly. *)
Theorem C38_exact_kernel_over_Z :
  forall a b : list Z, length a = length b ->
    l2_distance_squared_simd Z 0%Z 0%Z Z.add Z.sub Z.mul a b =
    Ok (fold_left Z.add (map (fun p => ((fst p - snd p) * (fst p - snd p))%Z) (combine a b)) 0%Z).
Proof.
  exact (C38_exact_kernel_equals_scalar_definition Z 0%Z Z.add Z.sub Z.mul Z.add_comm Z.add_assoc Z.add_0_l).
Qed.
Print Assumptions C38_exact_kernel_over_Z.

(* ... and at binary32 itself both results are sums of the SAME rounded terms
   t_i = fl(fl(a_i - b_i)^2): the kernel adds them lane-wise (body_terms), the scalar definition
   left to right.  Only the order of the rounded additions differs. *)
Theorem C38_same_terms_different_order :
  forall a b : list f32, length a = length b ->
    let t := term f32 f32_pzero f32_sub f32_mul a b in
    f32_l2sq_body a b = body_terms f32 f32_pzero f32_nzero f32_add t (length a) /\
    f32_l2sq_scalar a b = fold_left f32_add (map t (seq 0 (length a))) f32_nzero.
Proof.
  intros a b Hl t. split.
  - apply body_eq.
  - unfold f32_l2sq_scalar, l2sq_scalar. rewrite (combine_terms f32 f32_pzero f32_sub f32_mul a b Hl). reflexivity.
Qed.
Print Assumptions C38_same_terms_different_order.

(* (ii) symmetry in binary32, bit for bit, for ALL inputs of ALL lengths: no hypothesis at all
   (signed zeros, subnormals, infinities, overflow included; unequal lengths panic both ways;
   the model has a single NaN, so "bit for bit" is modulo the payload of a NaN result).
   Rests on two IEEE facts proved from Flocq for round-to-nearest-even:
   |fl(x-y)| = |fl(y-x)| (Babs_minus_sym) and fl(d*d) depends only on |d| (Bmult_self_abs). *)
Theorem C38_symmetric :
  forall a b : list f32,
    f32_l2_distance_squared_simd a b = f32_l2_distance_squared_simd b a /\
    f32_l2_distance_simd a b = f32_l2_distance_simd b a.
Proof. intros a b. split; [apply f32_simd_sq_sym | apply f32_simd_sym]. Qed.
Print Assumptions C38_symmetric.

(* the same on u32 bit patterns, as the correspondence runner sees it *)
Theorem C38_symmetric_bits :
  forall av bv : list N, C38_run (av, bv) = C38_run (bv, av).
Proof.
  intros av bv. unfold C38_run. cbn [fst snd].
  rewrite (f32_simd_sq_sym (map f32_of_bits av) (map f32_of_bits bv)). reflexivity.
Qed.
Print Assumptions C38_symmetric_bits.

Theorem C38_scalar_symmetric :
  forall a b : list f32, f32_l2sq_scalar a b = f32_l2sq_scalar b a.
Proof. exact (scalar_sq_sym f32 f32_nzero f32_add f32_sub f32_mul f32_sqd_sym). Qed.
Print Assumptions C38_scalar_symmetric.

(* (iii) equal vectors of finite components, any length: exactly +0.0 (bit pattern 0),
   squared and square-rooted. *)
Theorem C38_equal_vectors_give_plus_zero :
  forall a : list f32, Forall f32_finite a ->
    f32_l2_distance_squared_simd a a = Ok f32_pzero /\
    f32_l2_distance_simd a a = Ok f32_pzero /\
    f32_to_bits f32_pzero = 0%N.
Proof.
  intros a Ha. split; [apply f32_simd_sq_self_zero, Ha | split; [apply f32_simd_self_zero, Ha | reflexivity]].
Qed.
Print Assumptions C38_equal_vectors_give_plus_zero.

(* (iv) finite components (no NaN/infinity among the inputs), equal lengths: both results exist
   and are not NaN and not negative (sign bit clear): +0, a positive finite number, or +inf --
   even when intermediate results overflow. *)
Theorem C38_never_negative_or_nan :
  forall a b : list f32, length a = length b -> Forall f32_finite a -> Forall f32_finite b ->
    exists sq d, f32_l2_distance_squared_simd a b = Ok sq /\ f32_l2_distance_simd a b = Ok d /\
                 (is_nan sq = false /\ Bsign sq = false) /\ (is_nan d = false /\ Bsign d = false).
Proof.
  intros a b Hl Ha Hb. exists (f32_l2sq_body a b), (f32_sqrt (f32_l2sq_body a b)).
  pose proof (f32_body_nonneg a b Hl Ha Hb) as Hnn.
  split; [apply simd_sq_ok, Hl|]. split; [apply simd_ok, Hl|].
  split; [exact Hnn | exact (Bsqrt_nonneg 24 128 Hprec32 Hemax32 (f32_l2sq_body a b) Hnn)].
Qed.
Print Assumptions C38_never_negative_or_nan.

Definition v (l : list N) : list f32 := map f32_of_bits l.
(* 1.0 -2.5 2^-149 (min subnormal) 3.4028235e38 (max finite) 0.1 -0.0 1e-20 7.0 12345.678 1.0 2.0 *)
Definition sampleA : list N :=
  [1065353216; 3223322624; 1; 2139095039; 1036831949; 2147483648; 507307272; 1088421888; 1178658487;
   1065353216; 1073741824]%N.
Definition sampleB : list N :=
  [1073741824; 1065353216; 8388608; 2139095039; 1045220557; 0; 3212836864; 1088421888; 1178658487;
   3212836864; 0]%N.

(* finite vectors of length 11 (one chunk + remainder 3) exist; the kernel gives 0x41b2147b = 22.26
   on them, both ways round, and +0 on equal ones *)
Example C38_nonvacuous :
  forallb (fun x => is_finite x) (v sampleA) = true /\ forallb (fun x => is_finite x) (v sampleB) = true /\
  C38_run (sampleA, sampleB) = Ok (1102189691, 1083636293)%N /\
  C38_run (sampleB, sampleA) = Ok (1102189691, 1083636293)%N /\
  C38_run (sampleA, sampleA) = Ok (0, 0)%N.
Proof. vm_compute. repeat split. Qed.

(* "finite" is needed in (iii) and (iv): inf - inf is NaN *)
Example C38_finite_needed :
  C38_run ([2139095040], [2139095040])%N = Ok (2143289344, 2143289344)%N.
Proof. vm_compute. reflexivity. Qed.

(* overflow does not produce NaN or a negative result: (max - (-max))^2 = +inf *)
Example C38_overflow_gives_plus_inf :
  C38_run ([2139095039], [4286578687])%N = Ok (2139095040, 2139095040)%N.
Proof. vm_compute. reflexivity. Qed.

(* the two definitions are NOT bit-identical, only equal up to rounding: on vectors of length 0
   the kernel gives +0.0 and the scalar definition -0.0 (std's f32 sum folds from -0.0) *)
Example C38_not_bit_identical :
  C38_run ([], []) = Ok (0, 0)%N /\ C38_scalar_run ([], []) = (2147483648, 2147483648)%N.
Proof. vm_compute. split; reflexivity. Qed.

(* ... and 16 components in [-1,1] on which the lane order changes the rounded sum by one ulp
   (kernel 0x41244d18, scalar definition differs) *)
Definition diffA : list N :=
  [3211730298; 1048776396; 3185818560; 1059558218; 1063193540; 1046283920; 3202952568; 1005954816;
   3212196458; 1058162152; 3212503268; 3202738088; 3195115184; 1046399872; 3206196436; 3209936278]%N.
Definition diffB : list N :=
  [1020174784; 3196380504; 1063164494; 1052412544; 1052503544; 3209034640; 1050496020; 3208046704;
   3167479552; 3196096732; 1061315978; 3189619832; 3209493946; 1059868088; 3211947488; 3192882384]%N.
Example C38_rounding_differs :
  C38_run (diffA, diffB) = Ok (1092898072, 1078793864)%N /\
  fst (C38_scalar_run (diffA, diffB)) <> 1092898072%N.
Proof. vm_compute. split; [reflexivity | discriminate]. Qed.

(* unequal lengths: the debug assertion fires (modelled as Panic), both ways round *)
Example C38_length_mismatch_panics :
  C38_run ([0], [0; 0])%N = Panic 1%N /\ C38_run ([0; 0], [0])%N = Panic 1%N.
Proof. vm_compute. split; reflexivity. Qed.
