(* C07 Content fidelity: reads return exactly what was stored.
   Short proofs stand under the statements; what they rest on is in Proofs/ContentProofs.v ((6):
   Proofs/ChunksProofs.v); the model is Model/Content.v.  zstd, BLAKE3, UTF-8 validity and
   render_binary_summary are arbitrary functions.  The only assumption about them is the zstd
   round trip  zdec (zenc level x) = Some x;
   (1), (2) and (8) need it, (3), (4) and (5) carry it without using it. *)
From MV Require Import Base.Prelude Model.Content Proofs.ContentProofs.
From MV Require Import Model.Chunks Proofs.ChunksProofs.
From MV Require Gen.Consts.
Local Open Scope N_scope.

(* (1) prepare_canonical_payload_with_level followed by decode_canonical_bytes is the identity, and
       the canonical length recorded is the payload's length -- every level, every payload. *)
Theorem C07_prepare_decode_roundtrip :
  forall zenc zdec is_utf8, (forall level x, zdec (zenc level x) = Some x) ->
  forall level p,
    let '(stored, e, cl) := prepare zenc is_utf8 level p in
    decode_canonical zdec e stored = Ok p /\ cl = Some (blen p).
Proof. exact prepare_roundtrip. Qed.
Print Assumptions C07_prepare_decode_roundtrip.

(* (2) whole payloads.  For EVERY store whose frames lie between the log region and data_end inside
       the file, EVERY batch of log records (inserts of fresh or reused payloads, tombstones, lex
       batches, in any order) that apply_records accepts and that contains the record put_internal
       builds for a payload P stored whole (any compression level, binary or text, any search
       text / mime), the frame created for it -- at index (frames before + inserts before it) --
       satisfies at the end of the commit: frame_canonical_payload = P; the blob reader (file
       window for Plain, memory for Zstd) reads P to the end and reports length |P|; the checksum is
       BLAKE3 of the stored window; validate_frame_bounds accepts it; the canonical-length check
       passes (canonical_length = |P|); the stored window is exactly what prepare produced.
       Hypotheses: each fresh payload of the batch is at most MAX_FRAME_BYTES (validate_frame_bounds
       rejects longer ones), and the final data_end fits in u64. *)
Theorem C07_whole_payload_fidelity :
  forall zenc zdec H is_utf8 summary, (forall level x, zdec (zenc level x) = Some x) ->
  forall st pre post seq level p m sup st',
    store_ok st ->
    Forall rec_ok (pre ++ RInsert seq (whole_entry zenc is_utf8 level p m sup) :: post) ->
    apply_records zdec H is_utf8 summary st (pre ++ RInsert seq (whole_entry zenc is_utf8 level p m sup) :: post) = Ok st' ->
    s_data_end st' <= U64_MAX ->
    exists f, nth_error (s_frames st') (length (s_frames st) + count_ins pre) = Some f /\
      f_id f = N.of_nat (length (s_frames st) + count_ins pre) /\
      frame_canonical_bytes zdec st' f = Ok p /\
      (exists b, blob_reader zdec st' f = Ok b /\ blob_read_to_end st' b = p /\ blob_len b = blen p) /\
      f_sum f = H (window (s_file st') (f_off f) (f_len f)) /\
      validate_frame_bounds st' f = Ok tt /\
      f_clen f = Some (blen p) /\
      fst (fst (prepare zenc is_utf8 level p)) = window (s_file st') (f_off f) (f_len f).
Proof. exact whole_put_fidelity. Qed.
Print Assumptions C07_whole_payload_fidelity.

(* (3) the read during apply (index text of an entry without search text): the frame just written
       is accepted by validate_frame_bounds at the time it is read, and the read returns the bytes
       just written.  (Before /repo 270cbaf data_end was advanced after the loop and this read was
       rejected: lemma read_during_apply_rejected_before_fix.) *)
Theorem C07_read_during_apply_accepted :
  forall (zenc : Z -> bytes -> bytes) (zdec : bytes -> option bytes) (zrt : forall level x, zdec (zenc level x) = Some x) st0 l e fr,
    linv st0 l -> entry_ok e -> l_cursor l + blen (e_payload e) <= U64_MAX ->
    f_off fr = l_cursor l -> f_len fr = blen (e_payload e) ->
    let file' := write_at (l_file l) (N.to_nat (l_cursor l)) (e_payload e) in
    let dend' := N.max (l_dend l) (l_cursor l + blen (e_payload e)) in
    validate_frame_bounds (view st0 file' dend' (l_frames l)) fr = Ok tt /\
    read_payload (view st0 file' dend' (l_frames l)) fr = Ok (e_payload e).
Proof. intros zenc zdec zrt. exact read_during_apply_ok. Qed.
Print Assumptions C07_read_during_apply_accepted.

(* (4) payload-reusing updates: the new frame shares offset, length and checksum with its
       predecessor (which keeps them), and canonical payload and blob reader of the two agree. *)
Theorem C07_reuse_update_shares :
  forall (zenc : Z -> bytes -> bytes) zdec H is_utf8 summary, (forall level x, zdec (zenc level x) = Some x) ->
  forall st pre post seq src m st',
    store_ok st ->
    forall s cl, nth_error (s_frames st) (N.to_nat src) = Some s -> is_chunked_doc s = false ->
    f_clen s = Some cl ->
    Forall rec_ok (pre ++ RInsert seq (reuse_entry s m) :: post) -> f_id s = src ->
    apply_records zdec H is_utf8 summary st (pre ++ RInsert seq (reuse_entry s m) :: post) = Ok st' ->
    exists f s', nth_error (s_frames st') (length (s_frames st) + count_ins pre) = Some f /\
      nth_error (s_frames st') (N.to_nat src) = Some s' /\
      f_off f = f_off s' /\ f_len f = f_len s' /\ f_sum f = f_sum s' /\
      f_off s' = f_off s /\ f_len s' = f_len s /\ f_sum s' = f_sum s /\
      frame_canonical_bytes zdec st' f = frame_canonical_bytes zdec st' s' /\
      blob_reader zdec st' f = blob_reader zdec st' s'.
Proof. intros zenc zdec H is_utf8 summary zrt. exact (reuse_update_shares zenc zdec H is_utf8 summary zrt). Qed.
Print Assumptions C07_reuse_update_shares.

(* (5) chunked text, read side (PARTIAL: the write side -- that after apply_records the active
       children of the parent are exactly the chunk frames of its own put, in chunk_index order --
       is established by the correspondence runs, not by a theorem).  In any store where the active
       chunk frames of document f are cs in chunk_index order, their count equals the manifest's,
       and each stored window decodes to its chunk with the recorded canonical length:
       document_chunk_payloads pairs them in order, the document's canonical payload is the
       in-order concatenation of the chunks, and each chunk frame reads its chunk. *)
Theorem C07_chunked_document_reads_concat_partial :
  forall (zenc : Z -> bytes -> bytes) (zdec : bytes -> option bytes), (forall level x, zdec (zenc level x) = Some x) ->
  forall st f cs chunks n,
    wal_end st <= U64_MAX -> s_data_end st <= U64_MAX ->
    is_chunked_doc f = true -> f_manifest f = Some n ->
    filter (is_child_of (f_id f)) (s_frames st) = cs -> sorted child_key cs ->
    cs <> [] -> blen cs = n ->
    Forall2 (fun c ch => win_ok (wal_end st) (s_data_end st) (blen (s_file st)) c /\
                         decode_canonical zdec (f_enc c) (window (s_file st) (f_off c) (f_len c)) = Ok ch /\
                         f_clen c = Some (blen ch)) cs chunks ->
    document_chunk_payloads zdec st f = Ok (combine cs chunks) /\
    frame_canonical_bytes zdec st f = Ok (concat chunks) /\
    Forall2 (fun c ch => frame_canonical_bytes zdec st c = Ok ch \/ is_chunked_doc c = true) cs chunks.
Proof.
  intros zenc zdec zrt st f cs chunks n _ Hd Hcd Hman Hfil Hsorted.
  (* a table that holds the children in chunk order: sorting changes nothing *)
  replace cs with (document_chunk_frames st (f_id f))
    by (unfold document_chunk_frames; rewrite Hfil; exact (sort_sorted child_key cs Hsorted)).
  exact (chunked_document_reads zdec st f chunks n Hd Hcd Hman).
Qed.
Print Assumptions C07_chunked_document_reads_concat_partial.

(* (6) unstructured text (from C34's partition theorem, any character type, any per-character
       encoding such as UTF-8): the planned chunk texts are at least two, none empty, and their
       encodings concatenate to the encoding of the normalized text -- nothing lost or duplicated. *)
Theorem C07_unstructured_chunks_concat_to_normalized_text :
  forall (A : Type) (is_nl is_term is_ws : A -> bool) (enc_char : A -> bytes) (normalized : list A) structural,
    (CHUNK_MIN_CHARS <= length normalized)%nat ->
    exists rs chunks,
      plan_text_chunks is_nl is_term is_ws (Some normalized) false structural
        = Ok (Some (DEFAULT_CHUNK_CHARS, rs, chunks)) /\
      (2 <= length chunks)%nat /\
      (forall c, In c chunks -> c <> []) /\
      concat (map (flat_map enc_char) chunks) = flat_map enc_char normalized.
Proof.
  intros A is_nl is_term is_ws enc_char t structural Hlen.
  destruct (plan_text_unstructured is_nl is_term is_ws t structural Hlen) as (rs & Hp & H2 & _ & Hcat & Hne & _).
  exists rs, (map (slice_text_range t) rs). split; [exact Hp|]. split; [rewrite map_length; exact H2|].
  split; [exact Hne|].
  rewrite <- flat_map_concat, Hcat. reflexivity.
Qed.
Print Assumptions C07_unstructured_chunks_concat_to_normalized_text.

(* toy oracles for witnesses: "zstd" prefixes a byte, the hash is the length *)
Definition t_zenc (_ : Z) (x : bytes) : bytes := 40 :: x.
Definition t_zdec (s : bytes) : option bytes := match s with 40 :: x => Some x | _ => None end.
Definition t_H (x : bytes) : bytes := [blen x].
Definition t_utf8 (x : bytes) : bool := forallb (fun b => b <? 128) x.
Definition t_sum (n : N) : bytes := [60; n; 62].
Lemma t_zstd_rt : forall level x, t_zdec (t_zenc level x) = Some x.
Proof. reflexivity. Qed.
Definition st0 : store := mkStore [9; 9; 9; 9; 0; 0; 0; 0] 4 4 8 [] true.
Definition mt : meta := mkMeta (Some [116]) (Some true).
Lemma st0_ok : store_ok st0.
Proof. constructor; [vm_compute; discriminate|constructor]. Qed.

(* (7) the property as stated FAILS for a payload stored whole that also got a chunk plan from its
       extracted text (known finding F-C07-2): payload [255; 65] (not UTF-8) with extracted-text
       chunks "A" and "B": the commit succeeds, the blob reader returns the payload, but the
       canonical payload is "AB". *)
Theorem C07_binary_parent_chunked_refuted :
  exists zenc zdec H is_utf8 summary, (forall level x, zdec (zenc level x) = Some x) /\
  exists st seq level p plan m sup st' f,
    known_class plan = true /\ store_ok st /\
    Forall rec_ok (put_stored_records zenc is_utf8 seq level p plan m sup) /\
    apply_records zdec H is_utf8 summary st (put_stored_records zenc is_utf8 seq level p plan m sup) = Ok st' /\
    nth_error (s_frames st') (length (s_frames st)) = Some f /\
    (exists b, blob_reader zdec st' f = Ok b /\ blob_read_to_end st' b = p) /\
    frame_canonical_bytes zdec st' f <> Ok p.
Proof.
  exists t_zenc, t_zdec, t_H, t_utf8, t_sum. split; [exact t_zstd_rt|].
  exists st0, 2, 3%Z, [255; 65], (Some [([65], mt); ([66], mt)]), mt, None.
  eexists. eexists. split; [reflexivity|]. split; [exact st0_ok|].
  split; [repeat constructor; vm_compute; discriminate|].
  split; [vm_compute; reflexivity|]. split; [vm_compute; reflexivity|].
  split; [eexists; split; vm_compute; reflexivity|]. vm_compute. discriminate.
Qed.
Print Assumptions C07_binary_parent_chunked_refuted.

(* (8) outside the known class (no chunk plan from extracted text) the put that stores P in the
       parent frame has full fidelity -- for every batch around it. *)
Theorem C07_whole_fidelity_outside_known :
  forall zenc zdec H is_utf8 summary, (forall level x, zdec (zenc level x) = Some x) ->
  forall st pre post seq level p plan m sup st',
    known_class plan = false ->
    store_ok st ->
    Forall rec_ok (pre ++ put_stored_records zenc is_utf8 seq level p plan m sup ++ post) ->
    apply_records zdec H is_utf8 summary st (pre ++ put_stored_records zenc is_utf8 seq level p plan m sup ++ post) = Ok st' ->
    s_data_end st' <= U64_MAX ->
    exists f, nth_error (s_frames st') (length (s_frames st) + count_ins pre) = Some f /\
      frame_canonical_bytes zdec st' f = Ok p /\
      (exists b, blob_reader zdec st' f = Ok b /\ blob_read_to_end st' b = p /\ blob_len b = blen p) /\
      f_sum f = H (window (s_file st') (f_off f) (f_len f)) /\
      validate_frame_bounds st' f = Ok tt /\ f_clen f = Some (blen p).
Proof.
  intros zenc zdec H is_utf8 summary zrt st pre post seq level p plan m sup st' Hk Hok Hrs Hap Hu.
  destruct plan as [cs|]; [discriminate|]. cbn [put_stored_records put_whole_records app] in *.
  destruct (whole_put_fidelity zenc zdec H is_utf8 summary zrt _ _ _ _ _ _ _ _ _ Hok Hrs Hap Hu)
    as (f & A & _ & B & C & D & E & F & _).
  exists f. repeat split; assumption.
Qed.
Print Assumptions C07_whole_fidelity_outside_known.

(* non-vacuity: the hypotheses of (2), (4), (8) are met by concrete batches; for (5), a chunked
   put after which the parent reads the concatenation of its two children *)
(* a text (Zstd), then a binary payload (Plain), then a payload-reusing update of the first, a
   delete and a level-0 text: the batch is accepted; frame 0 reads "hi", frame 1 reads [255; 0],
   frame 2 shares offset/length/checksum with frame 0 *)
Definition batch1 : list record :=
  put_whole_records t_zenc t_utf8 2 3%Z [104; 105] mt None ++
  put_whole_records t_zenc t_utf8 3 3%Z [255; 0] (mkMeta None (Some false)) None.
Definition st1 : store :=
  match apply_records t_zdec t_H t_utf8 t_sum st0 batch1 with Ok s => s | _ => st0 end.
Definition batch2 (s : frame) : list record :=
  [RInsert 4 (reuse_entry s mt); RTombstone (Some 1); RLex] ++ put_whole_records t_zenc t_utf8 5 0%Z [120] (mkMeta None None) None.
Example C07_nonvacuous_whole :
  Forall rec_ok batch1 /\ store_ok st0 /\
  (exists st', apply_records t_zdec t_H t_utf8 t_sum st0 batch1 = Ok st' /\ s_data_end st' = 13 /\
     map (fun f => (f_off f, f_len f, f_clen f)) (s_frames st') = [(8, 3, Some 2); (11, 2, Some 2)] /\
     map (frame_canonical_bytes t_zdec st') (s_frames st') = [Ok [104; 105]; Ok [255; 0]]).
Proof.
  split; [repeat constructor; vm_compute; discriminate|]. split; [exact st0_ok|].
  eexists. split; [vm_compute; reflexivity|]. vm_compute. repeat split.
Qed.

Example C07_nonvacuous_reuse :
  exists s, nth_error (s_frames st1) 0 = Some s /\
      is_chunked_doc s = false /\ f_clen s = Some 2 /\ f_id s = 0 /\ Forall rec_ok (batch2 s) /\
      exists st', apply_records t_zdec t_H t_utf8 t_sum st1 (batch2 s) = Ok st' /\
        map (fun f => (f_off f, f_len f, f_status f)) (s_frames st') = [(8, 3, 1); (11, 2, 2); (8, 3, 0); (13, 1, 0)] /\
        map (frame_canonical_bytes t_zdec st') (s_frames st') = [Ok [104; 105]; Ok [255; 0]; Ok [104; 105]; Ok [120]].
Proof.
  eexists. split; [vm_compute; reflexivity|].
  split; [vm_compute; reflexivity|]. split; [vm_compute; reflexivity|]. split; [vm_compute; reflexivity|].
  split; [repeat constructor; vm_compute; discriminate|].
  eexists. split; [vm_compute; reflexivity|]. split; vm_compute; reflexivity.
Qed.

(* a chunked put (parent stores nothing, two chunks): the parent reads "ab" ++ "cd" *)
Definition batch3 : list record :=
  put_chunked_records t_zenc t_utf8 2 [([97; 98], mt); ([99; 100], mt)] mt None.
Example C07_nonvacuous_chunked :
  exists st', apply_records t_zdec t_H t_utf8 t_sum st0 batch3 = Ok st' /\
    match s_frames st' with
    | [p; c0; c1] =>
        is_chunked_doc p = true /\ f_manifest p = Some 2 /\ f_len p = 0 /\
        filter (is_child_of (f_id p)) (s_frames st') = [c0; c1] /\
        frame_canonical_bytes t_zdec st' p = Ok [97; 98; 99; 100] /\
        frame_canonical_bytes t_zdec st' c0 = Ok [97; 98] /\
        (* observation: the blob reader of a chunked parent is the empty file window *)
        (exists b, blob_reader t_zdec st' p = Ok b /\ blob_read_to_end st' b = [])
    | _ => False
    end.
Proof. eexists. split; [vm_compute; reflexivity|]. vm_compute. repeat split. eexists. split; reflexivity. Qed.

(* (9) the model's frame-size limit is the one in src/lib.rs (Gen/Consts.v is regenerated from the
       source at each run). *)
Theorem C07_consts_tied : MAX_FRAME_BYTES = MV.Gen.Consts.MAX_FRAME_BYTES.
Proof. reflexivity. Qed.
Print Assumptions C07_consts_tied.
