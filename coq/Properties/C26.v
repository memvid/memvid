(* C26 Derived data refers to the frame it was derived from.
   "Every memory card extracted during a put, every enrichment record, and every
    enrichment-queue entry created by a put refer to the frame id that document actually has
    once committed.  The text of that frame contains the card's value."

   Model: Model/Derived.v on top of the frame-table model Model/Store.v (C01/C06).  Short proofs
   stand under the statements; what they rest on is in Proofs/DerivedProofs.v.  `drun false` is
   the code AS IT IS (the id attached to derived data is `parent_seq as FrameId`, the put's log
   sequence number), `drun true` the repaired code (the id is next_frame_id() read before the log
   append).

   Vocabulary: Good R d = every card of d has source_frame_id = the id of a Document frame of
   R whose content is the text the card was extracted from, every enrichment record
   (frame id, card ids) lists cards carrying that frame id, every queue entry is the id of the
   Document frame of the put that pushed it.  GoodInst: the same for the temporary frames
   handed to Tantivy by the instant-index path.  view s = the frames the memory exposes
   (= the committed table once a commit / reopen / replay has run).
   Inv ds R = the store of ds exposes exactly the reference table R and next_frame_id counts its
   frames (J, K of C01/C06), and the derived data in memory, their copy in the file and the
   instant-index frames are Good / GoodInst for R.
   drun_ok = the side condition of C01/C06 (no put asks for the internal DocumentChunk role,
   no acknowledged update targets a chunk frame). *)
From MV Require Import Base.Prelude Model.Store Model.StoreSpec Proofs.StoreProofs Model.Derived Proofs.DerivedProofs.
Local Open Scope N_scope.

(* the recorded experiment: three put+commit pairs (each commit appends one lex-batch record to
   the log), then a put whose text yields two cards *)
Definition fl2 : dflags := mkDF true false 2.
Definition witness : list dop :=
  [DPut None 1000 0 None fl2; DStore (OCommit 1); DPut None 2000 0 None fl2; DStore (OCommit 1);
   DPut None 3000 0 None fl2; DStore (OCommit 1); DPut None 4000 0 None fl2; DStore (OCommit 1)].

(* what the model computes on it: the fourth put returns sequence 7, its document is frame 3,
   its cards (ids 6 and 7) and its enrichment record carry 7 *)
Example C26_asis_witness :
  let r := drun false ds0 witness in
  map (fun o => fst (fst (sout_of o))) (snd r) = [Ok 1; Ok 0; Ok 3; Ok 0; Ok 5; Ok 0; Ok 7; Ok 0] /\
  map (fun f => (f_id f, f_tag f)) (view (st (fst r))) = [(0, 1000); (1, 2000); (2, 3000); (3, 4000)] /\
  map (fun c => (c_id c, c_src c, c_text c)) (cards (cur (fst r))) =
    [(0, 1, 1000); (1, 1, 1000); (2, 3, 2000); (3, 3, 2000); (4, 5, 3000); (5, 5, 3000); (6, 7, 4000); (7, 7, 4000)] /\
  stamps (cur (fst r)) = [(1, [0; 1]); (3, [2; 3]); (5, [4; 5]); (7, [6; 7])].
Proof. vm_compute. repeat split. Qed.

Theorem C26_asis_refuted :
  exists ops : list dop,
    drun_ok [] (combine ops (snd (drun false ds0 ops))) = true /\
    let ds := fst (drun false ds0 ops) in ~ Good (view (st ds)) (cur ds).
Proof.
  exists witness. split; [vm_compute; reflexivity|].
  intros ds (G1 & _).
  assert (Hin : In (mkCard 7 7 4000 1) (cards (cur ds))) by (vm_compute; tauto).
  destruct (G1 _ Hin) as (f & Hn & _). vm_compute in Hn. discriminate.
Qed.
Print Assumptions C26_asis_refuted.

(* the smallest instance: the very first put of a fresh memory returns sequence 1, its
   document is frame 0, its card and its queue entry carry 1 *)
Example C26_asis_first_put :
  let r := drun false ds0 [DPut (Some 1) 1000 0 None (mkDF true true 1)] in
  map (fun c => (c_id c, c_src c)) (cards (cur (fst r))) = [(0, 1)] /\ queue (cur (fst r)) = [(1, 1000)] /\
  map (fun f => (f_id f, f_tag f)) (view (st (fst r))) = [(0, 1000)].
Proof. vm_compute. repeat split. Qed.

(* known_class s = "the next log sequence number differs from next_frame_id()": the class of
   the recorded finding.  A put is outside it (or derives nothing at all) at every step of the
   history  ==>  the property holds as stated. *)
Theorem C26_asis_outside_known :
  forall ops : list dop,
    let ds := fst (drun false ds0 ops) in
    outside_run ds0 ops = true ->
    drun_ok [] (combine ops (snd (drun false ds0 ops))) = true ->
    Good (view (st ds)) (cur ds) /\ Good (view (st ds)) (saved ds) /\ GoodInst (view (st ds)) (inst ds).
Proof.
  intros ops ds Ho Hok. subst ds. rewrite (drun_asis_eq_fixed ops ds0 Ho) in *.
  apply fixed_derived_refer_to_their_frame. exact Hok.
Qed.
Print Assumptions C26_asis_outside_known.

(* ... because outside the class the code as it is and the repaired code take the same step *)
Theorem C26_asis_step_outside_is_fixed_step :
  forall ds op, put_outside ds op = true -> dstep false ds op = dstep true ds op.
Proof. exact dstep_asis_eq_fixed. Qed.
Print Assumptions C26_asis_step_outside_is_fixed_step.

(* the class is exact, put by put: in any reachable state (J, K: the invariants of C01/C06;
   R = the frames exposed before the put, so the put's document becomes frame |R|) the id the
   code attaches equals the document's id iff the put is outside the class *)
Theorem C26_asis_right_iff_outside :
  forall ds R, Inv ds R -> (der_id false (st ds) = len R <-> known_class (st ds) = false).
Proof.
  intros ds R (HJ & HK & _). rewrite known_class_false, <- (next_frame_id_is_view_length _ _ HJ HK). reflexivity.
Qed.
Print Assumptions C26_asis_right_iff_outside.

(* the id the code as it is attaches is the value the put returns to its caller *)
Theorem C26_asis_attached_id_is_returned_sequence :
  forall ds uk tag n auto fl,
    fst (fst (sout_of (snd (dstep false ds (DPut uk tag n auto fl))))) = Ok (der_id false (st ds)).
Proof.
  intros ds uk tag n auto fl. cbn [dstep]. pose proof (sstep_put_returns (st ds) uk tag n 0 auto) as H.
  destruct (sstep (st ds) (OPut uk tag n 0 auto)) as [s3 o]. cbn [snd sout_of fst] in *. exact H.
Qed.
Print Assumptions C26_asis_attached_id_is_returned_sequence.

(* inside the class everything the put derives is wrong: a card, its enrichment record and
   the queue entry carry sequence+1, which is not the id |R| of the put's document *)
Theorem C26_asis_in_class_wrong :
  forall ds R uk tag nchunks auto fl,
    Inv ds R -> known_class (st ds) = true ->
    let ds1 := fst (dstep false ds (DPut uk tag nchunks auto fl)) in
    let doc_id := len R in
    (df_ncards fl <> 0 -> exists c, In c (cards (cur ds1)) /\ c_text c = tag /\ c_src c = seqno (st ds) + 1 /\ c_src c <> doc_id) /\
    (df_ncards fl <> 0 -> exists ids, In (seqno (st ds) + 1, ids) (stamps (cur ds1)) /\ ids <> [] /\ seqno (st ds) + 1 <> doc_id) /\
    (df_queue fl = true -> In (seqno (st ds) + 1, tag) (queue (cur ds1)) /\ seqno (st ds) + 1 <> doc_id).
Proof. exact asis_in_class_wrong. Qed.
Print Assumptions C26_asis_in_class_wrong.

(* which histories are in the class: ALL of them, unless a doctor run reset the log sequence.
   Every insert ever logged consumed a sequence number, so sequence >= next_frame_id and the
   next put's sequence number is strictly above the id its document gets. *)
Theorem C26_asis_every_put_in_class_without_doctor :
  forall ops : list dop,
    forallb doctor_free ops = true -> known_class (st (fst (drun false ds0 ops))) = true.
Proof.
  intros ops Hd. destruct (drun_store_facts false ops ds0 Hd SeqAhead_store0 K_store0) as [A B].
  apply SeqAhead_in_class; assumption.
Qed.
Print Assumptions C26_asis_every_put_in_class_without_doctor.

(* non-vacuity of the outside-class theorem: doctor resets the sequence to 0 with two frames
   present; one put deriving nothing and one commit later sequence+1 = next_frame_id = 3, and
   the chunked put with instant index, queue entry and two cards is right (as it is) *)
Definition nod : dflags := mkDF false false 0.
Definition aligned : list dop :=
  [DPut None 1000 0 None nod; DStore (OCommit 1); DPut None 2000 0 None nod; DStore (OCommit 1); DStore (ODoctor 0);
   DPut None 3000 0 None nod; DStore (OCommit 1); DPut (Some 5) 4000 2 None (mkDF true true 2); DStore (OCommit 1)].
Example C26_asis_outside_nonvacuous :
  let r := drun false ds0 aligned in
  outside_run ds0 aligned = true /\
  drun_ok [] (combine aligned (snd r)) = true /\
  map (fun c => (c_id c, c_src c, c_text c)) (cards (cur (fst r))) = [(0, 3, 4000); (1, 3, 4000)] /\
  queue (cur (fst r)) = [(3, 4000)] /\ stamps (cur (fst r)) = [(3, [0; 1])] /\
  map (fun f => (f_id f, f_tag f, f_role f)) (view (st (fst r))) =
    [(0, 1000, 0); (1, 2000, 0); (2, 3000, 0); (3, 4000, 0); (4, 4001, 1); (5, 4002, 1)].
Proof. vm_compute. repeat split. Qed.

(* capture next_frame_id() before the log append and attach it instead of the sequence number:
   for EVERY history over put (whole / chunked, any derived-data options, any number of cards)
   / update / delete / commit / reopen / exit without commit + replay / doctor / queue drain,
   every timing of automatic checkpoints and every number of extra log records, every card,
   enrichment record, queue entry and instant-index frame -- in memory and in the file's copy
   -- refers to the Document frame of the put it was derived from *)
Theorem C26_fixed_derived_data_refers_to_its_frame :
  forall ops : list dop,
    let ds := fst (drun true ds0 ops) in
    drun_ok [] (combine ops (snd (drun true ds0 ops))) = true ->
    Good (view (st ds)) (cur ds) /\ Good (view (st ds)) (saved ds) /\ GoodInst (view (st ds)) (inst ds).
Proof. exact fixed_derived_refer_to_their_frame. Qed.
Print Assumptions C26_fixed_derived_data_refers_to_its_frame.

(* the same as an invariant of single steps from any state satisfying it *)
Theorem C26_fixed_step :
  forall ds R op, Inv ds R ->
    match sop_of op with
    | Some so => ref_ok R (so, sout_of (snd (dstep true ds op))) = true ->
                 Inv (fst (dstep true ds op)) (ref_step R (so, sout_of (snd (dstep true ds op))))
    | None => Inv (fst (dstep true ds op)) R
    end.
Proof. exact dstep_fixed_inv. Qed.
Print Assumptions C26_fixed_step.

(* "the text of that frame contains the card's value": the rule extractor is an oracle that
   returns values occurring in its input (extract_sub); whatever `contains`, the texts and the
   extractor are, a card of a Good state has its value in the text of the frame it names *)
Theorem C26_card_value_in_frame_text :
  forall (text value : Type) (contains : text -> value -> Prop) (text_of : N -> text) (extract : text -> list value),
    (forall t v, In v (extract t) -> contains t v) ->
    forall R d c v, Good R d -> In c (cards d) -> card_value text value text_of extract c = Some v ->
      exists f, nth_error R (N.to_nat (c_src c)) = Some f /\ f_id f = c_src c /\ contains (frame_text text text_of f) v.
Proof.
  intros text value contains text_of extract extract_sub R d c v (G1 & _) Hc Hv.
  destruct (G1 c Hc) as (f & Hn & Hi & Ht & _).
  exists f. split; [assumption|]. split; [assumption|].
  unfold frame_text. rewrite Ht. apply extract_sub. unfold card_value in Hv. eapply nth_error_In; eauto.
Qed.
Print Assumptions C26_card_value_in_frame_text.

(* non-vacuity: the witness history under the repaired code; the hypothesis of the text clause
   is met by the extractor "the text itself" with `contains` = equality *)
Example C26_fixed_nonvacuous :
  let r := drun true ds0 (witness ++ [DPut (Some 9) 5000 3 (Some 1) (mkDF true true 1); DStore (OCrash 0); DObserve]) in
  drun_ok [] (combine (witness ++ [DPut (Some 9) 5000 3 (Some 1) (mkDF true true 1); DStore (OCrash 0); DObserve]) (snd r)) = true /\
  map (fun c => (c_id c, c_src c, c_text c)) (cards (cur (fst r))) =
    [(0, 0, 1000); (1, 0, 1000); (2, 1, 2000); (3, 1, 2000); (4, 2, 3000); (5, 2, 3000); (6, 3, 4000); (7, 3, 4000)] /\
  queue (cur (fst r)) = [(4, 5000)] /\
  map (fun f => (f_id f, f_tag f)) (view (st (fst r))) =
    [(0, 1000); (1, 2000); (2, 3000); (3, 4000); (4, 5000); (5, 5001); (6, 5002); (7, 5003)].
Proof. vm_compute. repeat split. Qed.

Example C26_text_clause_hypothesis_satisfiable :
  forall t v, In v ((fun t : N => [t]) t) -> (fun (t v : N) => t = v) t v.
Proof. intros t v [H|[]]. exact H. Qed.
