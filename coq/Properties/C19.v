(* C19 Single-file guarantee.
   Model: Model/SingleFile.v (directory = list of named entries; every API call = its refusal
   check + the directory operations of the staged commits it runs, each ending in one of the
   ten exits with_staging_lock / atomic-write-file have).  Short proofs stand under the
   statements; what they rest on is in Proofs/SingleFileProofs.v.

   The property as stated is REFUTED in three narrow classes, recorded as known findings:
     io-leak           a staged commit whose final fsync/renameat fails (or whose fchmod/fchown
                       right after the creation, or whose discarding unlinkat, fails) returns
                       Err and leaves the staging file ".NAME.XXXXXX" behind
     lockfile          memvid_core::lockfile::acquire keeps "NAME.lock" beside the memory while
                       its guard lives
     non-utf8 name     ensure_single_file derives its eight candidates from the EMPTY string
                       when the file name is not valid UTF-8
   and proved outside them. *)
From Coq Require Import String.
From MV Require Import Base.Prelude Model.FsProto Model.SingleFile Proofs.SingleFileProofs.
Require MV.Gen.Consts.
Local Open Scope N_scope.

(* (1) For EVERY initial directory, EVERY history of API calls (create / open / any method of a
   handle with any number of staged commits each ending in any exit / doctor / drop -- open
   (log replay) and drop (commit of a dirty handle) run staged commits too), and EVERY
   prefix of it: outside the two known classes the names in the directory are exactly the
   initial names plus the targets of create. *)
Theorem C19_directory_after_every_call :
  forall (d0 : dir) (h : list api), known_class h = false ->
  forall k, let w := run (world0 d0) (firstn k h) in
  forall n, In n (names (wdir w)) <-> In n (names d0) \/ In n (wcreated w).
Proof.
  intros d0 h H k. cbv zeta. apply (single_file_after_history d0 (firstn k h)), known_class_firstn, H.
Qed.
Print Assumptions C19_directory_after_every_call.

(* ... where the targets are names the caller passed to create *)
Theorem C19_created_are_create_targets :
  forall (h : list api) (d0 : dir) (n : name), In n (wcreated (run (world0 d0) h)) ->
  exists u c o, In (ACreate n u c o) h.
Proof.
  intros h d0 n H. destruct (created_are_create_targets h (world0 d0) n H) as [[]|E]; exact E.
Qed.
Print Assumptions C19_created_are_create_targets.

(* (2) With OS errors allowed (no lockfile calls): the only other names are the staging files of
   the exits that leak -- no staging name is ever left by any other exit. *)
Theorem C19_only_leaking_exits_leave_names :
  forall (d0 : dir) (h : list api), existsb lockfile_op h = false ->
  let w := run (world0 d0) h in
  forall n, In n (names (wdir w)) <-> In n (names d0) \/ In n (wcreated w) \/ In n (wleaked w).
Proof. exact names_after_history. Qed.
Print Assumptions C19_only_leaking_exits_leave_names.

(* (3) the property as stated, in boolean form, outside the known classes ... *)
Theorem C19_directory_outside_known :
  forall (d0 : dir) (h : list api), known_class h = false -> names_ok d0 (run (world0 d0) h) = true.
Proof. intros d0 h H. apply names_ok_spec. exact (single_file_after_history d0 h H). Qed.
Print Assumptions C19_directory_outside_known.

(* ... and refuted inside each: a commit whose rename fails leaves ".m.mv2.abcdef";
   a lockfile guard keeps "m.mv2.lock". *)
Definition n_m : name := str_bytes "m.mv2".
Definition h_leak : list api :=
  [ACreate n_m true true true; ACall n_m [([str_bytes "abcdef"], XCommitErr)]].
Definition h_lock : list api := [ACreate n_m true true true; ALockfile n_m true].
Theorem C19_directory_after_every_call_refuted :
  (exists d0 h, names_ok d0 (run (world0 d0) h) = false /\ existsb io_leak_op h = true /\ existsb lockfile_op h = false) /\
  (exists d0 h, names_ok d0 (run (world0 d0) h) = false /\ existsb io_leak_op h = false /\ existsb lockfile_op h = true).
Proof.
  split; [exists [], h_leak | exists [], h_lock]; vm_compute; repeat split.
Qed.
Print Assumptions C19_directory_after_every_call_refuted.

Example C19_leak_witness_listing :
  names (wdir (run (world0 []) h_leak)) = [str_bytes "m.mv2"; str_bytes ".m.mv2.abcdef"] /\
  names (wdir (run (world0 []) h_lock)) = [str_bytes "m.mv2"; str_bytes "m.mv2.lock"] /\
  (* the guard dropped: clean again *)
  names (wdir (run (world0 []) (h_lock ++ [AUnlockfile n_m]))) = [str_bytes "m.mv2"].
Proof. vm_compute. repeat split. Qed.

(* (4) refusal: for a file name that is valid UTF-8, ensure_single_file returns Err exactly when
   stat succeeds on one of the eight derived names ... *)
Theorem C19_refusal_iff :
  forall (d : dir) (n : name),
    (ensure_single_file d true n = None <-> forall c, In c (sidecar_names n) -> stat_ok d c = false) /\
    ((exists c, ensure_single_file d true n = Some c) <-> exists c, In c (sidecar_names n) /\ stat_ok d c = true).
Proof. intros d n. split; [apply ensure_single_file_none_iff | apply ensure_single_file_some_iff]. Qed.
Print Assumptions C19_refusal_iff.

(* ... the error carries the first such name in the order of the two loops ... *)
Theorem C19_refusal_reports_first :
  forall d u n c, ensure_single_file d u n = Some c ->
  exists pre post, candidates u n = pre ++ c :: post /\ stat_ok d c = true /\ forall y, In y pre -> stat_ok d y = false.
Proof. intros d u n c. apply Facts.find_first. Qed.
Print Assumptions C19_refusal_reports_first.

(* ... create, open (open_read_only, verify) and doctor are refused exactly then, and a refused
   call changes nothing (no directory operation, no handle). *)
Theorem C19_refused_iff :
  forall w a c,
  snd (fst (step w a)) = RRefused c <->
  match a with
  | ACreate p u _ _ | AOpen p u _ _ | ADoctor p u _ => ensure_single_file (wdir w) u p = Some c
  | _ => False
  end.
Proof. exact refused_iff. Qed.
Print Assumptions C19_refused_iff.

Theorem C19_refused_call_changes_nothing :
  forall w a c, snd (fst (step w a)) = RRefused c -> step w a = (w, RRefused c, []).
Proof.
  intros w a c H. apply refused_changes_nothing, refused_iff, H.
Qed.
Print Assumptions C19_refused_call_changes_nothing.

(* known class of the refusal rule: the file name is not valid UTF-8 (to_str() = None ->
   unwrap_or_default() = ""): the candidates no longer depend on the name. *)
Definition n_bad : name := [110; 255; 46; 109; 118; 50].                   (* b"n\xff.mv2" *)
Theorem C19_refusal_refuted :
  exists d n, (exists c, In c (sidecar_names n) /\ stat_ok d c = true) /\ ensure_single_file d false n = None.
Proof.
  exists [(n_bad, KFile); (n_bad ++ str_bytes "-wal", KFile)], n_bad. split.
  - exists (n_bad ++ str_bytes "-wal"). vm_compute. split; [left; reflexivity | reflexivity].
  - vm_compute. reflexivity.
Qed.
Print Assumptions C19_refusal_refuted.

Theorem C19_refusal_non_utf8_blind :
  forall d n, (forall c, In c (sidecar_names []) -> stat_ok d c = false) -> ensure_single_file d false n = None.
Proof. intros d n. apply (ensure_single_file_none_iff d false n). Qed.
Print Assumptions C19_refusal_non_utf8_blind.

Theorem C19_refusal_outside_known :
  forall (d : dir) (u : bool) (n : name), negb u = false ->
    (ensure_single_file d u n = None <-> forall c, In c (sidecar_names n) -> stat_ok d c = false).
Proof. intros d [|] n H; [apply ensure_single_file_none_iff | discriminate]. Qed.
Print Assumptions C19_refusal_outside_known.

(* (5) the suffix lists are the ones in src/memvid/lifecycle.rs now (regenerated each run) *)
Theorem C19_suffix_lists_tied :
  dash_suffixes = map str_bytes MV.Gen.Consts.FORBIDDEN_SIDECAR_SUFFIXES /\
  dot_suffixes = map str_bytes MV.Gen.Consts.HIDDEN_FORBIDDEN_SIDECAR_SUFFIXES.
Proof. exact suffix_lists_tied. Qed.
Print Assumptions C19_suffix_lists_tied.

(* (6) tie to the contents-level protocol of C02/C03: the successful exit is a staged commit
   accepted by Model/FsProto.v's recognizer, and the directory operations of every exit are
   those of its protocol trace *)
Theorem C19_ok_exit_is_staged_commit :
  forall body, only_tmp_writes body = true -> staged_commit_ok (strip_P (proto_of XOk body)) = true.
Proof.
  intros body H. unfold proto_of. rewrite strip_P_map. cbn [app staged_commit_ok].
  rewrite rev_app_distr. cbn [rev app]. rewrite rev_involutive. exact H.
Qed.
Print Assumptions C19_ok_exit_is_staged_commit.

Theorem C19_exit_traces_are_protocol_traces :
  forall p s x body, only_tmp_writes body = true -> flat_map (dop_of p s) (proto_of x body) = strace_of p s x.
Proof.
  intros p s x body H. pose proof (only_tmp_writes_no_dop p s body H) as Hb.
  destruct x; unfold proto_of; cbn [strace_of]; try reflexivity;
    rewrite ?map_app, ?flat_map_app, ?Hb; reflexivity.
Qed.
Print Assumptions C19_exit_traces_are_protocol_traces.

(* non-vacuity: a directory with an unrelated file, a sidecar of ANOTHER name and a staging-like name that
   collides with the first random draw; two memories; commits that succeed, fail in the closure,
   fail while copying, fail at the directory fsync; doctor; reopen; a failing create. *)
Definition d_ex : dir :=
  [(str_bytes "readme.txt", KFile); (str_bytes "x.mv2-wal", KFile); (str_bytes ".m.mv2.aaaaaa", KFile)].
Definition h_ex : list api :=
  [ACreate n_m true true true;
   ACall n_m [([str_bytes "aaaaaa"; str_bytes "bbbbbb"], XOk)];
   ACall n_m [([str_bytes "cccccc"], XClosureErr); ([str_bytes "dddddd"], XCopyErr)];
   ACreate (str_bytes "o.mv2") true true false;
   ACall n_m [([str_bytes "eeeeee"], XCommitErrDirSync); ([str_bytes "ffffff"], XSyncErr); ([], XPrepareNoFile)];
   AClose n_m [([str_bytes "iiiiii"], XOk)];                                        (* Drop commits a dirty handle *)
   ADoctor n_m true [([str_bytes "gggggg"], XOk); ([str_bytes "hhhhhh"], XReopenErr)];
   AOpen n_m true true [([str_bytes "jjjjjj"], XOk)];                                (* open replays the log through a staged commit *)
   ACall n_m []; AOpen (str_bytes "nope.mv2") true true []].
Example C19_nonvacuous_history :
  known_class h_ex = false /\ names_ok d_ex (run (world0 d_ex) h_ex) = true /\
  names (wdir (run (world0 d_ex) h_ex)) =
    [str_bytes "readme.txt"; str_bytes "x.mv2-wal"; str_bytes ".m.mv2.aaaaaa"; str_bytes "o.mv2"; str_bytes "m.mv2"] /\
  wcreated (run (world0 d_ex) h_ex) = [str_bytes "o.mv2"; str_bytes "m.mv2"] /\
  whandles (run (world0 d_ex) h_ex) = [n_m] /\
  (* the first commit drew the taken name "aaaaaa", retried, and used "bbbbbb" *)
  snd (step (run (world0 d_ex) [ACreate n_m true true true]) (ACall n_m [([str_bytes "aaaaaa"; str_bytes "bbbbbb"], XOk)]))
    = [DCreat (str_bytes ".m.mv2.bbbbbb"); DRename (str_bytes ".m.mv2.bbbbbb") n_m].
Proof. vm_compute. repeat split. Qed.

(* refusal: each of the eight names refuses; a directory or a live link under the name refuses;
   a dangling symbolic link does not (Path::exists follows links); a sidecar of another memory,
   "m.mv2.lock" and a left-over staging file do not. *)
Example C19_nonvacuous_refusal :
  forallb (fun c => match ensure_single_file [(n_m, KFile); (c, KFile)] true n_m with Some c' => name_eqb c c' | None => false end)
          (sidecar_names n_m) = true /\
  length (sidecar_names n_m) = 8%nat /\
  sidecar_names n_m = map str_bytes ["m.mv2-wal"; "m.mv2-shm"; "m.mv2-lock"; "m.mv2-journal";
                                     ".m.mv2.wal"; ".m.mv2.shm"; ".m.mv2.lock"; ".m.mv2.journal"]%string /\
  ensure_single_file [(n_m, KFile); (str_bytes ".m.mv2.lock", KDir)] true n_m = Some (str_bytes ".m.mv2.lock") /\
  ensure_single_file [(n_m, KFile); (str_bytes "m.mv2-shm", KLink true)] true n_m = Some (str_bytes "m.mv2-shm") /\
  ensure_single_file [(n_m, KFile); (str_bytes "m.mv2-shm", KLink false)] true n_m = None /\
  ensure_single_file [(n_m, KFile); (str_bytes "x.mv2-wal", KFile); (str_bytes "m.mv2.lock", KFile); (str_bytes ".m.mv2.abcdef", KFile)] true n_m = None /\
  (* two sidecars: the one tested first is reported *)
  ensure_single_file [(str_bytes ".m.mv2.wal", KFile); (str_bytes "m.mv2-journal", KFile)] true n_m = Some (str_bytes "m.mv2-journal") /\
  (* a refused create makes no file *)
  step (world0 [(str_bytes "m.mv2-wal", KFile)]) (ACreate n_m true true true)
    = (world0 [(str_bytes "m.mv2-wal", KFile)], RRefused (str_bytes "m.mv2-wal"), []).
Proof. vm_compute. repeat split. Qed.
