(* C36 PII masking leaves no detectable PII and is idempotent; text in which contains_pii
   detects nothing is returned unchanged.
   Short proofs stand under the statements; what they rest on is in Proofs/RegexProofs.v,
   PassProofs.v, PiiProofs.v, PiiGenProofs.v.  The model (Model/Regex.v, Model/Pii.v) is a regex AST with a
   backtracking matcher in the regex crate's leftmost-first order; the seven patterns, the
   replace_all order with its tokens and the is_match order are Gen/PiiPatterns.v,
   regenerated from src/pii.rs on every run.  Texts are lists of code points; the Unicode
   tables behind \d \s \w \b are arbitrary functions in every `forall` theorem below.

   "mask_pii's output contains no substring that contains_pii detects" is read as
   contains_pii (mask_pii x) = false: contains_pii examines every substring of its argument
   in its context (theorem 1: is_match <-> some substring is in the language, with \b
   evaluated against the neighbouring code points). *)
From MV Require Import Base.Prelude Model.Regex Model.Pii Gen.PiiPatterns.
From MV Require Import Proofs.RegexProofs Proofs.PiiProofs Proofs.PiiGenProofs.

(* (1) the matcher decides the language semantics: is_match r s holds exactly when some
       substring of s is in L(r) in its context.  Sound AND complete, for every regex of
       the AST (not only the seven), every text, every Unicode table. *)
Theorem C36_is_match_sound_complete :
  forall (is_digit is_space is_word : N -> bool) (r : regex) (s : list N),
    is_match is_digit is_space is_word r s = true <-> has_match is_digit is_space is_word r s.
Proof.
  intros is_digit is_space is_word r s. unfold is_match, has_match, last_o. split.
  - intros H. exact (im_sound is_digit is_space is_word (S (length s)) r s None H).
  - intros (u & w & v & -> & H). eapply im_complete; [exact H|lia].
Qed.
Print Assumptions C36_is_match_sound_complete.

(* (2) replace_all with a pattern that has no match is the identity -- all regexes, all
       replacement texts, all texts. *)
Theorem C36_replace_all_identity_without_match :
  forall (is_digit is_space is_word : N -> bool) (r : regex) (tok s : list N),
    is_match is_digit is_space is_word r s = false ->
    replace_all is_digit is_space is_word r tok s = s.
Proof. exact replace_all_no_match. Qed.
Print Assumptions C36_replace_all_identity_without_match.

(* (3) third sentence of the property, full strength: text in which contains_pii detects
       nothing is returned unchanged. *)
Theorem C36_clean_text_unchanged :
  forall (is_digit is_space is_word : N -> bool) (text : list N),
    contains_pii is_digit is_space is_word CONTAINS_ORDER text = false ->
    mask_pii is_digit is_space is_word MASK_ORDER text = text.
Proof.
  intros is_digit is_space is_word text. apply contains_false_unchanged. exact mask_in_contains.
Qed.
Print Assumptions C36_clean_text_unchanged.

(* (4) first two sentences as stated are REFUTED by the faithful model:
       mask_pii "1234567890123456789" = "123456789[PHONE]", in which contains_pii still
       detects the SSN pattern, and masking again gives "[SSN][PHONE]". *)
Theorem C36_no_residual_and_idempotent_refuted :
  exists x : list N,
    contains_pii ascii_digit ascii_space ascii_word CONTAINS_ORDER
                 (mask_pii ascii_digit ascii_space ascii_word MASK_ORDER x) = true
    /\ mask_pii ascii_digit ascii_space ascii_word MASK_ORDER
                (mask_pii ascii_digit ascii_space ascii_word MASK_ORDER x)
       <> mask_pii ascii_digit ascii_space ascii_word MASK_ORDER x.
Proof.
  exists witness19. destruct witness19_facts as (Emasked & Edetected & Etwice & _).
  rewrite Emasked. split; [exact Edetected|]. rewrite Etwice. discriminate.
Qed.
Print Assumptions C36_no_residual_and_idempotent_refuted.

(* (5) ... and hold for every text outside the known class.  known_class x = after the
       seven passes some pattern has a match whose window (the code point before it, the
       match, the code point after it) holds a code point inserted by the same or a later
       pass ("token-boundary-rematch"). *)
Theorem C36_no_residual_and_idempotent_outside_known :
  forall (is_digit is_space is_word : N -> bool) (text : list N),
    known_class is_digit is_space is_word MASK_ORDER text = false ->
    contains_pii is_digit is_space is_word CONTAINS_ORDER
                 (mask_pii is_digit is_space is_word MASK_ORDER text) = false
    /\ mask_pii is_digit is_space is_word MASK_ORDER (mask_pii is_digit is_space is_word MASK_ORDER text)
       = mask_pii is_digit is_space is_word MASK_ORDER text.
Proof.
  intros is_digit is_space is_word text.
  apply outside_known; [exact mask_toks_ok | exact contains_in_mask | exact mask_in_contains].
Qed.
Print Assumptions C36_no_residual_and_idempotent_outside_known.

(* (6) the class is exact: a text is in it iff something is still detected after masking. *)
Theorem C36_known_class_exact :
  forall (is_digit is_space is_word : N -> bool) (text : list N),
    known_class is_digit is_space is_word MASK_ORDER text = true <->
    contains_pii is_digit is_space is_word CONTAINS_ORDER
                 (mask_pii is_digit is_space is_word MASK_ORDER text) = true.
Proof.
  intros is_digit is_space is_word text. split.
  - apply known_class_is_residual; [exact mask_toks_ok | exact mask_in_contains].
  - apply residual_in_known_class; [exact mask_toks_ok | exact contains_in_mask].
Qed.
Print Assumptions C36_known_class_exact.

(* (7) why the class is the only one: for ANY list of (pattern, non-empty token) passes,
       any text with any marks, a match of the pattern of pass j+i found anywhere in the
       final text (any substring c in L(r) between prefix u and suffix v) cannot have a
       window made only of code points that are older than pass j+i.  So every residual
       detection touches text inserted by its own or a later pass. *)
Theorem C36_residual_match_touches_later_token :
  forall (is_digit is_space is_word : N -> bool)
         (ps : list (regex * list N)) (j : nat) (ms : mtext) (i : nat) (r : regex) (tok : list N)
         (u c v : mtext) (q : option N),
    toks_ok ps -> nth_error ps i = Some (r, tok) ->
    mask_m is_digit is_space is_word j ps ms = u ++ c ++ v ->
    rm is_digit is_space is_word r (lasto None (map fst u), map fst (c ++ v)) (q, map fst v) ->
    ~ window_clean (j + i) u c v.
Proof. exact residual_touches_token. Qed.
Print Assumptions C36_residual_match_touches_later_token.

(* (8) the instrumented run used by known_class is mask_pii with marks added. *)
Theorem C36_marked_run_erases_to_mask_pii :
  forall (is_digit is_space is_word : N -> bool) (ps : list (regex * list N)) (text : list N),
    map fst (mask_marked is_digit is_space is_word ps text) = mask_pii is_digit is_space is_word ps text.
Proof. exact mask_marked_erase. Qed.
Print Assumptions C36_marked_run_erases_to_mask_pii.

(* (9) none of the replacement tokens is detected by any pattern by itself. *)
Theorem C36_tokens_match_nothing :
  forall (r : regex) (rt : regex * list N),
    In r CONTAINS_ORDER -> In rt MASK_ORDER ->
    is_match ascii_digit ascii_space ascii_word r (snd rt) = false.
Proof.
  intros r rt Hr Ht. pose proof tokens_undetected_true as H. unfold tokens_undetected in H.
  rewrite forallb_forall in H. specialize (H r Hr). rewrite forallb_forall in H. specialize (H rt Ht).
  apply negb_true_iff in H. exact H.
Qed.
Print Assumptions C36_tokens_match_nothing.

(* (10) the hypotheses used for the generated lists: same patterns in mask_pii and
        contains_pii, no empty replacement. *)
Theorem C36_generated_lists_consistent :
  incl (map fst MASK_ORDER) CONTAINS_ORDER /\ incl CONTAINS_ORDER (map fst MASK_ORDER) /\ toks_ok MASK_ORDER.
Proof. exact (conj mask_in_contains (conj contains_in_mask mask_toks_ok)). Qed.
Print Assumptions C36_generated_lists_consistent.

(* "Contact john@example.com at 555-123-4567. SSN: 123-45-6789" *)
Definition sample_pii : list N :=
  [67;111;110;116;97;99;116;32;106;111;104;110;64;101;120;97;109;112;108;101;46;99;111;109;32;97;116;32;
   53;53;53;45;49;50;51;45;52;53;54;55;46;32;83;83;78;58;32;49;50;51;45;52;53;45;54;55;56;57]%N.
(* "Contact [EMAIL] at [PHONE]. SSN: [SSN]" *)
Definition sample_pii_masked : list N :=
  [67;111;110;116;97;99;116;32;91;69;77;65;73;76;93;32;97;116;32;91;80;72;79;78;69;93;46;32;83;83;78;58;32;91;83;83;78;93]%N.
(* "Invoice #12345 for $100.00" *)
Definition sample_clean : list N :=
  [73;110;118;111;105;99;101;32;35;49;50;51;52;53;32;102;111;114;32;36;49;48;48;46;48;48]%N.

(* (5) is not vacuous: a text with three kinds of PII is outside the class, is masked,
   nothing is detected afterwards *)
Example C36_outside_known_nonvacuous :
  a_known sample_pii = false /\ a_contains sample_pii = true /\ a_mask sample_pii = sample_pii_masked
  /\ a_contains sample_pii_masked = false /\ a_mask sample_pii_masked = sample_pii_masked.
Proof. vm_compute. repeat split. Qed.

(* (3) is not vacuous *)
Example C36_clean_nonvacuous : a_contains sample_clean = false /\ a_mask sample_clean = sample_clean.
Proof. vm_compute. repeat split. Qed.

(* the witness of (4) is in the class, and so is the same-pattern variant
   "123-45671234567890" -> "123-4567[PHONE]" (PHONE matches again) *)
Example C36_known_class_witnesses :
  a_known witness19 = true /\ a_mask witness19 = witness19_masked
  /\ a_known [49;50;51;45;52;53;54;55;49;50;51;52;53;54;55;56;57;48]%N = true
  /\ a_mask [49;50;51;45;52;53;54;55;49;50;51;52;53;54;55;56;57;48]%N
     = [49;50;51;45;52;53;54;55;91;80;72;79;78;69;93]%N.
Proof.
  destruct witness19_facts as (Hmask & _ & _ & Hknown).
  split; [exact Hknown|]. split; [exact Hmask|]. vm_compute. split; reflexivity.
Qed.

(* the hypotheses of (7) are met by a real residual match: in the marked result of the
   witness, "123456789" + "[PHONE]", the SSN pattern (pass 2 = index 1) matches the nine
   digits; (7) then says the window is not clean below 2 -- the '[' after it carries mark 4 *)
Example C36_residual_theorem_nonvacuous :
  exists c v q,
    toks_ok MASK_ORDER /\ nth_error MASK_ORDER 1 = Some (SSN_REGEX, [91; 83; 83; 78; 93]%N)
    /\ mask_m ascii_digit ascii_space ascii_word 1 MASK_ORDER (mark 0 witness19) = [] ++ c ++ v
    /\ map fst c = [49; 50; 51; 52; 53; 54; 55; 56; 57]%N
    /\ rm ascii_digit ascii_space ascii_word SSN_REGEX (lasto None (map fst (@nil (N * nat))), map fst (c ++ v)) (q, map fst v).
Proof.
  set (fm := mask_marked ascii_digit ascii_space ascii_word MASK_ORDER witness19).
  assert (Hm : match_at ascii_digit ascii_space ascii_word (S (length fm)) SSN_REGEX None (map fst fm)
               = Some (skipn 9 (map fst fm))) by (vm_compute; reflexivity).
  destruct (match_at_sound ascii_digit ascii_space ascii_word Hm) as (w & Ew & HR).
  exists (firstn 9 fm), (skipn 9 fm), (lasto None w).
  split; [exact mask_toks_ok|]. split; [reflexivity|].
  split; [cbn [app]; symmetry; apply firstn_skipn|].
  split; [vm_compute; reflexivity|].
  cbn [app]. rewrite firstn_skipn. cbn [map lasto fold_left]. rewrite <- skipn_map. exact HR.
Qed.
