(* C06 Frame identity is dense, ordered, predictable and stable.
   Same model and reference model as C01 (Model/Store.v, Model/StoreSpec.v).  Short proofs stand
   under the statements; what they rest on is in Proofs/StoreProofs.v. *)
From MV Require Import Base.Prelude Model.Store Model.StoreSpec Proofs.StoreProofs.
Local Open Scope N_scope.

(* For every history (put / chunked put / update / delete / commit / vacuum (= commit on the
   table) / reopen / doctor / crash+replay, any checkpoint timing): the frames exposed are
   numbered 0..n-1 by position, and next_frame_id() equals their number -- so it is the id the
   next document receives.  The side condition run_ok is not used: this holds of every history. *)
Theorem C06_ids_dense_and_predicted_partial :
  forall ops : list sop,
    let s := fst (srun store0 ops) in
    run_ok [] (combine ops (snd (srun store0 ops))) = true ->
    Dense (view s) /\ next_frame_id s = len (view s).
Proof. intros ops s _. exact (ids_dense_and_predicted ops). Qed.
Print Assumptions C06_ids_dense_and_predicted_partial.

(* the document created by an acknowledged put sits at index |R| with id |R| (R = frames
   exposed before the call) *)
Theorem C06_put_gets_predicted_id :
  forall R uk tag nchunks role,
    exists f, nth_error (ref_put R uk tag nchunks role) (length R) = Some f /\
              f_id f = len R /\ f_tag f = tag /\ f_role f = role.
Proof. exact ref_put_doc_frame. Qed.
Print Assumptions C06_put_gets_predicted_id.

(* stability: whatever happens later, position i keeps holding a frame with the same id, uri,
   content tag, role, supersedes link and manifest flag (only status / superseded_by / parent
   may change) *)
Theorem C06_ids_stable :
  forall fr xs ys, Extends (ref_run fr xs) (ref_run fr (xs ++ ys)).
Proof. intros fr xs ys. rewrite ref_run_app. apply Extends_ref_run. Qed.
Print Assumptions C06_ids_stable.

(* chunk frames follow their document consecutively and point back at it *)
Example C06_nonvacuous :
  let R := ref_put (ref_put [] (Some 1) 1000 0 0) None 2000 3 0 in
  map (fun f => (f_id f, f_role f, f_parent f, f_tag f)) R =
    [(0, 0, None, 1000); (1, 0, None, 2000); (2, 1, Some 1, 2001); (3, 1, Some 1, 2002); (4, 1, Some 1, 2003)] /\
  Dense R.
Proof. split; [vm_compute; reflexivity|]. apply Dense_ref_chunks, Dense_snoc; [|reflexivity]. apply Dense_ref_chunks, Dense_snoc; [apply Dense_nil|reflexivity]. Qed.
