(* C29 Encrypted capsules round-trip exactly and reject tampering.
   Short proofs stand under the statements; what they rest on is in Proofs/CapsuleProofs.v.
   Model: Model/Capsule.v
   (lock_file_stream, unlock_file with its dispatch on reserved[0], unlock_file_stream's
   read loop, unlock_file_oneshot, Mv2eHeader encode/decode, per-chunk nonce, write_atomic),
   chunk size a parameter (CHUNK_SIZE = 2^20 satisfies 0 < cs, cs + 16 < 2^32).
   Argon2 = any function kdf; AES-256-GCM = any (enc, dec) with
     dec_enc   : dec k n (enc k n p) = Some p
     enc_len   : |enc k n p| = |p| + 16
     dec_sound : dec k n c = Some p -> c = enc k n p
     enc_bind  : enc k n p = enc k' n' p' -> k = k' /\ n = n'   (ideal: a ciphertext is bound to key and nonce)
   each theorem lists the ones it needs.

   The property as stated is REFUTED by the faithful model (and by the implementation, see
   KNOWN_FINDINGS.json F-C29-1..4): a capsule cut at a record boundary or inside a length
   prefix unlocks to a SHORTER plaintext without error; original_size, reserved[1..3] and
   the last 8 nonce bytes of the header are not authenticated; 1-3 stray bytes at the end
   are ignored; a record can be presented as a one-shot capsule.  What holds: the round
   trip, rejection of forged / misplaced records and of cuts inside a chunk, and --
   outside the truncation class -- that whatever unlock writes is f.

   PARTIAL: C29_unlock_ok_is_f_outside_known_partial covers the streaming path (reserved[0] = 1);
   for the one-shot path only the refutation (downgrade) is stated.  The clause "ANY
   modification makes unlock fail" is proved for the three modification kinds the property
   names that do hold (forged record, misplaced record, cut inside a chunk), not as one
   theorem over all byte strings outside the four known classes. *)
From MV Require Import Base.Prelude Base.Facts Model.Capsule Proofs.CapsuleProofs.
Local Open Scope N_scope.

(* (1) unlock(lock f) = f byte for byte: every .mv2 file (starts with "MV2\0", below 2^64
       bytes), every password, salt, base nonce, chunk size; the destination then holds f. *)
Theorem C29_roundtrip :
  forall (key : Type) (kdf : bytes -> bytes -> key) (enc : key -> bytes -> bytes -> bytes)
         (dec : key -> bytes -> bytes -> option bytes),
    (forall k n p, dec k n (enc k n p) = Some p) ->
    (forall k n p, length (enc k n p) = (length p + TAG_SIZE)%nat) ->
    forall cs pw salt base f,
      0 < cs -> cs + 16 < 2 ^ 32 -> length salt = SALT_SIZE -> length base = NONCE_SIZE ->
      is_mv2 f -> blen f < 2 ^ 64 ->
      b_lock kdf enc cs pw salt base f = Ok (capsule_of kdf enc cs pw salt base f) /\
      b_unlock kdf dec pw (capsule_of kdf enc cs pw salt base f) = Ok f /\
      forall prev, b_unlock_fs kdf dec prev pw (capsule_of kdf enc cs pw salt base f) = Some f.
Proof.
  intros key kdf enc dec dec_enc enc_len cs pw salt base f Hcs Hcs2 Hs Hb Hf Hz.
  (* the capsule is its own cut after all its records, with nothing behind them *)
  assert (U : b_unlock kdf dec pw (capsule_of kdf enc cs pw salt base f) = Ok f).
  { pose proof (unlock_after_chunks kdf enc dec dec_enc enc_len cs pw salt base base (blen f) 0 0 0 f
                  (length (the_chunks cs f)) [] Hcs2 Hs Hb eq_refl Hz) as U.
    rewrite firstn_all, app_nil_r, the_chunks_concat in U by exact Hcs.
    unfold capsule_of, capsule_header. rewrite U. apply finish_tail. cbn; lia. }
  split; [apply lock_ok; assumption|]. split; [exact U|].
  intros prev. unfold b_unlock_fs. rewrite U. reflexivity.
Qed.
Print Assumptions C29_roundtrip.

(* (2) a failed unlock leaves the destination as it was (write_atomic commits only on Ok) *)
Theorem C29_failed_unlock_writes_nothing :
  forall (key : Type) (kdf : bytes -> bytes -> key) (dec : key -> bytes -> bytes -> option bytes)
         prev pw t e,
    b_unlock kdf dec pw t = Err e -> b_unlock_fs kdf dec prev pw t = prev.
Proof. intros key kdf dec prev pw t e H. unfold b_unlock_fs. rewrite H. reflexivity. Qed.
Print Assumptions C29_failed_unlock_writes_nothing.

(* (3) bit flip in a ciphertext or tag / any replacement of record i by bytes that are not a
       valid ciphertext for position i: Decryption error *)
Theorem C29_forged_record_rejected :
  forall (key : Type) (kdf : bytes -> bytes -> key) (enc : key -> bytes -> bytes -> bytes)
         (dec : key -> bytes -> bytes -> option bytes),
    (forall k n p, dec k n (enc k n p) = Some p) ->
    (forall k n p, length (enc k n p) = (length p + TAG_SIZE)%nat) ->
    (forall k n c p, dec k n c = Some p -> c = enc k n p) ->
    forall cs pw salt base f i c' rest,
      0 < cs -> cs + 16 < 2 ^ 32 -> length salt = SALT_SIZE -> length base = NONCE_SIZE -> blen f < 2 ^ 64 ->
      blen c' < 2 ^ 32 -> (i <= length (the_chunks cs f))%nat ->
      (forall p, c' <> enc (kdf pw salt) (chunk_nonce base (N.of_nat i)) p) ->
      b_unlock kdf dec pw (capsule_header salt base f ++
                           records enc (kdf pw salt) base 0 (firstn i (the_chunks cs f)) ++ frame c' ++ rest)
      = Err E_DECRYPT.
Proof.
  intros key kdf enc dec dec_enc enc_len dec_sound cs pw salt base f i c' rest Hcs Hcs2 Hs Hb Hz Hc Hi Hforged.
  unfold capsule_header.
  rewrite (unlock_after_chunks kdf enc dec dec_enc enc_len) by (assumption || reflexivity).
  rewrite firstn_length, Nat.min_l by exact Hi. apply finish_bad; [exact Hc|].
  (* c' does not decrypt at position i: by dec_sound it would be an issued ciphertext *)
  destruct (dec (kdf pw salt) (chunk_nonce base (N.of_nat i)) c') as [p|] eqn:Ed; [|reflexivity].
  exfalso. exact (Hforged p (dec_sound _ _ _ _ Ed)).
Qed.
Print Assumptions C29_forged_record_rejected.

(* (4) chunk reordering, replay, dropping: position i holds the ciphertext of chunk j <> i *)
Theorem C29_misplaced_record_rejected :
  forall (key : Type) (kdf : bytes -> bytes -> key) (enc : key -> bytes -> bytes -> bytes)
         (dec : key -> bytes -> bytes -> option bytes),
    (forall k n p, dec k n (enc k n p) = Some p) ->
    (forall k n p, length (enc k n p) = (length p + TAG_SIZE)%nat) ->
    (forall k n c p, dec k n c = Some p -> c = enc k n p) ->
    (forall k n p k' n' p', enc k n p = enc k' n' p' -> k = k' /\ n = n') ->
    forall cs pw salt base f i j pj rest,
      0 < cs -> cs + 16 < 2 ^ 32 -> length salt = SALT_SIZE -> length base = NONCE_SIZE -> blen f < 2 ^ 64 ->
      (i <= length (the_chunks cs f))%nat -> N.of_nat i < 2 ^ 64 -> N.of_nat j < 2 ^ 64 ->
      nth_error (the_chunks cs f) j = Some pj -> i <> j ->
      b_unlock kdf dec pw (capsule_header salt base f ++
                           records enc (kdf pw salt) base 0 (firstn i (the_chunks cs f)) ++
                           frame (enc (kdf pw salt) (chunk_nonce base (N.of_nat j)) pj) ++ rest)
      = Err E_DECRYPT.
Proof.
  intros key kdf enc dec dec_enc enc_len dec_sound enc_bind cs pw salt base f i j pj rest
         Hcs Hcs2 Hs Hb Hz Hi Hi64 Hj64 Hj Hij.
  apply (C29_forged_record_rejected key kdf enc dec dec_enc enc_len dec_sound); try assumption.
  - (* the misplaced ciphertext fits a u32 length prefix *)
    exact (the_chunks_ct_small enc (kdf pw salt) (chunk_nonce base (N.of_nat j)) cs f pj enc_len Hcs2
             (nth_error_In (the_chunks cs f) j Hj)).
  - (* it is no ciphertext for position i: it determines its position, which is j *)
    intros p E. apply (issue_inj enc dec dec_enc enc_bind) in E as (_ & _ & E & _); try assumption. lia.
Qed.
Print Assumptions C29_misplaced_record_rejected.

(* (5) truncation inside a chunk: I/O error *)
Theorem C29_cut_inside_chunk_rejected :
  forall (key : Type) (kdf : bytes -> bytes -> key) (enc : key -> bytes -> bytes -> bytes)
         (dec : key -> bytes -> bytes -> option bytes),
    (forall k n p, dec k n (enc k n p) = Some p) ->
    (forall k n p, length (enc k n p) = (length p + TAG_SIZE)%nat) ->
    forall cs pw salt base f i p x,
      0 < cs -> cs + 16 < 2 ^ 32 -> length salt = SALT_SIZE -> length base = NONCE_SIZE -> blen f < 2 ^ 64 ->
      nth_error (the_chunks cs f) i = Some p ->
      (x < length (enc (kdf pw salt) (chunk_nonce base (N.of_nat i)) p))%nat ->
      b_unlock kdf dec pw (capsule_header salt base f ++
                           records enc (kdf pw salt) base 0 (firstn i (the_chunks cs f)) ++
                           le_encode 4 (blen (enc (kdf pw salt) (chunk_nonce base (N.of_nat i)) p)) ++
                           firstn x (enc (kdf pw salt) (chunk_nonce base (N.of_nat i)) p)) = Err E_IO.
Proof.
  intros key kdf enc dec dec_enc enc_len cs pw salt base f i p x Hcs Hcs2 Hs Hb Hz Hi Hx.
  unfold capsule_header.
  rewrite (unlock_after_chunks kdf enc dec dec_enc enc_len) by (assumption || reflexivity).
  apply finish_cut; [|exact Hx].
  exact (the_chunks_ct_small enc (kdf pw salt) (chunk_nonce base (N.of_nat i)) cs f p enc_len Hcs2
           (nth_error_In (the_chunks cs f) i Hi)).
Qed.
Print Assumptions C29_cut_inside_chunk_rejected.

(* (6) REFUTED, in general form: for EVERY file and every m, the capsule cut after its m-th
       record, plus up to 3 stray bytes, with ANY original_size, reserved[1..3] and nonce tail in
       the header, unlocks without error to the first m chunks only.  (m = all chunks, tail = [],
       same header: the intact capsule.) *)
Theorem C29_truncated_or_edited_capsule_accepted :
  forall (key : Type) (kdf : bytes -> bytes -> key) (enc : key -> bytes -> bytes -> bytes)
         (dec : key -> bytes -> bytes -> option bytes),
    (forall k n p, dec k n (enc k n p) = Some p) ->
    (forall k n p, length (enc k n p) = (length p + TAG_SIZE)%nat) ->
    forall cs pw salt base base' f size r1 r2 r3 m tail,
      0 < cs -> cs + 16 < 2 ^ 32 -> length salt = SALT_SIZE -> length base = NONCE_SIZE ->
      length base' = NONCE_SIZE -> firstn 4 base' = firstn 4 base -> size < 2 ^ 64 ->
      (length tail < 4)%nat ->
      b_unlock kdf dec pw (header_encode (std_header salt base' size [1; r1; r2; r3]) ++
                           records enc (kdf pw salt) base 0 (firstn m (the_chunks cs f)) ++ tail)
      = Ok (concat (firstn m (the_chunks cs f))).
Proof.
  intros key kdf enc dec dec_enc enc_len cs pw salt base base' f size r1 r2 r3 m tail Hcs Hcs2 Hs Hb Hb' Hp Hz Ht.
  rewrite (unlock_after_chunks kdf enc dec dec_enc enc_len) by (assumption || reflexivity).
  apply finish_tail, Ht.
Qed.
Print Assumptions C29_truncated_or_edited_capsule_accepted.

(* a toy AEAD for the examples below: key = byte string, enc k n p = p shifted by a mask ++ tag
   (first key byte, the 12 nonce bytes, a checksum of p, 2 zero bytes).  It meets dec_enc and
   enc_len on the byte strings used here (C29_toy_aead_sane); it is NOT an instance of the
   theorems' premises for all inputs (keys that differ behind their first byte give equal
   ciphertexts, an element >= 256 does not decrypt to itself).  The examples are evaluated,
   never obtained from the theorems. *)
Definition toy_kdf (pw salt : bytes) : bytes := [ (fold_left N.add (pw ++ salt) 0) mod 256 ].
Definition toy_mask (k n : bytes) : N := (nth 0 k 0 + fold_left N.add n 0) mod 256.
Definition toy_sum (p : bytes) : N := fold_left N.add p 0 mod 256.
Definition toy_enc (k n p : bytes) : bytes :=
  map (fun b => (b + toy_mask k n) mod 256) p ++ [nth 0 k 0] ++ n ++ [toy_sum p; 0; 0].
Definition toy_dec (k n c : bytes) : option bytes :=
  let l := (length c - 16)%nat in
  let p := map (fun b => (b + 256 - toy_mask k n) mod 256) (firstn l c) in
  if bytes_eqb c (toy_enc k n p) then Some p else None.

Definition salt0 : bytes := repeat 7 32.
Definition base0 : bytes := [1; 2; 3; 4; 5; 6; 7; 8; 9; 10; 11; 12].
Definition pw0 : bytes := [112; 119].
(* a 40-byte .mv2 file; chunk size 16 -> chunks of 16, 16, 8 bytes *)
Definition f0 : bytes := MV2_MAGIC ++ map N.of_nat (seq 10 36).
Definition caps0 : bytes := capsule_of toy_kdf toy_enc 16 pw0 salt0 base0 f0.

Example C29_nonvacuous_roundtrip :
  is_mv2 f0 /\ length (the_chunks 16 f0) = 3%nat /\
  b_lock toy_kdf toy_enc 16 pw0 salt0 base0 f0 = Ok caps0 /\
  b_unlock toy_kdf toy_dec pw0 caps0 = Ok f0 /\ length caps0 = 164%nat.
Proof. vm_compute. repeat split. Qed.

(* (7) REFUTED, witnesses on the model (the implementation fails in the same four classes,
   F-C29-1..4):
   (a) cut at the boundary after the first record: Ok, 16 of 40 bytes written;
   (b) cut inside the next length prefix: same;
   (c) original_size, reserved[1..3], nonce tail edited: accepted;
   (d) 3 stray bytes appended: accepted;
   (e) first record presented as a one-shot capsule (reserved[0] = 0, nonce tail = 0,
       original_size = 16): Ok, 16 of 40 bytes written. *)
Definition cut_at (n : nat) := firstn n caps0.
Definition edited_header : bytes :=
  firstn 44 caps0 ++ [9; 9; 9; 9; 9; 9; 9; 9] ++ le_encode 8 12345 ++ [1; 5; 6; 7] ++ skipn 64 caps0.
Definition oneshot_downgrade : bytes :=
  firstn 44 caps0 ++ [0; 0; 0; 0; 0; 0; 0; 0] ++ le_encode 8 16 ++ [0; 0; 0; 0] ++ slice caps0 68 32.

Lemma neq_by_eqb (a b : bytes) : bytes_eqb a b = false -> a <> b.
Proof. intros H E. subst. rewrite bytes_eqb_refl in H. discriminate. Qed.

Theorem C29_refuted :
  (exists t out, t <> caps0 /\ b_unlock toy_kdf toy_dec pw0 t = Ok out /\ out <> f0) /\
  b_unlock toy_kdf toy_dec pw0 (cut_at 100) = Ok (firstn 16 f0) /\
  b_unlock toy_kdf toy_dec pw0 (cut_at 102) = Ok (firstn 16 f0) /\
  b_unlock toy_kdf toy_dec pw0 (cut_at 64) = Ok [] /\
  (edited_header <> caps0 /\ b_unlock toy_kdf toy_dec pw0 edited_header = Ok f0) /\
  b_unlock toy_kdf toy_dec pw0 (caps0 ++ [1; 2; 3]) = Ok f0 /\
  b_unlock toy_kdf toy_dec pw0 oneshot_downgrade = Ok (firstn 16 f0).
Proof.
  split.
  { exists (cut_at 100), (firstn 16 f0). split; [|split].
    - apply neq_by_eqb. vm_compute. reflexivity.
    - vm_compute. reflexivity.
    - apply neq_by_eqb. vm_compute. reflexivity. }
  split; [vm_compute; reflexivity|].
  split; [vm_compute; reflexivity|].
  split; [vm_compute; reflexivity|].
  split; [split; [apply neq_by_eqb; vm_compute; reflexivity | vm_compute; reflexivity]|].
  split; vm_compute; reflexivity.
Qed.
Print Assumptions C29_refuted.

(* (8) OUTSIDE THE KNOWN CLASS "truncated-at-chunk-boundary" (plaintext clause, streaming path):
   for ANY presented byte string t and password: if t's header decodes with reserved[0] = 1,
   t has at least as many records as f has chunks (known_trunc = false), and no record of t is a
   forgery (each is an issued ciphertext or decrypts under no key and nonce), then an Ok
   answer of unlock wrote exactly f. *)
Definition known_trunc (nrecords_presented nchunks : nat) : bool := (nrecords_presented <? nchunks)%nat.

Theorem C29_unlock_ok_is_f_outside_known_partial :
  forall (key : Type) (kdf : bytes -> bytes -> key) (enc : key -> bytes -> bytes -> bytes)
         (dec : key -> bytes -> bytes -> option bytes),
    (forall k n p, dec k n (enc k n p) = Some p) ->
    (forall k n p, length (enc k n p) = (length p + TAG_SIZE)%nat) ->
    (forall k n c p, dec k n c = Some p -> c = enc k n p) ->
    (forall k n p k' n' p', enc k n p = enc k' n' p' -> k = k' /\ n = n') ->
    forall cs pw salt base f pw' t h body out,
      0 < cs -> length base = NONCE_SIZE -> N.of_nat (length t) < 2 ^ 64 ->
      N.of_nat (length (the_chunks cs f)) < 2 ^ 64 ->
      read_header blen bsplit (@Some bytes) t = Ok (h, body) ->
      nth 0 (h_reserved h) 0 = 1 ->
      (forall c, In c (fst (frames (S (length t)) body)) ->
                 unforged enc dec (kdf pw salt) base (the_chunks cs f) c) ->
      known_trunc (length (fst (frames (S (length t)) body))) (length (the_chunks cs f)) = false ->
      b_unlock kdf dec pw' t = Ok out ->
      out = f.
Proof.
  intros key kdf enc dec dec_enc enc_len dec_sound enc_bind cs pw salt base f pw' t h body out
         Hcs Hb Ht Hps Hh Hr Hun Hk Hok.
  destruct (unlock_stream_ok_is_chunk_prefix kdf enc dec dec_enc dec_sound enc_bind
              pw salt base (the_chunks cs f) pw' t h body out Hb Ht Hps Hh Hr Hun Hok) as (Hm & Ho & _).
  unfold known_trunc in Hk. apply Nat.ltb_ge in Hk.
  rewrite Ho, firstn_all2 by lia. apply the_chunks_concat; assumption.
Qed.
Print Assumptions C29_unlock_ok_is_f_outside_known_partial.

(* the hypotheses of (8) are met by a tampered-but-harmless capsule (header edited), and the
   class predicate is true on the refutation witnesses *)
Example C29_outside_known_nonvacuous :
  (exists h body, read_header blen bsplit (@Some bytes) edited_header = Ok (h, body) /\
                  nth 0 (h_reserved h) 0 = 1 /\
                  fst (frames (S (length edited_header)) body) =
                    cts_from toy_enc (toy_kdf pw0 salt0) base0 0 (the_chunks 16 f0) /\
                  known_trunc (length (fst (frames (S (length edited_header)) body))) 3 = false) /\
  known_trunc (length (fst (frames 200 (skipn 64 (cut_at 100))))) 3 = true.
Proof.
  split.
  - exists (std_header salt0 (firstn 4 base0 ++ [9; 9; 9; 9; 9; 9; 9; 9]) 12345 [1; 5; 6; 7]), (skipn 64 edited_header).
    vm_compute. repeat split.
  - vm_compute. reflexivity.
Qed.

(* the toy AEAD meets dec_enc / enc_len on the chunks used above and two more byte strings -- on
   these only: the theorems need them for all inputs *)
Example C29_toy_aead_sane :
  forallb (fun p => match toy_dec [5] base0 (toy_enc [5] base0 p) with
                    | Some q => bytes_eqb p q && Nat.eqb (length (toy_enc [5] base0 p)) (length p + 16)
                    | None => false end)
          (the_chunks 16 f0 ++ [[]; [255; 0; 255]]) = true.
Proof. vm_compute. reflexivity. Qed.
