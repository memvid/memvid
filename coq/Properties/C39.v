(* C39 Sketch term filter has no false negatives; sketch track round-trips.
   Short proofs stand under the statements; what they rest on is in
   Proofs/Sketch{Filter,Track,Gen,Tok}Proofs.v.
   Model: Model/Sketch.v (src/types/sketch_track.rs, debug-profile arithmetic). *)
From MV Require Import Base.Prelude Base.Facts Model.Sketch
  Proofs.SketchFilterProofs Proofs.SketchTrackProofs Proofs.SketchGenProofs Proofs.SketchTokProofs.

(* part 1: the filter.
   (1) bit level, every input: any list of 64-bit (indeed any) hashes, any filter size but
       0, any hash of the list: the built filter reports it as possibly present.  The
       probes are h mod m, (h >> 16) mod m, (h >> 32) mod m with m = 8 * size. *)
Theorem C39_filter_no_false_negative :
  forall (hs : list N) (size : nat) (h : N),
    In h hs -> size <> 0%nat ->
    exists flt, build_term_filter hs size = Ok flt /\ length flt = size /\
                term_filter_maybe_contains flt h = Ok true.
Proof.
  intros hs size h Hin Hs. exists (built hs size). split; [exact (build_term_filter_nz hs size Hs)|].
  split; [apply built_length | exact (built_contains hs size h Hs Hin)].
Qed.
Print Assumptions C39_filter_no_false_negative.

(* size 0 is excluded because the code divides by zero there (the three variants use
   16, 32, 64) *)
Theorem C39_filter_size0_panics :
  forall h r, build_term_filter (h :: r) 0 = Panic PANIC_REM_ZERO /\
              term_filter_maybe_contains [] h = Panic PANIC_REM_ZERO.
Proof. intros h r. split; reflexivity. Qed.
Print Assumptions C39_filter_size0_panics.

(* (2) the property's wording.  For ANY tokenizer, ANY token hash function, ANY weight
       formula with i32 weights small enough that six of them fit a u32 (idf_map = None
       gives 100, 200, 300), any text, any variant, any frame id: generate_sketch
       returns an entry (no panic) whose term filter reports every token the tokenizer
       produced from the text as possibly present. *)
Theorem C39_sketch_no_false_negative :
  forall (token : Type) (token_eqb : token -> token -> bool) (hash_token : token -> N)
         (raw_weight : token -> N -> Z),
    (forall a b, token_eqb a b = true -> a = b) ->
    (forall t c, (raw_weight t c <= 715827882)%Z) ->
    forall (text : Type) (tokenize : text -> list token) (fid : N) (txt : text) (v : variant) (t : token),
      In t (tokenize txt) ->
      exists e, generate_sketch token token_eqb hash_token raw_weight fid (tokenize txt) v = Ok e /\
                term_filter_maybe_contains (e_filter e) (hash_token t) = Ok true.
Proof.
  intros token token_eqb hash_token raw_weight Hsound Hb text tokenize fid txt v t Hin.
  exact (generate_sketch_no_false_negative token token_eqb hash_token raw_weight Hsound Hb fid (tokenize txt) v t Hin).
Qed.
Print Assumptions C39_sketch_no_false_negative.

(* non-vacuity: the hypotheses are met by the instance the correspondence runs with
   idf_map = None (tokens = UTF-8 byte strings); the weights of raw_weight_idf, which it
   also runs, saturate at 2^31 - 1 and do not meet the bound.  And the filter is not
   constantly "present": a hash that was not added is reported absent. *)
Example C39_sketch_hypotheses_met :
  (forall a b : bytes, bytes_eqb a b = true -> a = b) /\
  (forall (t : bytes) c, (raw_weight_no_idf t c <= 715827882)%Z).
Proof. exact (conj (fun a b => proj1 (bytes_eqb_spec a b)) raw_weight_no_idf_bound). Qed.

Example C39_filter_nonvacuous :
  exists flt, build_term_filter [81985529216486895; 1311768467463790320; 65535]%N 16 = Ok flt /\
              term_filter_maybe_contains flt 1311768467463790320%N = Ok true /\
              term_filter_maybe_contains flt 65535%N = Ok true /\
              term_filter_maybe_contains flt 4660%N = Ok false.
Proof. eexists. split; [vm_compute; reflexivity|]. vm_compute. repeat split. Qed.

(* (2b) with the tokenizer modelled after its Unicode oracles: split on non-alphanumeric
        characters, keep a piece iff its UTF-8 BYTE length is >= 2.  The theorem quantifies
        over the tokens exactly as the tokenizer emits them -- a lone two-byte letter is
        one of them -- and nothing between the tokenizer and the filter drops a token. *)
Theorem C39_sketch_no_false_negative_tokenizer :
  forall (is_alnum : N -> bool) (text : Type) (normalise : text -> list N)
         (hash_token : list N -> N) (raw_weight : list N -> N -> Z),
    (forall t c, (raw_weight t c <= 715827882)%Z) ->
    forall fid (txt : text) v t,
      In t (tokenize_norm is_alnum (normalise txt)) ->
      exists e, generate_sketch (list N) (list_eqb N.eqb) hash_token raw_weight fid
                                (tokenize_norm is_alnum (normalise txt)) v = Ok e /\
                term_filter_maybe_contains (e_filter e) (hash_token t) = Ok true.
Proof.
  intros is_alnum text normalise hash_token raw_weight Hb fid txt v t Hin.
  exact (generate_sketch_no_false_negative (list N) (list_eqb N.eqb) hash_token raw_weight
           (fun x y => proj1 (list_eqb_spec N.eqb N.eqb_eq x y)) Hb fid
           (tokenize_norm is_alnum (normalise txt)) v t Hin).
Qed.
Print Assumptions C39_sketch_no_false_negative_tokenizer.

(* the length rule is on bytes: one alphanumeric character alone is a token iff it is not
   ASCII; every token has >= 2 bytes and only alphanumeric characters *)
Theorem C39_tokenizer_byte_length_rule :
  forall (is_alnum : N -> bool),
    (forall c, is_alnum c = true -> tokenize_norm is_alnum [c] = if (c <? 128)%N then [] else [[c]]) /\
    (forall cs t, In t (tokenize_norm is_alnum cs) -> (2 <= str_len t)%N /\ forallb is_alnum t = true).
Proof.
  exact (fun a => conj (tokenize_norm_single a)
                       (fun cs t H => conj (tokenize_norm_bytes a cs t H) (tokenize_norm_alnum a cs t H))).
Qed.
Print Assumptions C39_tokenizer_byte_length_rule.

(* non-vacuity: "a à b, 日" -- the one-character tokens à (2 bytes) and 日 (3 bytes) are emitted,
   a and b (1 byte) are not, and the generated Small entry reports both as present *)
Definition sample_alnum (c : N) : bool := negb ((c =? 32) || (c =? 44))%N.
Definition sample_hash (t : list N) : N := fold_left (fun a c => a * 1000003 + c)%N t 7%N.
Example C39_tokenizer_nonvacuous :
  tokenize_norm sample_alnum [97; 32; 224; 32; 98; 44; 32; 26085]%N = [[224]; [26085]]%N /\
  exists e, generate_sketch (list N) (list_eqb N.eqb) sample_hash raw_weight_no_idf 0
                            (tokenize_norm sample_alnum [97; 32; 224; 32; 98; 44; 32; 26085]%N) Small = Ok e /\
            term_filter_maybe_contains (e_filter e) (sample_hash [224]%N) = Ok true /\
            term_filter_maybe_contains (e_filter e) (sample_hash [26085]%N) = Ok true /\
            term_filter_maybe_contains (e_filter e) (sample_hash [97]%N) = Ok false.
Proof.
  split; [vm_compute; reflexivity|].
  eexists. split; [vm_compute; reflexivity|]. vm_compute. repeat split.
Qed.

(* part 2: the track.
   (3) what read_sketch_track returns after write_sketch_track, for EVERY track whose
       fields fit their Rust types (track_wf), anywhere in a file: the entries
       renumbered 0,1,2,... and forced into the on-disk layout (readback). *)
Theorem C39_read_after_write :
  forall (pre suf : bytes) (t : track),
    track_wf t = true ->
    read_sketch_track (pre ++ write_sketch_track t ++ suf)
                      (N.of_nat (length pre)) (N.of_nat (length (write_sketch_track t)))
    = Ok (readback t).
Proof. exact read_write_readback. Qed.
Print Assumptions C39_read_after_write.

(* (4) the property as stated is refuted by the faithful model: the recorded witness, one
       Small entry for frame 3 with flags 23, comes back as frame 0 with flags 7 and no
       weight sum. *)
Theorem C39_track_roundtrip_refuted :
  exists t, track_wf t = true /\
            read_sketch_track (write_sketch_track t) 0 (N.of_nat (length (write_sketch_track t))) <> Ok t.
Proof.
  exists witness_track. split; [vm_compute; reflexivity|].
  vm_compute. discriminate.
Qed.
Print Assumptions C39_track_roundtrip_refuted.

Example C39_track_witness_readback :
  read_sketch_track (write_sketch_track witness_track) 0 (N.of_nat (length (write_sketch_track witness_track)))
  = Ok (mkTrack Small [mkEntry 0 81985529216486895 (repeat 1%N 16) [7; 9]%N 0 7 0])
  /\ witness_track = mkTrack Small [mkEntry 3 81985529216486895 (repeat 1%N 16) [7; 9]%N 200 23 0]
  /\ known_class witness_track = true.
Proof. split; [vm_compute; reflexivity|]. split; reflexivity. Qed.

(* (5) outside the known class the round trip holds, for every track, any surrounding
       bytes.  known_class t = frame ids are not 0,1,2,.. in insertion order, or some
       entry's filter / top-term vector does not have the on-disk size (16/2 for Small,
       32/4 for Medium AND Large), or a Small entry carries weight sum / flags <> 7 /
       length hint. *)
Theorem C39_track_roundtrip_outside_known :
  forall (pre suf : bytes) (t : track),
    track_wf t = true -> known_class t = false ->
    read_sketch_track (pre ++ write_sketch_track t ++ suf)
                      (N.of_nat (length pre)) (N.of_nat (length (write_sketch_track t))) = Ok t.
Proof. intros pre suf t Hwf Hk. exact (proj2 (roundtrip_iff pre suf t Hwf) Hk). Qed.
Print Assumptions C39_track_roundtrip_outside_known.

(* (6) and the class is exact: a track round-trips if and only if it is outside it. *)
Theorem C39_track_roundtrip_iff :
  forall (pre suf : bytes) (t : track),
    track_wf t = true ->
    (read_sketch_track (pre ++ write_sketch_track t ++ suf)
                       (N.of_nat (length pre)) (N.of_nat (length (write_sketch_track t))) = Ok t
     <-> known_class t = false).
Proof. exact roundtrip_iff. Qed.
Print Assumptions C39_track_roundtrip_iff.

(* (7) how large the class is in practice: every Small and every Large entry that
       generate_sketch itself produces puts its track into it. *)
Theorem C39_generated_small_never_roundtrips :
  forall (token : Type) (token_eqb : token -> token -> bool) (hash_token : token -> N)
         (raw_weight : token -> N -> Z),
    (forall t c, (raw_weight t c <= 715827882)%Z) ->
    forall fid tokens e t,
      generate_sketch token token_eqb hash_token raw_weight fid tokens Small = Ok e ->
      t_variant t = Small -> In e (t_entries t) -> known_class t = true.
Proof.
  (* the weight bound is not used: generate_sketch_post has no hypothesis *)
  intros token token_eqb hash_token raw_weight _ fid tokens e t Hg Hv Hin.
  apply (known_of_unstorable_entry t e Hin). rewrite Hv. right.
  exact (proj2 (proj2 (Facts.post_ok (generate_sketch_post token token_eqb hash_token raw_weight fid tokens Small) Hg))).
Qed.
Print Assumptions C39_generated_small_never_roundtrips.

Theorem C39_generated_large_never_roundtrips :
  forall (token : Type) (token_eqb : token -> token -> bool) (hash_token : token -> N)
         (raw_weight : token -> N -> Z),
    (forall t c, (raw_weight t c <= 715827882)%Z) ->
    forall fid tokens e t,
      generate_sketch token token_eqb hash_token raw_weight fid tokens Large = Ok e ->
      t_variant t = Large -> In e (t_entries t) -> known_class t = true.
Proof.
  intros token token_eqb hash_token raw_weight _ fid tokens e t Hg Hv Hin.
  apply (known_of_unstorable_entry t e Hin). rewrite Hv. left.
  (* a Large entry has the 64-byte filter build_term_filter makes, the format stores 32 *)
  destruct (Facts.post_ok (generate_sketch_post token token_eqb hash_token raw_weight fid tokens Large) Hg) as (_ & Hf & _).
  unfold shape_ok. rewrite Hf, built_length. reflexivity.
Qed.
Print Assumptions C39_generated_large_never_roundtrips.

(* (8) the two halves of the property meet: after write + read of a Large track the
       truncated filter reports a token of its own text as absent. *)
Theorem C39_large_readback_false_negative :
  exists tokens e t' e' tok,
    idtok_sketch tokens = Ok e /\ In tok tokens /\
    term_filter_maybe_contains (e_filter e) tok = Ok true /\
    read_sketch_track (write_sketch_track (mkTrack Large [e])) 0
                      (N.of_nat (length (write_sketch_track (mkTrack Large [e])))) = Ok t' /\
    t_entries t' = [e'] /\
    term_filter_maybe_contains (e_filter e') tok = Ok false.
Proof.
  exists [300; 77]%N.
  eexists. eexists. eexists. exists 300%N.
  split; [vm_compute; reflexivity|].
  split; [left; reflexivity|].
  split; [vm_compute; reflexivity|].
  split; [vm_compute; reflexivity|].
  split; [vm_compute; reflexivity|].
  vm_compute. reflexivity.
Qed.
Print Assumptions C39_large_readback_false_negative.

(* non-vacuity of (5): a Medium track of two entries with different contents, outside the
   class, inside the type ranges, between other bytes. *)
Definition sample_track : track :=
  mkTrack Medium [mkEntry 0 18446744073709551615 (repeat 255%N 32) [1; 2; 3; 4294967295]%N 65535 23 7;
                  mkEntry 1 42 (repeat 0%N 31 ++ [128]%N) [0; 0; 9; 0]%N 0 0 255].
Example C39_roundtrip_nonvacuous :
  track_wf sample_track = true /\ known_class sample_track = false /\
  read_sketch_track ([77; 86; 83; 75]%N ++ write_sketch_track sample_track ++ [1; 2; 3]%N) 4
                    (N.of_nat (length (write_sketch_track sample_track))) = Ok sample_track /\
  length (write_sketch_track sample_track) = 152.
Proof. vm_compute. repeat split. Qed.
