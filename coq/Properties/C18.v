(* C18 Read-only access never modifies the file and sees the last commit.
   Short proofs stand under the statements; what they rest on (the footer-window loop, the
   session invariant, the commit image) is in Proofs/ReadOnlyProofs.v; the examples are evaluated here.
   Model: Model/ReadOnly.v
   (open_read_only_snapshot, load_tail_snapshot, locate_footer_window, EmbeddedWal::open_read_only,
   HeaderCodec::read_without_repair, init_tantivy -> materialize_tantivy_segments ->
   align_footer_with_catalog, the read calls of the handle, Memvid::verify) on top of Model/Footer.v
   (C31), Model/Header.v (C30), Model/Wal.v (C05), Model/Store.v (C01) and the alphabet of
   Model/FsProto.v (C02).

   For EVERY hash function H, EVERY Toc decoder / re-encoder, EVERY search-window size maxw,
   whether or not the shared lock is free, EVERY file content and EVERY sequence of read calls.

   History: before /repo ced2099 and e2af843 the property was refuted in two classes of files
   (non-zero legacy lock bytes 80..140; a TOC naming catalog bytes beyond its own footer).  The
   model follows the repaired code; the old behaviour is kept as open_ro_unfixed and the two
   witnesses are restated about it at the end (`_unfixed`).  Both classes stay in the harness as
   regression inputs. *)
From MV Require Import Base.Prelude Model.Footer Model.Header Model.Wal Model.Store Model.FsProto Model.ReadOnly.
From MV Require Import Proofs.FooterProofs Proofs.ReadOnlyProofs.
Local Open Scope N_scope.

(* (1) A whole read-only session -- open_read_only, then any sequence of frame_count / frame_by_id /
   frame_canonical_payload / stats / timeline / search / verify -- issues NO write, truncate or sync
   on the memory file and leaves its bytes as they were.  No side condition on the file: this
   includes files with legacy lock bytes, inconsistent catalogs, corrupt logs, and sessions whose
   open fails. *)
Theorem C18_no_write :
  forall (H : bytes -> bytes) (toc_decode : bytes -> option rtoc) (toc_reencode : rtoc -> bytes * bytes)
         (maxw : N) (lock_free : bool) (file : bytes) (ops : list rop),
    snd (ro_session H toc_decode toc_reencode maxw lock_free file ops) = mkFS file [].
Proof. exact ro_session_no_write. Qed.
Print Assumptions C18_no_write.

(* (1') the same in the alphabet of the crash model (C02): the session's trace is the empty list of
   in-place operations, so it leaves every file-system state as it is *)
Theorem C18_no_write_fsproto :
  forall H toc_decode toc_reencode maxw lock_free file ops (c : content),
    exec (fs0 c) (to_fsops 0 (fs_trace (snd (ro_session H toc_decode toc_reencode maxw lock_free file ops)))) = fs0 c.
Proof.
  intros H toc_decode toc_reencode maxw lock_free file ops c.
  rewrite (ro_session_no_write H toc_decode toc_reencode maxw lock_free file ops). reflexivity.
Qed.
Print Assumptions C18_no_write_fsproto.

(* (2) the recorded trace explains every byte change (proved independently of (1), by going through
   every function that can emit a write: "empty trace" and "bytes unchanged" are one statement) *)
Theorem C18_trace_explains_bytes :
  forall H toc_decode toc_reencode maxw lock_free file ops,
    let s := snd (ro_session H toc_decode toc_reencode maxw lock_free file ops) in
    fs_bytes s = apply_trace file (fs_trace s).
Proof. exact ro_session_trace_explains. Qed.
Print Assumptions C18_trace_explains_bytes.

(* toy instances for the witnesses and the non-vacuity examples *)
Definition toyH (x : bytes) : bytes := repeat (fold_left N.add x 0 mod 256) 32.
Definition toy_frames : list frame :=
  [mkFrame 0 (UExp 1) 1000 0 0 None None None false; mkFrame 1 (UDefault 1) 2000 0 0 None None None false].
(* header: wal_offset 4096, wal_size 64, everything else as create() writes it *)
Definition toy_header : header := mkHeader MAGIC 513 4160 4096 64 0 0 (repeat 0 32).
Definition toy_header_bytes : bytes :=
  match header_encode toy_header with Ok b => b | _ => [] end.
Definition toy_tb : bytes := [9; 9; 77; 4].
Definition toy_file (hdr : bytes) : bytes := commit_image toyH (hdr ++ repeat 0 64) toy_tb 5.
Definition set_byte (b : bytes) (i : nat) (v : N) : bytes := firstn i b ++ [v] ++ skipn (S i) b.

(* TOC without catalog entries / TOC whose Tantivy segment (4200, 300) ends beyond the footer at 4164 *)
Definition toy_dec_plain (_ : bytes) : option rtoc := Some (mkRToc toy_frames true [] [] (repeat 1 32)).
Definition toy_dec_beyond (_ : bytes) : option rtoc := Some (mkRToc toy_frames true [(4200, 300)] [(4200, 300)] (repeat 1 32)).
Definition toy_re (_ : rtoc) : bytes * bytes := ([8; 8; 8], repeat 2 32).

(* Every toy file is a commit image, so the tail snapshot an open loads from it is given by
   load_tail_commit_image.  `toy_tail` rewrites with that before an open is evaluated: the scan
   for the footer reads the 4 KiB file from its end with `nth`, once per position. *)
Lemma toy_load_tail dec pre tb g :
  tb <> [] -> N.of_nat (length tb + FOOTER_SIZE) <= MAX_SEARCH_SIZE -> g < 2 ^ 64 ->
  load_tail_snapshot toyH dec MAX_SEARCH_SIZE (commit_image toyH pre tb g) =
    match dec tb with Some t => Ok (mkTail t tb (N.of_nat (length pre + length tb)) g) | None => Err E_TOC end.
Proof.
  intros Htb Hw Hg. apply load_tail_commit_image; try assumption.
  - unfold MAX_SEARCH_SIZE in Hw. lia.
  - apply repeat_length.
Qed.

Ltac toy_tail :=
  unfold catalog_trigger, open_ro_unfixed, open_ro, open_ro_on, open_ro_gen, toy_file; cbn [fs_bytes];
  rewrite toy_load_tail by now vm_compute.

(* (3) regression class 1 (legacy lock bytes): a header with one non-zero byte in 80..140 opens,
   shows the frames, and nothing is written; the same when the shared lock is refused *)
Example C18_legacy_lock_bytes_no_write :
  let file := toy_file (set_byte toy_header_bytes 100 7) in
  legacy_trigger file = true /\
  (exists hd, open_ro toyH toy_dec_plain toy_re MAX_SEARCH_SIZE true file = (Ok hd, mkFS file []) /\ length (ro_view hd) = 2%nat) /\
  open_ro toyH toy_dec_plain toy_re MAX_SEARCH_SIZE false file = (Err E_LOCK, mkFS file []).
Proof.
  cbv zeta. split; [vm_compute; reflexivity|]. split.
  - eexists. split; [apply open_ro_result; toy_tail; vm_compute; reflexivity | vm_compute; reflexivity].
  - apply open_ro_result; toy_tail; vm_compute; reflexivity.
Qed.

(* (4) regression class 2 (catalog beyond the footer): lex enabled and a Tantivy segment that ends
   beyond the footer offset: the open succeeds (the out-of-bounds error of materialize is swallowed by
   init_tantivy, which falls back to a fresh engine), the footer pointer stays, nothing is written *)
Example C18_catalog_beyond_footer_no_write :
  let file := toy_file toy_header_bytes in
  catalog_trigger toyH toy_dec_beyond MAX_SEARCH_SIZE file = true /\
  exists hd, open_ro toyH toy_dec_beyond toy_re MAX_SEARCH_SIZE true file = (Ok hd, mkFS file []) /\
             h_footer_offset (hd_header hd) = 4164 /\ hd_tantivy hd = true.
Proof.
  cbv zeta. split; [toy_tail; vm_compute; reflexivity|]. eexists.
  split; [apply open_ro_result; toy_tail; vm_compute; reflexivity | split; vm_compute; reflexivity].
Qed.

(* a session that is not trivial *)
Example C18_no_write_nonvacuous :
  ro_session toyH toy_dec_plain toy_re MAX_SEARCH_SIZE true (toy_file toy_header_bytes)
             [RFrameCount; RSearch; RVerify; RFrameById 1; RFrameById 2; RStats; RTimeline; RPayload 0]
  = (Ok [OCount 2; OSearch true; OVerify (Ok 0); OFrame (Some (mkFrame 1 (UDefault 1) 2000 0 0 None None None false));
         OFrame None; OUnit; OUnit; OUnit], mkFS (toy_file toy_header_bytes) []).
Proof. apply pair_eq; [unfold ro_session; toy_tail; vm_compute; reflexivity | apply C18_no_write]. Qed.

(* (5) locate_footer_window is sound for every window size: what it returns is a valid footer of the
   WHOLE file, reported at its position in the whole file, with the TOC bytes that footer describes *)
Theorem C18_locate_sound :
  forall (H : bytes -> bytes) (maxw : N) (b : bytes) (s : footer_slice) (adj : nat),
    locate_footer_window H maxw b = Some (s, adj) ->
    valid_at H b (adj + fs_footer_offset s) = true /\
    slice_at b (adj + fs_footer_offset s) =
      Some (mkSlice (adj + fs_footer_offset s) (adj + fs_toc_offset s) (fs_footer s) (fs_toc_bytes s)).
Proof.
  intros H maxw b s adj. rewrite locate_window_loop. apply locate_loop_sound.
Qed.
Print Assumptions C18_locate_sound.

(* (6) it finds nothing exactly when the whole file holds no valid footer (the doubling loop ends) *)
Theorem C18_locate_none_iff :
  forall (H : bytes -> bytes) (maxw : N) (b : bytes), 0 < maxw ->
    (locate_footer_window H maxw b = None <-> forall q, valid_at H b q = false).
Proof.
  intros H maxw b Hm. rewrite locate_window_loop. split.
  - intros E. apply locate_loop_spec in E. apply E; lia.
  - apply locate_loop_none_all.
Qed.
Print Assumptions C18_locate_none_iff.

(* (7) for files up to the search size (16 MiB) it is exactly C31's scan of the whole file, hence
   (C31_scan_returns_last_valid) the valid footer at the greatest offset *)
Theorem C18_locate_is_c31_scan :
  forall (H : bytes -> bytes) (maxw : N) (b : bytes), N.of_nat (length b) <= maxw ->
    locate_footer_window H maxw b = match find_last_valid_footer H b with Some s => Some (s, 0%nat) | None => None end.
Proof.
  intros H maxw b Hm. rewrite locate_window_loop. cbn [locate_loop].
  replace (N.min maxw (N.of_nat (length b))) with (N.of_nat (length b)) by lia.
  rewrite N.sub_diag. change (N.to_nat 0) with 0%nat. cbn [skipn].
  destruct (find_last_valid_footer H b); [reflexivity|]. rewrite N.eqb_refl. reflexivity.
Qed.
Print Assumptions C18_locate_is_c31_scan.

(* (8) the file a commit leaves is  pre ++ TOC image ++ footer  (rewrite_toc_footer ends with
   set_len at the footer's end).  Whatever `pre` holds -- header, the log region with any number of
   acknowledged-but-uncommitted records, payloads, stale TOC images and footers of earlier commits,
   any length -- a read-only open that succeeds shows exactly the frame table of THAT TOC and that
   commit's generation.  (TOC + footer must fit the first search window: TOC below 16 MiB.) *)
Theorem C18_view_is_last_commit :
  forall (H : bytes -> bytes) toc_decode toc_reencode (maxw : N) (lock_free : bool)
         (pre tb : bytes) (g : N) (t : rtoc) (hd : handle) (s : fstate),
    tb <> [] -> N.of_nat (length tb) < 2 ^ 64 -> g < 2 ^ 64 -> length (H tb) = 32%nat ->
    N.of_nat (length tb + FOOTER_SIZE) <= maxw ->
    toc_decode tb = Some t ->
    open_ro H toc_decode toc_reencode maxw lock_free (commit_image H pre tb g) = (Ok hd, s) ->
    ro_view hd = rt_frames t /\ hd_generation hd = g.
Proof. exact open_ro_commit_image. Qed.
Print Assumptions C18_view_is_last_commit.

(* (9) at the level of the store model (C01): if the committed TOC holds `committed st`, the read-only
   view is `committed st` -- NOT `view st`, which has the pending log records applied.  The log is
   never replayed: `pre` (where the log region lives) is arbitrary in (8). *)
Theorem C18_view_is_committed_not_replayed :
  forall (H : bytes -> bytes) toc_decode toc_reencode (maxw : N) (lock_free : bool)
         (st : store) (pre tb : bytes) (g : N) (t : rtoc) (hd : handle) (s : fstate),
    tb <> [] -> N.of_nat (length tb) < 2 ^ 64 -> g < 2 ^ 64 -> length (H tb) = 32%nat ->
    N.of_nat (length tb + FOOTER_SIZE) <= maxw ->
    toc_decode tb = Some t -> rt_frames t = committed st ->
    open_ro H toc_decode toc_reencode maxw lock_free (commit_image H pre tb g) = (Ok hd, s) ->
    ro_view hd = committed st.
Proof.
  intros H dec re maxw lf st pre tb g t hd s Htb Hl Hg Hh Hw Hd Hf Ho.
  destruct (open_ro_commit_image H dec re maxw lf pre tb g t hd s Htb Hl Hg Hh Hw Hd Ho) as [Hv _].
  rewrite Hv. exact Hf.
Qed.
Print Assumptions C18_view_is_committed_not_replayed.

(* (10) log appends, the sentinel and payload writes all land in front of the TOC: they keep the
   commit image, so (8) keeps applying to the file with records pending *)
Theorem C18_writes_before_toc_keep_image :
  forall (H : bytes -> bytes) (pre tb : bytes) (g : N) (off : nat) (d : bytes),
    (off + length d <= length pre)%nat ->
    pwrite (commit_image H pre tb g) off d = commit_image H (pwrite pre off d) tb g.
Proof. intros H pre tb g off d Hle. unfold commit_image. apply pwrite_inside_prefix. exact Hle. Qed.
Print Assumptions C18_writes_before_toc_keep_image.

(* non-vacuity of (8)/(9): a store with one committed frame and one put pending in the log; the
   writer's view has two frames, the read-only handle opened on the file shows one *)
Definition st_pending : store :=
  fst (srun store0 [OPut (Some 1) 1000 0 0 None; OCommit 0; OPut None 2000 0 0 None]).
Definition dec_committed (_ : bytes) : option rtoc := Some (mkRToc (committed st_pending) true [] [] (repeat 1 32)).
Example C18_view_nonvacuous :
  length (committed st_pending) = 1%nat /\ length (view st_pending) = 2%nat /\
  exists hd s, open_ro toyH dec_committed toy_re MAX_SEARCH_SIZE true (toy_file toy_header_bytes) = (Ok hd, s) /\
               ro_view hd = committed st_pending /\ fs_trace s = [].
Proof.
  split; [vm_compute; reflexivity|]. split; [vm_compute; reflexivity|].
  eexists. exists (mkFS (toy_file toy_header_bytes) []).
  split; [apply open_ro_result; toy_tail; vm_compute; reflexivity | split; vm_compute; reflexivity].
Qed.

(* a stale commit image further out in the file wins over the header's pointer: the view is the
   TOC of the LAST valid footer (library-written files end at their newest footer: set_len) *)
Example C18_last_footer_wins :
  let file := commit_image toyH (toy_file toy_header_bytes) [1; 2; 3] 9 in
  exists hd s, open_ro toyH toy_dec_plain toy_re MAX_SEARCH_SIZE true file = (Ok hd, s) /\
               hd_generation hd = 9 /\ h_footer_offset (hd_header hd) = 4223 /\ fs_trace s = [].
Proof.
  cbv zeta. eexists. eexists.
  split; [apply open_ro_result; toy_tail; vm_compute; reflexivity|]. split; [vm_compute; reflexivity|]. split; [vm_compute|]; reflexivity.
Qed.

(* open_ro_unfixed = the read-only open with HeaderCodec::read (in-place repair) and an
   align_footer_with_catalog that does not look at read_only.  Both witnesses were confirmed on the
   implementation of that time by the harness (former findings F-C18-1, F-C18-2). *)
Theorem C18_legacy_lock_bytes_unfixed :
  exists file hd s,
    legacy_trigger file = true /\
    open_ro_unfixed toyH toy_dec_plain toy_re MAX_SEARCH_SIZE true file = (Ok hd, s) /\
    fs_bytes s <> file /\ map (fun e => match e with WWrite o d => (o, length d) | _ => (9, 0%nat) end) (fs_trace s) = [(0, 4096%nat)].
Proof.
  (* the witness for the state is the term, not its value: the value holds the 4 KiB file and every byte written *)
  exists (toy_file (set_byte toy_header_bytes 100 7)). eexists.
  exists (snd (open_ro_unfixed toyH toy_dec_plain toy_re MAX_SEARCH_SIZE true (toy_file (set_byte toy_header_bytes 100 7)))).
  split; [vm_compute; reflexivity|]. toy_tail.
  split; [apply pair_eq; [vm_compute|]; reflexivity|]. split; [|vm_compute; reflexivity].
  intros E. apply (f_equal (fun l => nth 100 l 0)) in E. vm_compute in E. discriminate.
Qed.
Print Assumptions C18_legacy_lock_bytes_unfixed.

Theorem C18_legacy_write_precedes_lock_unfixed :
  exists file s e,
    open_ro_unfixed toyH toy_dec_plain toy_re MAX_SEARCH_SIZE false file = (Err e, s) /\ e = E_LOCK /\ fs_trace s <> [].
Proof.
  exists (toy_file (set_byte toy_header_bytes 139 1)). eexists. exists E_LOCK.
  split.
  - eapply open_ro_unfixed_lock_refused; [| unfold toy_file; rewrite toy_load_tail by now vm_compute |]; vm_compute; reflexivity.
  - split; [reflexivity | discriminate].
Qed.
Print Assumptions C18_legacy_write_precedes_lock_unfixed.

Theorem C18_catalog_beyond_footer_unfixed :
  exists file hd s,
    legacy_trigger file = false /\ catalog_trigger toyH toy_dec_beyond MAX_SEARCH_SIZE file = true /\
    open_ro_unfixed toyH toy_dec_beyond toy_re MAX_SEARCH_SIZE true file = (Ok hd, s) /\
    map (fun e => match e with WWrite o d => (0, o, N.of_nat (length d)) | WSetLen n => (1, n, 0) | WSync => (2, 0, 0) end) (fs_trace s)
      = [(0, 4500, 59); (1, 4559, 0); (2, 0, 0); (0, 0, 4096)] /\
    length (fs_bytes s) = 4559%nat /\ h_footer_offset (hd_header hd) = 4500.
Proof.
  exists (toy_file toy_header_bytes). eexists.
  exists (snd (open_ro_unfixed toyH toy_dec_beyond toy_re MAX_SEARCH_SIZE true (toy_file toy_header_bytes))).
  split; [vm_compute; reflexivity|]. toy_tail.
  split; [vm_compute; reflexivity|]. split; [apply pair_eq; [vm_compute|]; reflexivity|].
  split; [vm_compute; reflexivity|]. split; vm_compute; reflexivity.
Qed.
Print Assumptions C18_catalog_beyond_footer_unfixed.

Theorem C18_unfixed_trace_explains_bytes :
  forall H toc_decode toc_reencode maxw lock_free file,
    let s := snd (open_ro_unfixed H toc_decode toc_reencode maxw lock_free file) in
    fs_bytes s = apply_trace file (fs_trace s).
Proof. exact open_ro_unfixed_trace_explains. Qed.
Print Assumptions C18_unfixed_trace_explains_bytes.
