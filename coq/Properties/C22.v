(* C22 No panic or hang on arbitrary file bytes.
   Short proofs stand under the statements; what they rest on is in Proofs/OpenSeqProofs.v
   (the log scan, read_toc, the generic decoder, open_locked) and in the proof files of C30 and
   C31 (header, time index, footer scan); the query parser's totality is QueryProofs', the cursor's
   SearchPageProofs'.  The time-index reader (with the allocator as an oracle), the sketch-track
   reader and the sizing arithmetic of search are restated in Model/OpenSeq.v and proved against
   that.  For every modelled decoder on the path of
   open / open_read_only / verify / doctor and the read APIs:
     "never Panic" for ALL byte strings (each Rust +, -, *, %, index, slice, with_capacity that can
     panic in the debug profile is an explicit checked operation of the model), and the loop's
     termination measure (fuel that is never exhausted).
   The sites of findings F-C22-1..4, -8, -9, -11 (time-index capacity, sketch-track count
   multiplication, top_k + cursor, top_k * 10) are modelled as repaired in /repo; the theorems
   below are about the repaired code.  Their hypotheses, where they have any, are what the
   operating system guarantees (bytes below 256, a file below 2^63 bytes), that the components
   of open_locked do not panic, or -- in the two "_is_error" theorems -- the description of the
   class of inputs.
   Not repaired and outside every model here: Tantivy's decoders on damaged segment bytes
   (F-C22-6, F-C22-7: test only).
   Partial overall: serde / Tantivy / zstd / HNSW internals, doctor's rebuild logic and the
   search pipeline beyond cursor arithmetic are covered by the child-process test only. *)
From MV Require Import Base.Prelude Model.Footer Model.Header Model.Bincode Model.Toc
  Model.SearchPage Model.Query Model.OpenSeq
  Proofs.HeaderProofs Proofs.QueryProofs Proofs.OpenSeqProofs.
From MV Require Model.Sketch Model.TimeIndex Base.Facts Proofs.FooterProofs Proofs.TimeIndexProofs Proofs.SearchPageProofs.
Local Open Scope N_scope.

(* measure: none (straight-line code over a fixed 4096-byte buffer) *)
Theorem C22_header_decode_no_panic : forall b s, header_decode b <> Panic s.
Proof. exact header_decode_no_panic. Qed.
Print Assumptions C22_header_decode_no_panic.

Theorem C22_header_read_no_panic : forall file s, fst (header_read file) <> Panic s.
Proof.
  intros file s. rewrite header_read_eq.
  destruct (Nat.ltb (length file) HEADER_SIZE); [discriminate | apply header_decode_no_panic].
Qed.
Print Assumptions C22_header_read_no_panic.

(* measure: search_end (structural recursion in Model/Footer.v): it answers for every buffer,
   and what it answers lies inside the buffer *)
Theorem C22_footer_scan_answers :
  forall (H : bytes -> bytes) b,
    (find_last_valid_footer H b = None /\ forall q, valid_at H b q = false) \/
    (exists s pos, find_last_valid_footer H b = Some s /\ valid_at H b pos = true /\
                   slice_at b pos = Some s /\ (pos + FOOTER_SIZE <= length b)%nat).
Proof.
  intros H b. destruct (find_last_valid_footer H b) as [s|] eqn:E.
  - right. apply FooterProofs.find_last_valid_footer_some in E as (pos & Hv & Hs & _). exists s, pos.
    split; [reflexivity|]. split; [exact Hv|]. split; [exact Hs|]. apply (FooterProofs.valid_at_in_range H). exact Hv.
  - left. split; [reflexivity|]. apply FooterProofs.find_last_valid_footer_none. exact E.
Qed.
Print Assumptions C22_footer_scan_answers.

(* measure of locate_footer_window: the number of doublings until the window covers the file
   (at most 64 below 2^63 bytes); `mmap.len() - window`, `&mmap[start..]`, `window * 2` never panic *)
Theorem C22_locate_footer_window_total :
  forall (A : Type) (find : bytes -> option A) mmap,
    N.of_nat (length mmap) < 2 ^ 63 -> exists r, locate_footer_window find mmap = Ok r.
Proof.
  intros A find mmap Hlen. unfold locate_footer_window. destruct mmap as [|x m] eqn:Em; [eexists; reflexivity|]. rewrite <- Em in *.
  (* 65 is the model's fuel; 64 doublings take the first window past any length below 2^63 *)
  apply (locate_loop_total find mmap Hlen 65%nat 64%nat); [lia | | lia].
  change (2 ^ N.of_nat 64) with 18446744073709551616. unfold MAX_SEARCH_SIZE. lia.
Qed.
Print Assumptions C22_locate_footer_window_total.

(* log scan (EmbeddedWal::scan_records / open_internal) *)
Theorem C22_wal_scan_no_panic :
  forall (H : bytes -> bytes) file offset size,
    bytes_ok file = true -> N.of_nat (length file) < 2 ^ 63 -> offset < 2 ^ 64 ->
    forall s, scan_chk H (S (length file)) file offset size 0 <> Panic s.
Proof.
  intros H file offset size Hok Hlen Hoff s Hp.
  apply (Facts.post_panic (scan_chk_spec H file offset size (S (length file)) 0) Hp Hok Hlen Hoff). left. reflexivity.
Qed.
Print Assumptions C22_wal_scan_no_panic.

(* measure: bytes of the file after offset + cursor (each round consumes >= 49 of them) *)
Theorem C22_wal_scan_terminates :
  forall (H : bytes -> bytes) file offset size, scan_chk H (S (length file)) file offset size 0 <> Err E_FUEL.
Proof.
  intros H file offset size He.
  apply (Facts.post_err (scan_chk_spec H file offset size (S (length file)) 0) He); [lia | reflexivity].
Qed.
Print Assumptions C22_wal_scan_terminates.

(* open_internal, for every offset, size, checkpoint position and sequence a header can hold: the
   offset is unconstrained, since the region check of 03a10a9 rejects what does not fit the file
   before anything is read *)
Theorem C22_wal_open_no_panic :
  forall (H : bytes -> bytes) file offset size ckpt_pos ckpt_seq,
    bytes_ok file = true -> N.of_nat (length file) < 2 ^ 63 ->
    (forall s, wal_open_chk H file offset size ckpt_pos ckpt_seq <> Panic s) /\
    wal_open_chk H file offset size ckpt_pos ckpt_seq <> Err E_FUEL.
Proof.
  intros H file offset size ckpt_pos ckpt_seq Hok Hlen.
  pose proof (wal_open_chk_spec H file offset size ckpt_pos ckpt_seq) as Hp. split.
  - intros s E. apply (Facts.post_panic Hp E). split; assumption.
  - intros E. exact (Facts.post_err Hp E eq_refl).
Qed.
Print Assumptions C22_wal_open_no_panic.

(* an accepted log region lies inside the file (so the sentinel write / doctor's zeroing cannot
   extend it: finding F-C22-8, repaired) *)
Theorem C22_wal_open_region_inside_file :
  forall (H : bytes -> bytes) file offset size ckpt_pos ckpt_seq r,
    wal_open_chk H file offset size ckpt_pos ckpt_seq = Ok r ->
    size <> 0 /\ offset + size <= N.of_nat (length file).
Proof.
  intros H file offset size ckpt_pos ckpt_seq r. apply (Facts.post_ok (wal_open_chk_spec H file offset size ckpt_pos ckpt_seq)).
Qed.
Print Assumptions C22_wal_open_region_inside_file.

(* time index read_track (repaired: b6c8721) *)
(* measure: the declared count, bounded by the bytes left (read_exact fails at EOF).
   The allocator is an oracle (any function): try_reserve_exact turns its refusal into an error. *)
Theorem C22_time_index_read_total :
  forall (alloc_ok : N -> bool) file offset len s, ti_read_track alloc_ok file offset len <> Panic s.
Proof.
  intros alloc_ok file offset len s.
  destruct (ti_read_track_cases alloc_ok file offset len) as [-> | ->].
  - apply TimeIndexProofs.read_track_no_panic.
  - discriminate.
Qed.
Print Assumptions C22_time_index_read_total.

(* the former panic class (F-C22-1 / F-C30-1) is now exactly the error "entry count too large" *)
Theorem C22_time_index_capacity_class_is_error :
  forall (alloc_ok : N -> bool) file offset len,
    let avail := skipn offset file in
    (12 <= length avail)%nat -> firstn 4 avail = TI_MAGIC ->
    let count := le_decode (slice avail 4 8) in
    count * 16 < 2 ^ 64 -> len = 12 + count * 16 -> 2 ^ 63 <= count * 16 ->
    ti_read_track alloc_ok file offset len = Err E_TI_TOO_LARGE.
Proof.
  intros alloc_ok file offset len avail Hl Hm count Hc Hlen Hbig.
  destruct (ti_read_track_cases alloc_ok file offset len) as [-> | ->]; [|reflexivity].
  apply TimeIndexProofs.read_track_too_large_iff. unfold TimeIndex.ti_capacity_class. cbv zeta. fold avail count.
  change TimeIndex.TI_HEADER_LEN with 12. change TimeIndex.TI_ENTRY_LEN with 16.
  rewrite Hm. change TimeIndex.TIME_INDEX_MAGIC with TI_MAGIC. rewrite Facts.bytes_eqb_refl.
  repeat (apply andb_true_iff; split); lia.
Qed.
Print Assumptions C22_time_index_capacity_class_is_error.

(* measure: the schema (structural) and, per vector / map, the declared length, which is checked
   against the bytes left before the element loop starts *)
Theorem C22_bincode_decode_no_panic : forall s bs p, dec s bs <> Panic p.
Proof. exact dec_no_panic. Qed.
Print Assumptions C22_bincode_decode_no_panic.

Theorem C22_toc_decode_no_panic : forall bs p, toc_decode bs <> Panic p.
Proof. exact toc_decode_no_panic. Qed.
Print Assumptions C22_toc_decode_no_panic.

Theorem C22_toc_prefix_no_panic : forall b s, verify_toc_prefix b <> Panic s.
Proof. exact verify_toc_prefix_no_panic. Qed.
Print Assumptions C22_toc_prefix_no_panic.

Theorem C22_toc_prefix_accepts_exactly :
  forall b, verify_toc_prefix b = Ok tt <->
    (24 <= length b)%nat /\
    le_decode (slice b 0 8) <= 32 /\ le_decode (slice b 8 8) <= MAX_SEGMENTS /\ le_decode (slice b 16 8) <= MAX_FRAMES /\
    32 * le_decode (slice b 8 8) + 64 * le_decode (slice b 16 8) <= N.of_nat (length b).
Proof.
  intros b. pose proof (verify_toc_prefix_spec b) as Hp. fold (toc_prefix_accepted b). split.
  - apply (Facts.post_ok Hp).
  - intros Ha. destruct (verify_toc_prefix b) as [[]|k|s]; [reflexivity | destruct (Hp Ha) | destruct Hp].
Qed.
Print Assumptions C22_toc_prefix_accepts_exactly.

(* read_toc: `len - footer_offset`, `buf.len() - FOOTER_SIZE`, both slices: for any Toc decoder that
   does not panic, and for the modelled one *)
Theorem C22_read_toc_no_panic :
  forall (H : bytes -> bytes) (TOC : Type) (toc_dec : bytes -> outcome TOC),
    (forall b s, toc_dec b <> Panic s) ->
    forall file footer_offset s, read_toc H toc_dec file footer_offset <> Panic s.
Proof. intros H TOC toc_dec. exact (read_toc_no_panic H toc_dec). Qed.
Print Assumptions C22_read_toc_no_panic.

Theorem C22_read_toc_concrete_no_panic :
  forall (H : bytes -> bytes) file footer_offset s, read_toc H toc_decode file footer_offset <> Panic s.
Proof. intros H. apply (read_toc_no_panic H toc_decode). exact toc_decode_no_panic. Qed.
Print Assumptions C22_read_toc_concrete_no_panic.

Theorem C22_nonoverlap_no_panic : forall frames file_len s, ensure_non_overlapping frames file_len <> Panic s.
Proof. intros frames file_len s. apply overlap_loop_no_panic. Qed.
Print Assumptions C22_nonoverlap_no_panic.

(* sketch track read (repaired: bc37f0b) *)
(* measure: entry_count, bounded by the bytes left *)
Theorem C22_sketch_read_total :
  forall file offset len s, read_sketch_track file offset len <> Panic s.
Proof.
  intros file offset len s. unfold read_sketch_track. auto 12 using sketch_read_entries_no_panic with nopanic.
Qed.
Print Assumptions C22_sketch_read_total.

(* the former panic class (F-C22-2) is now the error "entry count overflows" *)
Theorem C22_sketch_count_overflow_is_error :
  forall file offset len,
    offset <= N.of_nat (length file) ->
    let r := skipn (N.to_nat offset) file in
    (Sketch.SKETCH_HEADER_SIZE <= length r)%nat ->
    let hb := firstn Sketch.SKETCH_HEADER_SIZE r in
    bytes_eqb (slice hb 0 4) Sketch.SKETCH_TRACK_MAGIC = true ->
    Sketch.variant_of_size (Sketch.u16_at hb 6) <> None ->
    2 ^ 64 <= N.of_nat Sketch.SKETCH_HEADER_SIZE + Sketch.u64_at hb 8 * Sketch.u16_at hb 6 ->
    read_sketch_track file offset len = Err E_SK_OVERFLOW.
Proof.
  intros file offset len Ho r Hr hb Hm Hv Hov. unfold read_sketch_track. fold r. fold hb.
  destruct (N.of_nat (length file) <? offset) eqn:E1; [lia|].
  destruct (Nat.ltb (length r) Sketch.SKETCH_HEADER_SIZE) eqn:E2; [apply Nat.ltb_lt in E2; lia|].
  cbv zeta. fold hb. rewrite Hm. cbn [negb].
  destruct (Sketch.variant_of_size (Sketch.u16_at hb 6)) as [v|]; [|contradiction].
  unfold U64_LIM.
  destruct (2 ^ 64 <=? Sketch.u64_at hb 8 * Sketch.u16_at hb 6) eqn:E3; [reflexivity|].
  destruct (2 ^ 64 <=? Sketch.u64_at hb 8 * Sketch.u16_at hb 6 + N.of_nat Sketch.SKETCH_HEADER_SIZE) eqn:E4; [reflexivity | lia].
Qed.
Print Assumptions C22_sketch_count_overflow_is_error.

(* query text (model and proofs of C32) *)
(* measure: |text| for the lexer, 4|tokens|+4 for the parser (depth-limited since 932224c) *)
Theorem C22_query_parse_total :
  forall (alnum : N -> bool) (parse_date : str -> option Z) (q : str),
    no_panic (fst (parse_query alnum parse_date q)).
Proof. exact parse_query_total. Qed.
Print Assumptions C22_query_parse_total.

(* cursor / top_k arithmetic of search *)
Theorem C22_parse_cursor_no_panic : forall c total s, parse_cursor c total <> Panic s.
Proof. intros c total s. exact (Facts.post_no_panic s (SearchPageProofs.parse_cursor_post c total)). Qed.
Print Assumptions C22_parse_cursor_no_panic.

(* the sizing arithmetic of search as repaired by 9b4da04 / 51f7ee1 is saturating: total
   functions.  Stated: every value fits a usize, the collector limit is never 0 (Tantivy panics
   on 0) and never above the number of indexed documents (Tantivy allocates 2 * limit up front:
   F-C22-9), the recency age never leaves i64 (F-C22-11). *)
Theorem C22_doc_limit_in_range :
  forall top_k hint flt, (forall f, flt = Some f -> f <= USIZE_LAST) -> 1 <= search_doc_limit top_k hint flt <= USIZE_LAST.
Proof.
  intros top_k hint flt Hf. unfold search_doc_limit. cbv zeta.
  pose proof (sat_mul_le (sat_add (N.max top_k 1) hint) 4) as Hm. unfold USIZE_LAST, U64_LIM in *.
  destruct flt as [f|]; [specialize (Hf f eq_refl)|]; lia.
Qed.
Print Assumptions C22_doc_limit_in_range.

Theorem C22_sketch_candidates_in_range : forall top_k, 500 <= sketch_max_candidates top_k <= USIZE_LAST.
Proof. intros top_k. unfold sketch_max_candidates. pose proof (sat_mul_le top_k 10). unfold USIZE_LAST, U64_LIM in *. lia. Qed.
Print Assumptions C22_sketch_candidates_in_range.

Theorem C22_collector_limit_bounded :
  forall limit index_docs,
    1 <= collector_limit limit index_docs <= N.max index_docs 1 /\ collector_limit limit index_docs <= N.max limit 1.
Proof. intros limit index_docs. unfold collector_limit. lia. Qed.
Print Assumptions C22_collector_limit_bounded.

Theorem C22_recency_age_in_range : forall max_ts ts, (0 <= recency_age max_ts ts <= 2 ^ 63 - 1)%Z.
Proof. intros max_ts ts. unfold recency_age, sat_sub_i64. lia. Qed.
Print Assumptions C22_recency_age_in_range.

Theorem C22_mv2e_decode_no_panic : forall b s, mv2e_decode b <> Panic s.
Proof. intros b s. unfold mv2e_decode. auto 12 with nopanic. Qed.
Print Assumptions C22_mv2e_decode_no_panic.

Theorem C22_open_locked_no_panic :
  forall (TOC ST : Type) (c : @components TOC ST),
    comps_no_panic c ->
    (forall s, open_locked c <> Panic s) /\
    ((exists st, open_locked c = Ok st) \/ (exists k, open_locked c = Err k)).
Proof.
  intros TOC ST c Hc. pose proof (open_locked_no_panic c Hc) as Hn. split; [exact Hn|].
  destruct (open_locked c) as [st|k|p].
  - left. exists st. reflexivity.
  - right. exists k. reflexivity.
  - destruct (Hn p eq_refl).
Qed.
Print Assumptions C22_open_locked_no_panic.

Definition toyH (x : bytes) : bytes := repeat (fold_left N.add x 0 mod 256) 32.
Definition rec_img (seq : N) (p : bytes) : bytes :=
  le_encode 8 seq ++ le_encode 4 (N.of_nat (length p)) ++ repeat 0 4 ++ toyH p ++ p.
(* a "file": 10 bytes of something, two log records (sequence 5 and 6), a zero header *)
Definition wal_sample : bytes := repeat 7 10 ++ rec_img 5 [1; 2; 3] ++ rec_img 6 [9] ++ repeat 0 48.

Example C22_wal_nonvacuous :
  bytes_ok wal_sample = true /\ N.of_nat (length wal_sample) < 2 ^ 63 /\
  wal_open_chk toyH wal_sample 10 148 7 5 = Ok (49, 6, 7) /\
  wal_open_chk toyH wal_sample 10 99 0 0 = Err E_WAL_LEN /\
  wal_open_chk toyH wal_sample 10 149 0 0 = Err E_WAL_REGION /\
  wal_open_chk toyH wal_sample 150 8 0 0 = Ok (0, 0, 0) /\
  wal_open_chk toyH wal_sample 18446744073709551615 200 0 0 = Err E_WAL_REGION /\
  (* the former panic / abort inputs, now errors or clamped values *)
  ti_read_track (fun _ => true) (TI_MAGIC ++ le_encode 8 (2 ^ 59)) 0 (12 + 16 * 2 ^ 59) = Err E_TI_TOO_LARGE /\
  ti_read_track (fun _ => false) (TI_MAGIC ++ le_encode 8 1 ++ repeat 0 16) 0 28 = Err E_TI_TOO_LARGE /\
  ti_read_track (fun _ => true) (TI_MAGIC ++ le_encode 8 1 ++ repeat 0 16) 0 28 = Ok [(0%Z, 0)] /\
  read_sketch_track (Sketch.SKETCH_TRACK_MAGIC ++ le_encode 2 1 ++ le_encode 2 32 ++ le_encode 8 (2 ^ 60) ++ repeat 0 8) 0 24 = Err E_SK_OVERFLOW /\
  search_doc_limit 1 18446744073709551615 None = 18446744073709551615 /\
  sketch_max_candidates 18446744073709551615 = 18446744073709551615 /\
  collector_limit 18446744073709551615 8 = 8 /\ collector_limit 5 0 = 1 /\
  recency_age 1700000000 (- 2 ^ 63) = (2 ^ 63 - 1)%Z.
Proof. vm_compute. repeat split; try reflexivity. Qed.

(* read_toc on a file whose tail is a 24-byte TOC prefix (version 1, no segments, no frames) and
   its footer; the "decoder" hands the bytes back *)
Definition toc24 : bytes := le_encode 8 1 ++ le_encode 8 0 ++ le_encode 8 0.
Definition toc_file : bytes := repeat 3 10 ++ toc24 ++ footer_encode (mkFooter 24 (toyH toc24) 4).
Example C22_read_toc_nonvacuous :
  read_toc toyH (fun b => Ok b) toc_file 10 = Ok toc24 /\
  read_toc toyH (fun b => Ok b) toc_file 11 = Err E_TOC_LEN /\
  read_toc toyH (fun b => Ok b) toc_file 91 = Err E_TOC_BEYOND /\
  read_toc toyH (fun b => Ok b) toc_file 60 = Err E_TOC_NOFOOTER /\
  (exists r, locate_footer_window (find_last_valid_footer toyH) toc_file = Ok (Some r)).
Proof. vm_compute. repeat split; try reflexivity. eexists; reflexivity. Qed.

(* open_locked: a component table in which read_toc fails with a recoverable error, recovery
   finds the TOC at another offset, the header is rewritten, two loaders run *)
Definition hdr0 : header := mkHeader MAGIC EXPECTED_VERSION 100 4096 64 0 0 (repeat 0 32).
Definition comps_sample : @components N N :=
  @mkComponents N N false (Ok tt) (Ok hdr0) (fun _ => Err 34) (fun k => k =? 34) (fun _ => Ok (7, 90))
    (fun _ => repeat 1 32) (fun _ => Ok tt) (fun _ => true) (fun _ => Ok tt) (fun _ => Ok tt) (Ok 3)
    (fun h t g => h_footer_offset h + t + g) [(fun s => Ok (s + 1)); (fun s => Ok (s * 2))]
    (fun s => s) (fun _ => hdr0) (Ok tt).
Example C22_open_locked_nonvacuous :
  comps_no_panic comps_sample /\ open_locked comps_sample = Ok 202.
Proof.
  split; [|vm_compute; reflexivity].
  unfold comps_no_panic, comps_sample; cbn.
  repeat split; try discriminate. repeat constructor; discriminate.
Qed.
