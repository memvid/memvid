(* C15 Timeline is complete, chronological and correctly filtered.
   Short proofs stand under the statements; what they rest on is in Proofs/TimelineSort.v and
   Proofs/TimelineProofs.v.
   Model: Model/Timeline.v (src/memvid/timeline.rs build_timeline, the time-index part of
   rebuild_indexes in src/memvid/mutation.rs, src/io/time_index.rs append_track/read_track).

   Eligibility, read from the code: a frame is a timeline entry iff it is Active and its role
   is Document (rebuild_indexes puts exactly those into the time index) or ExtractedImage
   (build_timeline adds exactly those); DocumentChunk frames never are.

   Part A is about the code AS IT IS: the property is refuted (F-C15-1) and proved outside
   the known class.  Part B is about the code with the one-line repair (build_timeline_fixed):
   the full property for every history and every query, no side condition. *)
From MV Require Import Base.Prelude Model.Timeline Proofs.TimelineSort Proofs.TimelineProofs.
From Coq Require Import Sorting.Sorted Sorting.Permutation.

(* an output row: frame id, timestamp *)
Definition r (id : N) (ts : Z) : N * Z := (id, ts).

(* Part A: build_timeline *)

(* refuted by the faithful model: a Document (ts 100), commit, then an ExtractedImage
   (ts 50) and a Document (ts 10), commit: the image (id 1) comes last *)
Theorem C15_timeline_refuted :
  exists (ops : list top) (q : tquery),
    let s := trun true ops in
    build_timeline (ts_frames s) (ts_index s) q <> Ok (timeline_spec (ts_frames s) q).
Proof.
  exists [TPut 100 0 0; TCommit; TPut 50 2 0; TPut 10 0 0; TCommit], q_all.
  vm_compute. intros H; discriminate H.
Qed.
Print Assumptions C15_timeline_refuted.

Example C15_refutation_witness_values :
  let s := trun true [TPut 100 0 0; TCommit; TPut 50 2 0; TPut 10 0 0; TCommit] in
  build_timeline (ts_frames s) (ts_index s) q_all = Ok [r 2 10; r 0 100; r 1 50] /\
  timeline_spec (ts_frames s) q_all = [r 2 10; r 1 50; r 0 100] /\
  known_class (ts_frames s) = true /\ ts_index s <> None.
Proof. vm_compute. repeat split. discriminate. Qed.

(* outside the known class (the list "sorted index ++ active extracted images in id order"
   is in (timestamp, id) order) the code as it is meets the specification, for every
   history -- puts of any role with or without chunks, updates, deletes, commits, reopen,
   doctor -- and every query *)
Theorem C15_timeline_outside_known :
  forall (engines : bool) (ops : list top) (q : tquery),
    let s := trun engines ops in
    known_class (ts_frames s) = false ->
    build_timeline (ts_frames s) (ts_index s) q = Ok (timeline_spec (ts_frames s) q).
Proof. intros engines ops q. apply build_timeline_outside_known, trun_inv. Qed.
Print Assumptions C15_timeline_outside_known.

(* the class is exact: inside it the unrestricted query always deviates *)
Theorem C15_known_class_exact :
  forall (engines : bool) (ops : list top),
    let s := trun engines ops in
    ts_index s <> None ->
    known_class (ts_frames s) = true ->
    build_timeline (ts_frames s) (ts_index s) q_all <> Ok (timeline_spec (ts_frames s) q_all).
Proof. intros engines ops s _. apply known_class_exact, trun_inv. Qed.
Print Assumptions C15_known_class_exact.

(* in particular the property holds as it is for every memory without active extracted
   images (any history whose table has none) *)
Theorem C15_timeline_without_images :
  forall (engines : bool) (ops : list top) (q : tquery),
    let s := trun engines ops in
    (forall f, In f (ts_frames s) -> active f && is_image f = false) ->
    build_timeline (ts_frames s) (ts_index s) q = Ok (timeline_spec (ts_frames s) q).
Proof. intros engines ops q s H. apply C15_timeline_outside_known, no_images_not_known, H. Qed.
Print Assumptions C15_timeline_without_images.

(* the class in plain terms (sufficient condition for being outside it): every active
   extracted image is at or after every active document in (timestamp, id) order, and the
   images' timestamps do not decrease with their ids *)
Theorem C15_outside_known_sufficient :
  forall frames, dense frames ->
    (forall d i, In d frames -> In i frames -> indexed_frame d = true -> image_frame i = true ->
                 entry_leb (entry_of d) (entry_of i) = true) ->
    (forall i j, In i frames -> In j frames -> image_frame i = true -> image_frame j = true ->
                 (tf_id i < tf_id j)%N -> (tf_ts i <= tf_ts j)%Z) ->
    known_class frames = false.
Proof.
  intros frames Hd Hdi Hii. unfold known_class, merged_as_is. rewrite (extra_images_rebuild _ Hd).
  apply negb_false_iff, esortedb_iff, Facts.SS_app_intro.
  - apply rebuild_sorted.
  - apply images_sorted; assumption.
  - intros a b Ha Hb. apply in_time_entries in Ha as (d & Hdin & Hdp & ->).
    apply in_map_iff in Hb as (i & <- & Hi). apply filter_In in Hi as [Hi Ei]. apply Hdi; assumption.
Qed.
Print Assumptions C15_outside_known_sufficient.

(* non-vacuity of the side condition: histories WITH extracted images outside the class *)
Example C15_outside_known_nonvacuous :
  let s := trun true [TPut 10 0 0; TPut 10 2 0; TPut 5 0 2; TCommit; TUpdate 0 (Some 7%Z) 0; TDelete 2; TPut 11 2 0; TReopen] in
  known_class (ts_frames s) = false /\
  build_timeline (ts_frames s) (ts_index s) q_all = Ok [r 5 7; r 1 10; r 6 11].
Proof. vm_compute. split; reflexivity. Qed.

(* Part B: build_timeline_fixed *)

(* (B1) every history, every query: the repaired build_timeline returns exactly
   limit/reverse/filter of the eligible frames sorted by (timestamp, id) *)
Theorem C15_fixed_timeline_is_spec :
  forall (engines : bool) (ops : list top) (q : tquery),
    let s := trun engines ops in
    build_timeline_fixed (ts_frames s) (ts_index s) q = Ok (timeline_spec (ts_frames s) q).
Proof. exact fixed_reachable. Qed.
Print Assumptions C15_fixed_timeline_is_spec.

(* (B1') the same for ANY frame table with ids equal to positions (C06) whose time index is
   the one rebuild_indexes writes for it -- not only tables reachable by the op language *)
Theorem C15_fixed_timeline_any_table :
  forall (frames : list tframe) (q : tquery),
    dense frames ->
    build_timeline_fixed frames (Some (rebuild_time_index frames)) q = Ok (timeline_spec frames q).
Proof.
  intros frames q Hd. apply (build_timeline_answers (mkTS frames (Some (rebuild_time_index frames)) []) q).
  split; [exact Hd|left; reflexivity].
Qed.
Print Assumptions C15_fixed_timeline_any_table.

(* every reachable table is dense, so the hypothesis of B1' and B3 is met *)
Theorem C15_reachable_dense :
  forall engines ops, dense (ts_frames (trun engines ops)).
Proof. intros engines ops. apply (trun_inv engines ops). Qed.
Print Assumptions C15_reachable_dense.

(* (B2) chronological: ordered by (timestamp, frame id); exactly the reverse order when
   `reverse` is set -- for every query, limited or not *)
Theorem C15_spec_chronological :
  forall frames q,
    if q_reverse q then StronglySorted (fun a b => out_le b a) (timeline_spec frames q)
    else StronglySorted out_le (timeline_spec frames q).
Proof.
  intros frames q. rewrite timeline_spec_unfold.
  pose proof (Facts.SS_filter _ (in_range (q_since q) (q_until q)) (timeline_all frames) (sort_entries_sorted _)) as Hk.
  (* out_le on swapped entries is entry_leb on the entries, by computation *)
  change (StronglySorted (fun a b => out_le (swap_entry a) (swap_entry b))
            (filter (in_range (q_since q) (q_until q)) (timeline_all frames))) in Hk.
  unfold view, ordered_of, limited. destruct (q_reverse q); apply Facts.SS_map.
  - apply Facts.SS_rev in Hk. destruct (q_limit q); [apply Facts.SS_firstn|]; exact Hk.
  - destruct (q_limit q); [apply Facts.SS_firstn|]; exact Hk.
Qed.
Print Assumptions C15_spec_chronological.

(* (B3) complete, exactly once, inclusive bounds: without a limit, (id, ts) is returned iff
   some eligible frame has that id and timestamp and since <= ts <= until (both inclusive);
   and no frame id is returned twice (with or without limit) *)
Theorem C15_spec_exactly_once_within_inclusive_bounds :
  forall frames, dense frames ->
    (forall since until rv id ts,
        In (id, ts) (timeline_spec frames (mkQ None since until rv)) <->
        (exists f, In f frames /\ eligible f = true /\ tf_id f = id /\ tf_ts f = ts) /\
        (forall s, since = Some s -> (s <= ts)%Z) /\ (forall u, until = Some u -> (ts <= u)%Z)) /\
    (forall q, NoDup (map fst (timeline_spec frames q))).
Proof. intros frames Hd. split; [intros; apply spec_membership|intros; apply spec_nodup_ids, Hd]. Qed.
Print Assumptions C15_spec_exactly_once_within_inclusive_bounds.

(* (B4) a limit returns the first min(k, n) entries of the unlimited result; reverse without
   limit is the exact reversal of the forward result *)
Theorem C15_spec_limit_is_prefix_and_reverse_is_reversal :
  forall frames since until,
    (forall k rv,
        timeline_spec frames (mkQ (Some k) since until rv) =
        firstn (N.to_nat k) (timeline_spec frames (mkQ None since until rv))) /\
    timeline_spec frames (mkQ None since until true) = rev (timeline_spec frames (mkQ None since until false)).
Proof. intros. split; [intros; apply spec_limit_prefix|apply spec_reverse]. Qed.
Print Assumptions C15_spec_limit_is_prefix_and_reverse_is_reversal.

(* (B5) the sorting model does not depend on the algorithm: any function returning a sorted
   permutation (Rust's stable sort_by_key on the key (timestamp, frame_id), which is the
   whole entry) equals the insertion sort of the model *)
Theorem C15_sort_model_is_canonical :
  forall srt : list tentry -> list tentry,
    (forall l, esorted (srt l)) -> (forall l, Permutation (srt l) l) ->
    forall l, srt l = sort_entries l.
Proof. exact (any_sort_is_isort entry_leb entry_leb_total entry_leb_trans entry_leb_antisym). Qed.
Print Assumptions C15_sort_model_is_canonical.

(* (B6) the time index track, entry level: what append_track writes is read back by
   read_track as the sorted entry list; read_track accepts exactly the tracks in
   (timestamp, id) order (equal neighbours allowed) and returns them unchanged *)
Theorem C15_track_roundtrip :
  (forall es, read_track (append_track es) = Ok (sort_entries es)) /\
  (forall track, read_track track = Ok track <-> esorted track) /\
  (forall track out, read_track track = Ok out -> out = track /\ esorted track).
Proof. exact (conj track_roundtrip (conj read_track_accepts_iff read_track_ok_same)). Qed.
Print Assumptions C15_track_roundtrip.

(* non-vacuity: the refutation witness under the repaired code; ties, negative and extreme
   timestamps, chunked documents, update, delete, doctor; since/until hit a tie exactly *)
Example C15_fixed_nonvacuous :
  let ops := [TPut 100 0 0; TCommit; TPut 50 2 0; TPut 10 0 0; TCommit;
              TPut (-9223372036854775808) 0 3; TPut 9223372036854775807 2 0; TPut 50 0 0; TPut 50 2 0;
              TDoctor true; TUpdate 0 None 2; TDelete 3; TReopen] in
  let s := trun false ops in
  dense (ts_frames s) /\
  build_timeline_fixed (ts_frames s) (ts_index s) q_all
    = Ok [r 2 10; r 1 50; r 8 50; r 9 50; r 10 100; r 7 9223372036854775807] /\
  build_timeline_fixed (ts_frames s) (ts_index s) (mkQ (Some 2%N) (Some 50%Z) (Some 50%Z) true)
    = Ok [r 9 50; r 8 50] /\
  build_timeline (ts_frames s) (ts_index s) q_all
    = Ok [r 2 10; r 8 50; r 1 50; r 7 9223372036854775807; r 9 50; r 10 100].
Proof. split; [apply C15_reachable_dense|]. vm_compute. repeat split. Qed.
