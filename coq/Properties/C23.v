(* C23 Determinism: the same calls produce identical bytes; at minimum the observable logical
   state is identical.

   In Gallina every function is deterministic, so the content of the theorems is an
   INFORMATION-FLOW statement about Model/Determinism.v, where every source of nondeterminism of the
   implementation is an explicit oracle stream (SegId: Tantivy segment file names; Sched: indexing
   thread scheduling; Now: SystemTime::now(); HashOrd: HashSet iteration order of the frame filter;
   TmpName: temp file / work directory names) of a machine built on Model/Store.v + Model/Reads.v.
   Short proofs stand under the statements; what they rest on is in Proofs/DeterminismProofs.v. *)
From MV Require Import Base.Prelude Model.Store Model.StoreSpec Model.Reads Model.Determinism Proofs.DeterminismProofs.
From Coq Require Import Permutation.
Local Open Scope N_scope.

(* (1) SECOND SENTENCE, proved: for ALL histories whose puts / cards carry explicit timestamps and
   ALL pairs of oracle streams, the logical state (frame table with content tags and timestamps,
   lex_docs, vec_docs, time index, memory-card lists: the whole logical machine) and the result of
   every call are identical. *)
Theorem C23_logical_noninterference :
  forall (o1 o2 : oracle) (h : list dop), explicit h = true ->
    logical (fst (drun o1 dstate0 h)) = logical (fst (drun o2 dstate0 h)) /\
    snd (drun o1 dstate0 h) = snd (drun o2 dstate0 h).
Proof.
  intros o1 o2 h E. destruct (drun_rel0 o1 o2 h E) as [[HL _] HO]. split; [exact HL | exact HO].
Qed.
Print Assumptions C23_logical_noninterference.

(* (2) the byte-class tagging is sound: a region class of the file is identical in two executions
   whenever the two oracle streams agree on the sources `deps` tags it with (for every hash H). *)
Theorem C23_region_tags_sound :
  forall (o1 o2 : oracle) (H : list N -> N) (c : rclass) (h : list dop),
    explicit h = true -> agree_on (deps c) o1 o2 ->
    region H c (fst (drun o1 dstate0 h)) = region H c (fst (drun o2 dstate0 h)).
Proof. intros o1 o2 H c h E AG. apply (region_drel o1 o2); [apply (drun_rel0 o1 o2 h E) | exact AG]. Qed.
Print Assumptions C23_region_tags_sound.

(* (3) FIRST SENTENCE, refuted: two oracle streams give different TOC images (whatever the hash),
   hence different files ... *)
Theorem C23_bytes_refuted :
  exists h o1 o2, explicit h = true /\
    forall H, region H TocRegion (fst (drun o1 dstate0 h)) <> region H TocRegion (fst (drun o2 dstate0 h)).
Proof. exists h_bytes, oA, oB. split; [reflexivity |]. intro H. vm_compute. discriminate. Qed.
Print Assumptions C23_bytes_refuted.

(* ... and on that witness (two puts, one commit) exactly these classes differ: footer offset and log
   position (1, 2: the second stream also cuts the documents into two segment files), header TOC
   checksum (3), log (5: the lex batch record), segment files (8), TOC (14), footer length+hash (15). *)
Theorem C23_bytes_refuted_classes : differing toyH h_bytes oA oB = [1; 2; 3; 5; 8; 14; 15].
Proof. vm_compute. reflexivity. Qed.
Print Assumptions C23_bytes_refuted_classes.

(* (4) outside the known class (region classes tagged with an oracle source: known_class c = true for
   header footer-offset / log-position / TOC-checksum, log, segment files, memories track,
   unreferenced bytes, TOC, footer length+hash) the bytes ARE identical for all oracle streams:
   header geometry and padding, payloads, time index, vector index, sketch track, logic mesh,
   footer magic+generation, the TOC without its segment manifest and absolute offsets, and the frame records of the log (a
   tombstone record with its timestamp field masked: `now` is the only oracle value in it). *)
Theorem C23_bytes_outside_known :
  forall (H : list N -> N) (c : rclass) (h : list dop) (o1 o2 : oracle),
    explicit h = true -> known_class c = false ->
    region H c (fst (drun o1 dstate0 h)) = region H c (fst (drun o2 dstate0 h)).
Proof.
  intros H c h o1 o2 E K. apply C23_region_tags_sound; [exact E |].
  unfold known_class in K. destruct (deps c) eqn:D; [| discriminate]. intros s [].
Qed.
Print Assumptions C23_bytes_outside_known.

Example C23_classes_outside_known :
  map rclass_code (filter (fun c => negb (known_class c)) all_classes) = [0; 4; 6; 7; 9; 11; 12; 16; 17; 18].
Proof. vm_compute. reflexivity. Qed.

(* (5) temp names and the hash-set order of the frame filter flow into no region at all. *)
Theorem C23_tmp_and_hash_order_flow_nowhere :
  forall (H : list N -> N) (h : list dop) (o1 o2 : oracle), explicit h = true ->
    agree SegId o1 o2 -> agree Sched o1 o2 -> agree Now o1 o2 ->
    forall c, region H c (fst (drun o1 dstate0 h)) = region H c (fst (drun o2 dstate0 h)).
Proof.
  (* by construction: pstep and region never read o_tmp or o_hord; deps records that *)
  intros H h o1 o2 E A1 A2 A3 c. apply C23_region_tags_sound; [exact E |].
  intros s I. destruct (deps_sources c s I) as [-> | [-> | ->]]; assumption.
Qed.
Print Assumptions C23_tmp_and_hash_order_flow_nowhere.

(* (6) a tombstone's timestamp carries `now`: same segment ids and scheduling, later clock, a history
   with a delete: exactly the log region (5) differs.  No caller input avoids it. *)
Theorem C23_tombstone_carries_now : explicit h_tomb = true /\ differing toyH h_tomb oA oC = [5].
Proof. split; vm_compute; reflexivity. Qed.
Print Assumptions C23_tombstone_carries_now.

(* (7) cards extracted by a put carry `now` (created_at, enriched_at) into the memories track (10);
   a card put with an explicit created_at does not. *)
Theorem C23_extracted_cards_carry_now : explicit h_cards = true /\ differing toyH h_cards oA oC = [10].
Proof. split; vm_compute; reflexivity. Qed.
Print Assumptions C23_extracted_cards_carry_now.

(* (8) lex_docs as a SET: after every call that flushed the engine, the segment files the lex
   manifest points to hold exactly the engine's documents, grouped and ordered by the oracle. *)
Theorem C23_segment_files_hold_lex_docs :
  forall (o : oracle) (l : lstate) (p : pstate) (d : dop),
    let c := core o (p_nowc p) d in
    (0 < op_flushes c)%nat ->
    Permutation (seg_docs (p_lex (pstep o p d c l (fst (lstep l c)) (snd (lstep l c)))))
                (lex (l_rs (fst (lstep l c)))).
Proof.
  intros o l p d c F. unfold pstep. cbn [p_lex]. unfold cur_img, op_imgs.
  destruct (op_flushes c) as [| n]; [lia |].
  rewrite last_map_seq. apply seg_docs_lex_image.
Qed.
Print Assumptions C23_segment_files_hold_lex_docs.

(* (9) search through a frame filter: for every engine whose ranking depends on the documents and on
   the filter as sets (the assumption made of Tantivy, tested by the harness on ~30 searches per
   history), the result is the same for every segment layout and every hash-set order. *)
Theorem C23_filtered_search_noninterference :
  forall (query : Type) (engine : list (list N) -> option (list N) -> query -> list N),
    (forall s1 s2 f1 f2 q, Permutation (concat s1) (concat s2) -> Permutation f1 f2 ->
                           engine s1 (Some f1) q = engine s2 (Some f2) q) ->
    forall o1 o2 i1 i2 k1 k2 docs filter q,
      engine (map snd (tl (lex_image o1 i1 docs))) (Some (hashed_filter o1 k1 filter)) q =
      engine (map snd (tl (lex_image o2 i2 docs))) (Some (hashed_filter o2 k2 filter)) q.
Proof.
  intros query engine engine_set_semantics o1 o2 i1 i2 k1 k2 docs filter q. apply engine_set_semantics.
  - change (Permutation (seg_docs (lex_image o1 i1 docs)) (seg_docs (lex_image o2 i2 docs))).
    rewrite !seg_docs_lex_image. reflexivity.
  - unfold hashed_filter. rewrite !rotate_perm. reflexivity.
Qed.
Print Assumptions C23_filtered_search_noninterference.

(* (9b) Memvid::find_sketch_candidates (for every scoring function of the frames' index texts, every
   query, threshold and max_candidates) is an observation of the logical state: identical, as an ORDERED
   list, for all oracle streams -- in particular it does not depend on HashOrd, although the track keeps
   its entries in a HashMap: the code scans frame_order. *)
Theorem C23_sketch_candidates_noninterference :
  forall (query : Type) (score : N -> query -> N -> option N) (o1 o2 : oracle) (h : list dop), explicit h = true ->
    forall q thr max,
      sketch_candidates query score (fst (drun o1 dstate0 h)) q thr max =
      sketch_candidates query score (fst (drun o2 dstate0 h)) q thr max.
Proof.
  intros query score o1 o2 h E q thr max.
  apply sketch_candidates_logical, (C23_logical_noninterference o1 o2 h E).
Qed.
Print Assumptions C23_sketch_candidates_noninterference.

(* ... and the statement has content: were the entries scanned in the map's iteration order, HashOrd would
   flow into the answer as soon as scores tie (three frames with one index text, max_candidates 2). *)
Theorem C23_hashed_scan_would_flow :
  sketch_candidates unit all_tie (fst (drun (oH 0) dstate0 h_tied)) tt 10 2 = [(0, 5); (1, 5)] /\
  sketch_candidates unit all_tie (fst (drun (oH 1) dstate0 h_tied)) tt 10 2 = [(0, 5); (1, 5)] /\
  sketch_candidates_hashed unit all_tie (oH 0) 0 (fst (drun (oH 0) dstate0 h_tied)) tt 10 2 = [(0, 5); (1, 5)] /\
  sketch_candidates_hashed unit all_tie (oH 1) 0 (fst (drun (oH 1) dstate0 h_tied)) tt 10 2 = [(1, 5); (2, 5)].
Proof. vm_compute. repeat split. Qed.
Print Assumptions C23_hashed_scan_would_flow.

(* (10) the hypothesis `explicit` is needed and satisfiable: a put without a timestamp lets `now` flow
   into the time index (logical state); the witnesses above are explicit histories with deletes,
   embeddings, cards. *)
Theorem C23_implicit_timestamp_flows :
  explicit h_implicit = false /\
  region toyH TimeIndex (fst (drun oA dstate0 h_implicit)) <> region toyH TimeIndex (fst (drun oC dstate0 h_implicit)).
Proof. split; [reflexivity |]. vm_compute. discriminate. Qed.
Print Assumptions C23_implicit_timestamp_flows.

Example C23_nonvacuous :
  explicit h_tomb = true /\
  map f_status (committed (base (l_rs (logical (fst (drun oA dstate0 h_tomb)))))) = [2; 0] /\
  tix (l_rs (logical (fst (drun oB dstate0 h_tomb)))) = [1] /\
  map fst (vec (l_rs (logical (fst (drun oB dstate0 h_tomb))))) = [1] /\
  seg_docs (p_lex (snd (fst (drun oB dstate0 h_bytes)))) = [1; 0] /\
  lex (l_rs (logical (fst (drun oB dstate0 h_bytes)))) = [0; 1].
Proof. vm_compute. repeat split. Qed.
