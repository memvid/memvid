(* C40 Bulk-ingestion paths are equivalent to plain puts.
   Model: Model/Bulk.v (begin_batch / end_batch / PutManyOpts as state, ensure_wal_capacity,
   commit_from_records (= recover_wal), commit_skip_indexes(_inner) AS REPAIRED by ed861c9,
   finalize_indexes, rebuild_indexes, Drop / open) on top of the frame-table model Model/Store.v;
   reference: Model/BulkSpec.v (the reference table of Model/StoreSpec.v for the documents, with the
   full indexes of that table).  Short proofs stand under the statements; what they rest on is in
   Proofs/BulkProofs.v (which builds on Proofs/StoreProofs.v).

   What a reader sees (bview): the exposed frame table (ids, uris, CONTENT TAGS, roles, status, chunk
   parents), the timestamps, the timeline (time index), the documents of the lexical engine, the
   documents of the vector index.  spec_view ds is what plain acknowledged puts of the documents ds
   give.  Oracle inputs (whether a put ended with an automatic checkpoint and how many lex records it
   wrote, whether the log region grew, lex records of a commit / finalize) are universally
   quantified: the theorems hold for EVERY timing of them, separately on each path.  No hypothesis
   on the documents: an empty embedding vector is no embedding (eff_emb, fix 564c799).

   History: before ed861c9 commit_skip_indexes_inner dropped the IngestionDelta and with it the
   embeddings of the batch (finding F-C40-1, now fixed: C40_skip_commit_unfixed_dropped_embeddings).

   Remaining boundary, stated below as a theorem pair: between commit_skip_indexes and the next
   finalize_indexes the indexes of the batch exist IN MEMORY ONLY (the log records are checkpointed,
   the manifests cleared).  Closing -- or crashing -- and reopening the memory inside that window
   loses the embeddings of the batch for good (C40_reopen_inside_window_loses_embeddings); frames,
   contents, timeline and lexical index are still restored by finalize_indexes
   (C40_finalize_restores_lexical_any_history).  The property's paths never reopen inside the window;
   `scan false ops = Some false` says exactly that (and that the history ended outside the window). *)
From MV Require Import Base.Prelude Model.Store Model.StoreSpec Model.VecStore Model.Timeline Model.Bulk Model.BulkSpec Proofs.StoreProofs Proofs.BulkProofs.
Local Open Scope N_scope.

(* (1) For ALL document lists: the same documents ingested
     - inside begin_batch / end_batch with ANY PutManyOpts (skip_sync, disable_auto_checkpoint,
       compression_level, wal_pre_size_bytes), end_batch before or after the commit,
     - or in ANY segmentation with commit_skip_indexes after each segment, then finalize_indexes,
   show exactly what plain puts + commit show: frames, content tags, timestamps, timeline, engine
   documents AND vector documents -- for every timing of automatic checkpoints and log growth on each
   path.  No known class. *)
Theorem C40_bulk_equals_plain :
  forall (o : opts) (xs ys : list pdoc) (segs : list (list pdoc)) (end_first : bool)
         (e1 : N) (g1 : option N) (e2 : N) (g2 : option N) (e3 : N) (g3 : option N),
    map pd_doc ys = map pd_doc xs -> map pd_doc (concat segs) = map pd_doc xs ->
    bview (bfinal (batch_path o ys end_first e2 g2)) = bview (bfinal (plain_path xs e1 g1)) /\
    bview (bfinal (skip_path segs e3 g3)) = bview (bfinal (plain_path xs e1 g1)).
Proof.
  intros o xs ys segs ef e1 g1 e2 g2 e3 g3 H1 H2.
  rewrite (proj1 (Plain_view _ _ (plain_path_Plain xs e1 g1))), (proj1 (Plain_view _ _ (batch_path_Plain o ys ef e2 g2))),
    (proj1 (Plain_view _ _ (skip_path_Plain segs e3 g3))), H1, H2.
  split; reflexivity.
Qed.
Print Assumptions C40_bulk_equals_plain.

(* (2) ... and this also holds after closing and reopening each of the three memories *)
Theorem C40_bulk_equals_plain_reopened :
  forall (o : opts) (xs ys : list pdoc) (segs : list (list pdoc)) (end_first : bool)
         (e1 : N) (g1 : option N) (e2 : N) (g2 : option N) (e3 : N) (g3 : option N) (r1 r2 r3 : N),
    map pd_doc ys = map pd_doc xs -> map pd_doc (concat segs) = map pd_doc xs ->
    bview (bfinal (batch_path o ys end_first e2 g2 ++ [BReopen r2])) = bview (bfinal (plain_path xs e1 g1 ++ [BReopen r1])) /\
    bview (bfinal (skip_path segs e3 g3 ++ [BReopen r3])) = bview (bfinal (plain_path xs e1 g1 ++ [BReopen r1])).
Proof.
  intros o xs ys segs ef e1 g1 e2 g2 e3 g3 r1 r2 r3 H1 H2.
  rewrite (proj2 (Plain_view _ _ (plain_path_Plain xs e1 g1))), (proj2 (Plain_view _ _ (batch_path_Plain o ys ef e2 g2))),
    (proj2 (Plain_view _ _ (skip_path_Plain segs e3 g3))), H1, H2.
  split; reflexivity.
Qed.
Print Assumptions C40_bulk_equals_plain_reopened.

(* (3) the skip path inside begin_batch / end_batch (end_batch before or after finalize_indexes) *)
Theorem C40_skip_inside_batch_equals_plain :
  forall (o : opts) (segs : list (list pdoc)) (end_first : bool) (e : N) (g : option N),
    bview (bfinal (BBegin o :: skip_body segs ++ (if end_first then [BEnd; BFinalize e g] else [BFinalize e g; BEnd])))
    = spec_view (map pd_doc (concat segs)).
Proof.
  intros o segs ef e g. destruct (skip_body_facts segs) as (S1 & S2). apply Plain_view. split; [|split].
  - cbn [scan]. rewrite S2. destruct segs; destruct ef; reflexivity.
  - change (BBegin o :: ?l) with ([BBegin o] ++ l). rewrite !docs_of_ops_app, S1. destruct ef; apply app_nil_r.
  - unfold bfinal. rewrite brun_cons, brun_app.
    assert (HB : pending (base (fst (brun (fst (bstep bst0 (BBegin o))) (skip_body segs)))) = [])
      by (apply skip_body_pending; reflexivity).
    destruct ef; rewrite !brun_cons; cbn [brun fst].
    + apply finalize_no_frame. rewrite end_base, HB. reflexivity.
    + rewrite end_base. apply finalize_no_frame. rewrite HB. reflexivity.
Qed.
Print Assumptions C40_skip_inside_batch_equals_plain.

(* (4) the general statement behind (1)-(3): ANY history over put / begin_batch / end_batch / commit /
   commit_skip_indexes / finalize_indexes / close+reopen -- markers and commits at arbitrary positions,
   nested or unbalanced -- that never reopens between a commit_skip_indexes and the following
   finalize_indexes and ends outside that window, once only lex records are pending, shows what plain
   puts of its documents show ... *)
Theorem C40_any_history_is_plain :
  forall ops : list bop,
    scan false ops = Some false ->
    delta_nonempty (pending (base (bfinal ops))) = false ->
    bview (bfinal ops) = spec_view (docs_of_ops ops).
Proof. exact bulk_view. Qed.
Print Assumptions C40_any_history_is_plain.

(* ... also after close + reopen, whatever was pending at the close *)
Theorem C40_any_history_reopened :
  forall (ops : list bop) (e : N),
    scan false ops = Some false ->
    bview (bfinal (ops ++ [BReopen e])) = spec_view (docs_of_ops ops).
Proof. exact bulk_view_reopened. Qed.
Print Assumptions C40_any_history_reopened.

(* (5) inside the window too, the IN-MEMORY vector index (what a live search_vec scans) already holds
   every committed embedding: the repair of ed861c9 *)
Theorem C40_vector_index_complete_in_memory :
  forall (ops : list bop) (w : bool),
    scan false ops = Some w -> vec_full (finf (bfinal ops)) = docs_of (vidx (ix (bfinal ops))).
Proof. exact vector_live_any_window. Qed.
Print Assumptions C40_vector_index_complete_in_memory.

(* (6) the exposed frames never depend on the path at all: for EVERY history over the whole alphabet
   (reopen inside the window included) the exposed table is the reference table of its documents *)
Theorem C40_frames_any_history :
  forall ops : list bop, view (base (bfinal ops)) = ref_table (docs_of_ops ops).
Proof. intros ops. exact (J_view _ _ (A_J (proj1 (AF_final ops)))). Qed.
Print Assumptions C40_frames_any_history.

(* (7) and after ANY history with no frame record pending, finalize_indexes restores the frame table,
   timestamps, timeline and engine documents of plain puts, and leaves the memory Settled: engine
   flushed and equal to its persisted copy, only lex records pending, a time index present.  The same
   four hold after a following close + reopen; there the hypothesis on the pending records is not
   needed (the reopen commits them), and the proof does not use it. *)
Theorem C40_finalize_restores_lexical_any_history :
  forall (ops : list bop) (e : N) (g : option N),
    let s := bfinal ops in let ds := docs_of_ops ops in
    delta_nonempty (pending (base s)) = false ->
    let s' := fst (bstep s (BFinalize e g)) in
    view (base s') = ref_table ds /\ finf s' = ref_infos ds /\
    timeline_ids s' = map snd (tix_full (ref_table ds) (ref_infos ds)) /\
    lex (ix s') = lex_full (ref_table ds) (ref_infos ds) /\ Settled s'.
Proof.
  (* finalize_indexes closes the window whatever it was, and still no frame record is pending *)
  intros ops e g s ds HD s'.
  destruct (AF_step _ _ _ _ (BFinalize e g) (AF_final ops)) as [HA HF]. rewrite app_nil_r in HA.
  destruct (AF_lexical_view _ _ _ HA HF (finalize_no_frame s e g HD)) as (V & I & T & L).
  exact (conj V (conj I (conj T (conj L (finalize_Settled s e g HD))))).
Qed.
Print Assumptions C40_finalize_restores_lexical_any_history.

Theorem C40_finalize_restores_lexical_reopened :
  forall (ops : list bop) (e : N) (g : option N) (e2 : N),
    let s := bfinal ops in let ds := docs_of_ops ops in
    delta_nonempty (pending (base s)) = false ->
    let s' := fst (bstep (fst (bstep s (BFinalize e g))) (BReopen e2)) in
    view (base s') = ref_table ds /\ finf s' = ref_infos ds /\
    timeline_ids s' = map snd (tix_full (ref_table ds) (ref_infos ds)) /\
    lex (ix s') = lex_full (ref_table ds) (ref_infos ds).
Proof. intros ops e g e2 s ds _. exact (finalize_lexical_reopened ops e g e2). Qed.
Print Assumptions C40_finalize_restores_lexical_reopened.

(* (8) THE BOUNDARY.  One embedded put, commit_skip_indexes, close + reopen, finalize_indexes: the
   frame is there, the vector index is empty, and stays empty.  The hypothesis of (4) is necessary:
   scan says None for this history.  (A process crash in the window behaves like the close: after
   commit_skip_indexes nothing is pending in the log and the manifest holds no data pointer.) *)
Definition e1 : emb := [1065353216; 0; 0; 1065353216].   (* 1.0 0.0 0.0 1.0 *)
Definition wdoc : doc := mkDoc None 1000 0 1700000000%Z true [] (Some e1) false.
Definition vec_view (s : bst) : docs := docs_of (vidx (ix s)).
Definition window_reopen : list bop := [BPut wdoc None None; BSkip; BReopen 0; BFinalize 1 None].

Theorem C40_reopen_inside_window_loses_embeddings :
  scan false window_reopen = None /\
  view (base (bfinal window_reopen)) = ref_table [wdoc] /\
  vec_view (bfinal window_reopen) = [] /\ vec_full (ref_infos [wdoc]) = [(0, e1)] /\
  vec_view (bfinal (window_reopen ++ [BReopen 0])) = [] /\
  (* without the reopen the same history is fine *)
  vec_view (bfinal [BPut wdoc None None; BSkip; BFinalize 1 None]) = [(0, e1)].
Proof. vm_compute. repeat split. Qed.
Print Assumptions C40_reopen_inside_window_loses_embeddings.

(* (9) historical: the skip commit as it was before ed861c9 dropped the embeddings of the batch *)
Theorem C40_skip_commit_unfixed_dropped_embeddings :
  let s := fst (bstep bst0 (BPut wdoc None None)) in
  vec_view (finalize (commit_skip_unfixed s) 1) = [] /\ vec_view (finalize (commit_skip s) 1) = [(0, e1)].
Proof. vm_compute. split; reflexivity. Qed.

(* (10) wal_pre_size_bytes: ensure_wal_capacity never shrinks the log, reaches min_bytes, and when it
   changes the size the new size is the next power of two of min_bytes; shift_data_for_wal_growth +
   adjust_offsets_after_wal_growth keep every frame on its own payload extent *)
Theorem C40_ensure_wal_capacity :
  forall w m, let w' := ensure_wal_capacity w m in w <= w' /\ m <= w' /\ (w' <> w -> w' = next_pow2 m /\ w < m).
Proof.
  intros w m. unfold ensure_wal_capacity. pose proof (next_pow2_le m).
  destruct (N.leb_spec m w); [|destruct (N.eqb_spec (next_pow2 m - w) 0)]; cbv zeta; lia.
Qed.
Print Assumptions C40_ensure_wal_capacity.

Theorem C40_shift_keeps_payloads :
  forall ext data_start delta off len,
    0 < off -> Forall (fun x => data_start <= fst (fst x)) ext ->
    owner_at (shift_data data_start delta ext) (if off =? 0 then 0 else off + delta) len = owner_at ext off len.
Proof.
  intros ext ds delta off len Hoff HF. replace (off =? 0) with false by lia.
  induction ext as [|[[o l] t] ext IH]; cbn [shift_data map owner_at]; [reflexivity|].
  inversion HF as [|? ? H1 H2]; subst. cbn [fst] in H1. replace (ds <=? o) with true by lia.
  fold (shift_data ds delta ext). rewrite (IH H2).
  replace (o + delta =? off + delta) with (o =? off) by lia. reflexivity.
Qed.
Print Assumptions C40_shift_keeps_payloads.

(* non-vacuity: four documents (one chunked into 2 frames, one embedded, one instant-indexed, one
   with an EMPTY embedding vector; an automatic checkpoint in the middle of the plain path; ties and
   out-of-order timestamps) through the three paths: the hypotheses hold, all three views are equal and
   are the expected ones *)
Definition d1 : doc := mkDoc (Some 1) 1000 2 1700000500%Z true [true; false] None false.
Definition d2 : doc := mkDoc None 2000 0 1700000100%Z true [] (Some e1) false.
Definition d3 : doc := mkDoc None 3000 0 1700000100%Z false [] None true.
Definition d4 : doc := mkDoc None 4000 0 1700000900%Z true [] (Some []) false.
Definition xs_plain : list pdoc := [(d1, Some 1, None); (d2, None, Some 131072); (d3, None, None); (d4, None, None)].
Definition xs_batch : list pdoc := [(d1, Some 1, None); (d2, None, None); (d3, Some 1, None); (d4, None, None)].
Definition segs_skip : list (list pdoc) := [[(d1, None, None)]; [(d2, None, None); (d3, None, None)]; [(d4, None, None)]].
Definition o1 : opts := mkOpts true true 1%Z 100000.

Example C40_nonvacuous :
  map pd_doc xs_batch = map pd_doc xs_plain /\ map pd_doc (concat segs_skip) = map pd_doc xs_plain /\
  bview (bfinal (batch_path o1 xs_batch false 1 None)) = bview (bfinal (plain_path xs_plain 1 None)) /\
  bview (bfinal (skip_path segs_skip 1 None)) = bview (bfinal (plain_path xs_plain 1 None)) /\
  bview (bfinal (skip_path segs_skip 1 None ++ [BReopen 0])) = bview (bfinal (plain_path xs_plain 1 None)) /\
  snd (bview (bfinal (plain_path xs_plain 1 None))) = [(3, e1)] /\
  snd (fst (bview (bfinal (plain_path xs_plain 1 None)))) = [0; 1; 3; 5] /\
  snd (fst (fst (bview (bfinal (plain_path xs_plain 1 None))))) = [3; 4; 0; 5] /\
  wal_size (bat (bfinal (batch_path o1 xs_batch false 1 None))) = 131072 /\
  scan false (skip_path segs_skip 1 None) = Some false /\ scan false (skip_body segs_skip) = Some true.
Proof. vm_compute. repeat split. Qed.
