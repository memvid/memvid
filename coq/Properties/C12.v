(* C12 ACL enforcement never leaks a denied frame.
   Short proofs stand under the statements; what they rest on is in Proofs/AclProofs.v: the
   theorems about the decision and the pass, and, for a call site ((5)-(8)), what the pass
   guarantees any site (run_enforce, run_audit, run_no_tenant) through the equation that says
   which site it is (search_site_eq, vec_site_eq, ask_site_eq, adaptive_ok).
   The model (Model/Acl.v) follows src/memvid/acl.rs and the ACL stage of its four call
   sites.  Every theorem holds for EVERY pair of JSON parsers (json_str =
   serde_json::from_str::<String>, json_arr = ::<Vec<String>>), every frame table, every hit
   list, every hit payload type P, every build_context / hit-conversion / adaptive-cutoff
   function.

   The specification (Model/Acl.v, Section Spec) is spelled out from the property text:
     grants m c              metadata well formed, same tenant, public or a credential matches
     other_tenant m c        DENY: well formed, tenants differ
     restricted_no_match m c DENY: well formed, same tenant, restricted, no principal/role/group on a list
     bad_metadata m          DENY: tenant or visibility missing/blank/unknown, or a list key
                             that is not a JSON array of non-blank strings
     readable fm c id        frame id exists and its metadata grants c
     no_tenant c             no context, or tenant absent / blank. *)
From MV Require Import Base.Prelude Model.JsonStr Model.Acl Proofs.AclProofs Corr.C12.

(* (1) The decision, for ALL metadata maps and contexts (what the hook acl_decide returns):
       None iff the caller has no usable tenant; otherwise allowed iff `grants`, and the three
       deny classes are told apart exactly (cross-tenant flag iff other tenant, missing flag
       iff bad metadata, no flag iff restricted without a match); denied iff one of the three. *)
Theorem C12_decide_allow_iff_grants :
  forall (json_str : str -> option str) (json_arr : str -> option (list str)) (m : meta) (c : acl_context),
    (acl_decide json_str json_arr m c = None <-> ~ has_tenant json_str c) /\
    (forall a x y, acl_decide json_str json_arr m c = Some (a, x, y) ->
       (a = true <-> grants json_str json_arr m c) /\
       (x = true <-> other_tenant json_str json_arr m c) /\
       (y = true <-> bad_metadata json_str json_arr m) /\
       (a = false /\ x = false /\ y = false <-> restricted_no_match json_str json_arr m c) /\
       (a = false <-> other_tenant json_str json_arr m c \/ restricted_no_match json_str json_arr m c
                      \/ bad_metadata json_str json_arr m)).
Proof. exact acl_decide_spec. Qed.
Print Assumptions C12_decide_allow_iff_grants.

(* (1b) the code's parse succeeds exactly on well-formed metadata, with those contents *)
Theorem C12_parse_iff_well_formed :
  forall json_str json_arr (m : meta) (p : parsed_acl),
    parse_acl_metadata json_str json_arr m = Some p <->
    well_formed json_str json_arr m (p_tenant p) (p_public p) (p_roles p) (p_groups p) (p_principals p).
Proof. exact parse_acl_metadata_spec. Qed.
Print Assumptions C12_parse_iff_well_formed.

(* (1c) normalize_scalar computes `reads_as`; trim is the part between the longest whitespace
        prefix and suffix; lower is idempotent and leaves no A-Z *)
Theorem C12_normalize_scalar_spec :
  forall json_str (v : option str) (out : str),
    normalize_scalar json_str v = Some out <-> reads_as json_str v out.
Proof. exact normalize_scalar_spec. Qed.
Print Assumptions C12_normalize_scalar_spec.

Theorem C12_trim_spec :
  forall s : str,
    exists a b, s = a ++ trim s ++ b /\ forallb is_ws a = true /\ forallb is_ws b = true /\
                match trim s with [] => True | c :: _ => is_ws c = false end /\
                match rev (trim s) with [] => True | c :: _ => is_ws c = false end.
Proof. exact trim_spec. Qed.
Print Assumptions C12_trim_spec.

Theorem C12_lower_spec :
  forall s : str, lower (lower s) = lower s /\ length (lower s) = length s /\
                  forallb (fun c => negb ((65 <=? c) && (c <=? 90)))%N (lower s) = true.
Proof. exact (fun s => conj (lower_idem s) (conj (lower_length s) (lower_no_upper s))). Qed.
Print Assumptions C12_lower_spec.

(* (2) apply_acl_to_search_hits in Enforce returns exactly the readable hits, in their
       original order, ranked 1..n (and counts them). *)
Theorem C12_apply_enforce_exact :
  forall json_str json_arr (P : Type) (frame_meta : N -> option meta)
         (hits : list (hit P)) (c : acl_context) (out : list (hit P)) (st : stats),
    apply_acl json_str json_arr P frame_meta hits (Some c) Enforce = Ok (out, st) ->
    exists keep : hit P -> bool,
      (forall h, keep h = true <-> readable json_str json_arr frame_meta c (h_frame h)) /\
      map (fun h => (h_frame h, h_body h)) out = map (fun h => (h_frame h, h_body h)) (filter keep hits) /\
      (forall k h, nth_error out k = Some h -> h_rank h = (N.of_nat k + 1)%N) /\
      Forall (fun h => readable json_str json_arr frame_meta c (h_frame h)) out /\
      st_allowed st = N.of_nat (length out) /\ (st_allowed st + st_denied st = N.of_nat (length hits))%N.
Proof. exact apply_enforce_exact. Qed.
Print Assumptions C12_apply_enforce_exact.

(* (3) Enforce is an error exactly when there is no usable tenant, and the ACL stage never panics. *)
Theorem C12_apply_enforce_error_iff_no_tenant :
  forall json_str json_arr (P : Type) (frame_meta : N -> option meta) (hits : list (hit P)) (c : option acl_context),
    (forall r, apply_acl json_str json_arr P frame_meta hits c Enforce <> Ok r) <-> no_tenant json_str c.
Proof. exact apply_enforce_err_iff. Qed.
Print Assumptions C12_apply_enforce_error_iff_no_tenant.

Theorem C12_apply_never_panics :
  forall json_str json_arr (P : Type) (frame_meta : N -> option meta) (hits : list (hit P))
         (c : option acl_context) (mode : acl_mode) (s : N),
    apply_acl json_str json_arr P frame_meta hits c mode <> Panic s.
Proof. exact apply_never_panics. Qed.
Print Assumptions C12_apply_never_panics.

(* (4) Audit returns the hit list unchanged, whatever the context. *)
Theorem C12_apply_audit_unchanged :
  forall json_str json_arr (P : Type) (frame_meta : N -> option meta) (hits : list (hit P)) (c : option acl_context),
    exists st, apply_acl json_str json_arr P frame_meta hits c Audit = Ok (hits, st).
Proof. exact apply_audit_unchanged. Qed.
Print Assumptions C12_apply_audit_unchanged.

(* (5) NO LEAK at the four call sites: under Enforce every hit, citation and context fragment
       refers to a readable frame, and the context string is build_context of exactly those hits. *)
Theorem C12_search_no_leak :
  forall json_str json_arr (P : Type) (frame_meta : N -> option meta) (C : Type) (build_context : list (hit P) -> C)
         (pre : pre_search P C) (c : acl_context) (r : response P C),
    search_acl json_str json_arr P frame_meta C build_context pre (Some c) Enforce = Ok r ->
    Forall (fun h => readable json_str json_arr frame_meta c (h_frame h)) (r_hits r) /\
    r_context r = build_context (r_hits r) /\ r_total r = N.of_nat (length (r_hits r)).
Proof.
  intros * E. rewrite search_site_eq in E. apply run_enforce in E.
  destruct pre as [k| |r0]; cbn [search_site] in E.
  - discriminate E.
  - injection E as <-. repeat split; constructor.
  - destruct E as (out & -> & Hr & _). repeat split. exact Hr.
Qed.
Print Assumptions C12_search_no_leak.

Theorem C12_vec_search_no_leak :
  forall json_str json_arr (P : Type) (frame_meta : N -> option meta) (C : Type) (build_context : list (hit P) -> C)
         (conv : N -> option P) (pre : outcome (list N)) (top_k : nat) (c : acl_context) (r : response P C),
    vec_search_acl json_str json_arr P frame_meta C build_context conv pre top_k (Some c) Enforce = Ok r ->
    Forall (fun h => readable json_str json_arr frame_meta c (h_frame h)) (r_hits r) /\
    r_context r = build_context (r_hits r) /\ r_total r = N.of_nat (length (r_hits r)).
Proof.
  intros * E. rewrite vec_site_eq in E. apply run_enforce in E.
  destruct pre as [[|id ids]|k|p]; cbn [vec_site] in E.
  - injection E as <-. repeat split; constructor.
  - destruct E as (out & -> & Hr & _). repeat split. exact Hr.
  - discriminate E.
  - discriminate E.
Qed.
Print Assumptions C12_vec_search_no_leak.

Theorem C12_adaptive_search_no_leak :
  forall json_str json_arr (P : Type) (frame_meta : N -> option meta) (C : Type) (build_context : list (hit P) -> C)
         (conv : N -> option P) (cutoff : list (hit P) -> nat) (has_scores : list (hit P) -> bool)
         (enabled : bool) (pre : outcome (list N)) (max_results : nat) (c : acl_context) (out : list (hit P)),
    search_adaptive_acl json_str json_arr P frame_meta C build_context conv cutoff has_scores
                        enabled pre max_results (Some c) Enforce = Ok out ->
    Forall (fun h => readable json_str json_arr frame_meta c (h_frame h)) out.
Proof.
  intros * E. apply adaptive_ok in E as (resp & Ev & ->).
  apply adaptive_post_readable. apply C12_vec_search_no_leak in Ev as [Hr _]. exact Hr.
Qed.
Print Assumptions C12_adaptive_search_no_leak.

Theorem C12_ask_no_leak :
  forall json_str json_arr (P : Type) (frame_meta : N -> option meta) (C : Type) (build_context : list (hit P) -> C)
         (pre : outcome (list (hit P) * N)) (context_only : bool) (c : acl_context) (a : ask_response P C),
    ask_acl json_str json_arr P frame_meta C build_context pre context_only (Some c) Enforce = Ok a ->
    Forall (fun h => readable json_str json_arr frame_meta c (h_frame h)) (a_hits a) /\
    a_context a = build_context (a_hits a) /\
    a_total a = N.of_nat (length (a_hits a)) /\
    Forall (fun ci => readable json_str json_arr frame_meta c (snd ci)) (a_citations a) /\
    Forall (fun fr => readable json_str json_arr frame_meta c (snd fr)) (a_fragments a).
Proof.
  intros * E. rewrite ask_site_eq in E. apply run_enforce in E.
  destruct pre as [[hits total]|k|p]; cbn [ask_site] in E; [|discriminate E|discriminate E].
  destruct E as (out & -> & Hr & _). cbn.
  split; [exact Hr|]. split; [reflexivity|]. split; [reflexivity|].
  split; [|apply Forall_map; exact Hr].
  destruct context_only; [constructor | apply citations_readable; exact Hr].
Qed.
Print Assumptions C12_ask_no_leak.

(* (6) AUDIT returns what no ACL context returns, at the four call sites (for search: the
       engine's response itself, untouched). *)
Theorem C12_search_audit_same_as_no_context :
  forall json_str json_arr (P : Type) (frame_meta : N -> option meta) (C : Type) (build_context : list (hit P) -> C)
         (pre : pre_search P C) (c : option acl_context),
    search_acl json_str json_arr P frame_meta C build_context pre c Audit =
    search_acl json_str json_arr P frame_meta C build_context pre None Audit /\
    (forall r, pre = PreResp P C r -> search_acl json_str json_arr P frame_meta C build_context pre c Audit = Ok r).
Proof.
  intros *. rewrite !search_site_eq, !run_audit. split; [reflexivity|].
  intros [hs t cx] ->. reflexivity.
Qed.
Print Assumptions C12_search_audit_same_as_no_context.

Theorem C12_vec_search_audit_same_as_no_context :
  forall json_str json_arr (P : Type) (frame_meta : N -> option meta) (C : Type) (build_context : list (hit P) -> C)
         (conv : N -> option P) (pre : outcome (list N)) (top_k : nat) (c : option acl_context),
    vec_search_acl json_str json_arr P frame_meta C build_context conv pre top_k c Audit =
    vec_search_acl json_str json_arr P frame_meta C build_context conv pre top_k None Audit.
Proof. intros *. rewrite !vec_site_eq, !run_audit. reflexivity. Qed.
Print Assumptions C12_vec_search_audit_same_as_no_context.

Theorem C12_adaptive_search_audit_same_as_no_context :
  forall json_str json_arr (P : Type) (frame_meta : N -> option meta) (C : Type) (build_context : list (hit P) -> C)
         (conv : N -> option P) (cutoff : list (hit P) -> nat) (has_scores : list (hit P) -> bool)
         (enabled : bool) (pre : outcome (list N)) (max_results : nat) (c : option acl_context),
    search_adaptive_acl json_str json_arr P frame_meta C build_context conv cutoff has_scores enabled pre max_results c Audit =
    search_adaptive_acl json_str json_arr P frame_meta C build_context conv cutoff has_scores enabled pre max_results None Audit.
Proof. intros *. rewrite !adaptive_eq, !vec_site_eq, !run_audit. reflexivity. Qed.
Print Assumptions C12_adaptive_search_audit_same_as_no_context.

Theorem C12_ask_audit_same_as_no_context :
  forall json_str json_arr (P : Type) (frame_meta : N -> option meta) (C : Type) (build_context : list (hit P) -> C)
         (pre : outcome (list (hit P) * N)) (context_only : bool) (c : option acl_context),
    ask_acl json_str json_arr P frame_meta C build_context pre context_only c Audit =
    ask_acl json_str json_arr P frame_meta C build_context pre context_only None Audit.
Proof. intros *. rewrite !ask_site_eq, !run_audit. reflexivity. Qed.
Print Assumptions C12_ask_audit_same_as_no_context.

(* (7) ENFORCE WITHOUT A TENANT IS AN ERROR.  For ask it holds outright: *)
Theorem C12_ask_enforce_without_tenant_never_ok :
  forall json_str json_arr (P : Type) (frame_meta : N -> option meta) (C : Type) (build_context : list (hit P) -> C)
         (pre : outcome (list (hit P) * N)) (context_only : bool) (c : option acl_context),
    no_tenant json_str c ->
    forall a, ask_acl json_str json_arr P frame_meta C build_context pre context_only c Enforce <> Ok a.
Proof.
  intros * Hn a E. rewrite ask_site_eq in E. apply (run_no_tenant Hn) in E.
  destruct pre as [[hits total]|k|p]; discriminate E.
Qed.
Print Assumptions C12_ask_enforce_without_tenant_never_ok.

(* For search and the vector searches the faithful model REFUTES it (finding F-C12-1): the
   early `return Ok(empty response)` exits (empty/unmatched date range, empty replay set,
   no vector candidates e.g. top_k = 0) are taken before the ACL stage validates the context. *)
Theorem C12_search_enforce_without_tenant_is_error_refuted :
  forall json_str json_arr (P : Type) (frame_meta : N -> option meta) (C : Type) (build_context : list (hit P) -> C),
    exists (pre : pre_search P C) (c : option acl_context) (r : response P C),
      no_tenant json_str c /\
      search_acl json_str json_arr P frame_meta C build_context pre c Enforce = Ok r.
Proof.
  intros *. exists (PreEmpty P C), None, (empty_response P C build_context).
  split; [exact I | apply search_enforce_no_tenant_refuted].
Qed.
Print Assumptions C12_search_enforce_without_tenant_is_error_refuted.

Theorem C12_vec_search_enforce_without_tenant_is_error_refuted :
  forall json_str json_arr (P : Type) (frame_meta : N -> option meta) (C : Type) (build_context : list (hit P) -> C)
         (conv : N -> option P),
    exists (pre : outcome (list N)) (top_k : nat) (c : option acl_context) (r : response P C),
      no_tenant json_str c /\
      vec_search_acl json_str json_arr P frame_meta C build_context conv pre top_k c Enforce = Ok r.
Proof.
  intros *. exists (Ok []), 0%nat, None, (empty_response P C build_context).
  split; [exact I | apply vec_search_enforce_no_tenant_refuted].
Qed.
Print Assumptions C12_vec_search_enforce_without_tenant_is_error_refuted.

(* ... and outside that class (known_class = early_exit_search / early_exit_vec, boolean
   functions of the input) the clause holds: *)
Theorem C12_search_enforce_without_tenant_outside_known :
  forall json_str json_arr (P : Type) (frame_meta : N -> option meta) (C : Type) (build_context : list (hit P) -> C)
         (pre : pre_search P C) (c : option acl_context),
    early_exit_search pre = false -> no_tenant json_str c ->
    forall r, search_acl json_str json_arr P frame_meta C build_context pre c Enforce <> Ok r.
Proof.
  intros * Hk Hn r E. rewrite search_site_eq in E. apply (run_no_tenant Hn) in E.
  destruct pre as [k| |r0]; [discriminate E | discriminate Hk | discriminate E].
Qed.
Print Assumptions C12_search_enforce_without_tenant_outside_known.

Theorem C12_vec_search_enforce_without_tenant_outside_known :
  forall json_str json_arr (P : Type) (frame_meta : N -> option meta) (C : Type) (build_context : list (hit P) -> C)
         (conv : N -> option P) (pre : outcome (list N)) (top_k : nat) (c : option acl_context),
    early_exit_vec pre = false -> no_tenant json_str c ->
    forall r, vec_search_acl json_str json_arr P frame_meta C build_context conv pre top_k c Enforce <> Ok r.
Proof.
  intros * Hk Hn r E. rewrite vec_site_eq in E. apply (run_no_tenant Hn) in E.
  destruct pre as [[|id ids]|k|p]; [discriminate Hk | discriminate E | discriminate E | discriminate E].
Qed.
Print Assumptions C12_vec_search_enforce_without_tenant_outside_known.

Theorem C12_adaptive_search_enforce_without_tenant_outside_known :
  forall json_str json_arr (P : Type) (frame_meta : N -> option meta) (C : Type) (build_context : list (hit P) -> C)
         (conv : N -> option P) (cutoff : list (hit P) -> nat) (has_scores : list (hit P) -> bool)
         (enabled : bool) (pre : outcome (list N)) (max_results : nat) (c : option acl_context),
    early_exit_vec pre = false -> no_tenant json_str c ->
    forall r, search_adaptive_acl json_str json_arr P frame_meta C build_context conv cutoff has_scores
                                  enabled pre max_results c Enforce <> Ok r.
Proof.
  intros * Hk Hn r E. apply adaptive_ok in E as (resp & Ev & _).
  revert Ev. apply C12_vec_search_enforce_without_tenant_outside_known; assumption.
Qed.
Print Assumptions C12_adaptive_search_enforce_without_tenant_outside_known.

(* (8) COMPOSITION.  (a) Any later stage that only draws from readable lists (RRF fusion,
       re-ranking, promotion of corrections / temporal extremes, diversification, adaptive
       cut-off, sampling) returns a readable list. *)
Theorem C12_stage_drawing_from_readable_lists_is_readable :
  forall json_str json_arr (P : Type) (frame_meta : N -> option meta) (c : acl_context)
         (post : list (list (hit P)) -> list (hit P)) (ls : list (list (hit P))),
    draws_from post ->
    Forall (fun l => Forall (fun h => readable json_str json_arr frame_meta c (h_frame h)) l) ls ->
    Forall (fun h => readable json_str json_arr frame_meta c (h_frame h)) (post ls).
Proof.
  intros * Hd Hl. apply Forall_forall. intros h Hin.
  destruct (Hd ls h Hin) as (l & h' & Hl' & Hh' & Ef).
  rewrite Forall_forall in Hl. specialize (Hl l Hl'). rewrite Forall_forall in Hl.
  rewrite <- Ef. apply Hl. exact Hh'.
Qed.
Print Assumptions C12_stage_drawing_from_readable_lists_is_readable.

(* (b) ask with its candidate lists spelled out -- filtered lists (search / vector searches
       under the same context), UNFILTERED lists (timeline sampling: zero-hit fallback and
       analytical questions), an arbitrary fusion stage -- and the ACL pass as the last step:
       no leak whatever went in. *)
Theorem C12_ask_pipeline_no_leak :
  forall json_str json_arr (P : Type) (frame_meta : N -> option meta) (C : Type) (build_context : list (hit P) -> C)
         (fuse : list (list (hit P)) -> list (hit P)) (filtered unfiltered : list (list (hit P)))
         (total : N) (context_only : bool) (c : acl_context) (a : ask_response P C),
    ask_pipeline json_str json_arr P frame_meta C build_context fuse filtered unfiltered total context_only (Some c) Enforce = Ok a ->
    Forall (fun h => readable json_str json_arr frame_meta c (h_frame h)) (a_hits a) /\
    Forall (fun ci => readable json_str json_arr frame_meta c (snd ci)) (a_citations a) /\
    Forall (fun fr => readable json_str json_arr frame_meta c (snd fr)) (a_fragments a).
Proof.
  intros * E. unfold ask_pipeline in E. apply C12_ask_no_leak in E as (Hh & _ & _ & Hc & Hf).
  split; [exact Hh | split; [exact Hc | exact Hf]].
Qed.
Print Assumptions C12_ask_pipeline_no_leak.

(* (c) WITHOUT the final pass the response is readable only when nothing unfiltered went in
       (all lists filtered, fusion only draws from them) -- see C12_no_final_pass_leaks below
       for what happens otherwise (the seeded change C12-1). *)
Theorem C12_ask_without_final_pass_needs_all_lists_filtered :
  forall json_str json_arr (P : Type) (frame_meta : N -> option meta) (C : Type) (build_context : list (hit P) -> C)
         (fuse : list (list (hit P)) -> list (hit P)) (filtered : list (list (hit P)))
         (total : N) (context_only : bool) (c : acl_context) (a : ask_response P C),
    draws_from fuse ->
    Forall (fun l => Forall (fun h => readable json_str json_arr frame_meta c (h_frame h)) l) filtered ->
    ask_pipeline_no_final_pass P C build_context fuse filtered [] total context_only = Ok a ->
    Forall (fun h => readable json_str json_arr frame_meta c (h_frame h)) (a_hits a).
Proof.
  intros * Hd Hf [= <-]. cbn [a_hits]. rewrite app_nil_r.
  apply C12_stage_drawing_from_readable_lists_is_readable; assumption.
Qed.
Print Assumptions C12_ask_without_final_pass_needs_all_lists_filtered.

(* (d) The ACL stage is idempotent, so every Enforce response is a FIXED POINT of the model's
       last step: re-applying it to the returned hits changes nothing, and ask's citations and
       context fragments are those derived from exactly the returned hits.  This is the
       relation the `final` correspondence stream checks on every response of every entry
       point; a path that bypasses the last step and lets a denied frame through breaks it. *)
Theorem C12_apply_enforce_fixed_point :
  forall json_str json_arr (P : Type) (frame_meta : N -> option meta)
         (hits : list (hit P)) (c : acl_context) (out : list (hit P)) (st : stats),
    apply_acl json_str json_arr P frame_meta hits (Some c) Enforce = Ok (out, st) ->
    exists st', apply_acl json_str json_arr P frame_meta out (Some c) Enforce = Ok (out, st').
Proof. exact apply_enforce_fixed_point. Qed.
Print Assumptions C12_apply_enforce_fixed_point.

Theorem C12_ask_response_fixed_point :
  forall json_str json_arr (P : Type) (frame_meta : N -> option meta) (C : Type) (build_context : list (hit P) -> C)
         (pre : outcome (list (hit P) * N)) (context_only : bool) (c : acl_context) (a : ask_response P C),
    ask_acl json_str json_arr P frame_meta C build_context pre context_only (Some c) Enforce = Ok a ->
    (exists st, apply_acl json_str json_arr P frame_meta (a_hits a) (Some c) Enforce = Ok (a_hits a, st)) /\
    a_citations a = (if context_only then [] else citations_from P 0 (a_hits a)) /\
    a_fragments a = map (fun h => (h_rank h, h_frame h)) (a_hits a).
Proof.
  intros * E. rewrite ask_site_eq in E. apply run_enforce in E.
  destruct pre as [[hits total]|k|p]; cbn [ask_site] in E; [|discriminate E|discriminate E].
  destruct E as (out & -> & _ & Hfix). cbn. split; [exact Hfix | split; reflexivity].
Qed.
Print Assumptions C12_ask_response_fixed_point.

(* non-vacuity: concrete instances, evaluated with the hand model of serde_json (Model/JsonStr.v) *)
From Coq Require Import Ascii String.
Definition s (x : String.string) : str := map (fun a => N_of_ascii a) (String.list_ascii_of_string x).
Definition q := 34%N.   (* the double quote *)

(* tenant-a, visibility stored JSON-quoted ("restricted" with quotes), roles ["Admin"," analyst "] *)
Definition ex_meta : meta :=
  [ (K_TENANT, s " Tenant-A "); (K_VISIBILITY, q :: s "restricted" ++ [q]);
    (K_ROLES, s "[" ++ [q] ++ s "Admin" ++ [q] ++ s ", " ++ [q] ++ s " analyst " ++ [q] ++ s "]");
    (K_PRINCIPALS, s "[" ++ [q] ++ s "alice" ++ [q] ++ s "]") ].
Definition ex_public : meta := [ (K_TENANT, s "tenant-a"); (K_VISIBILITY, s "PUBLIC") ].
Definition ex_bad_list : meta := [ (K_TENANT, s "tenant-a"); (K_VISIBILITY, s "restricted"); (K_GROUPS, s "eng,ops") ].
Definition ex_ctx_role := mkCtx (Some (s "tenant-a")) (Some (s "bob")) [s "viewer"; s "ANALYST"] [].
Definition ex_ctx_nomatch := mkCtx (Some (s "tenant-a")) (Some (s "bob")) [s "viewer"] [s "eng"].
Definition ex_ctx_other := mkCtx (Some (s "tenant-b")) (Some (s "alice")) [s "admin"] [].
Definition ex_ctx_blank := mkCtx (Some (s "  ")) (Some (s "alice")) [s "admin"] [].

(* every branch of (1) is inhabited: allow by role, restricted without match, other tenant,
   bad metadata, and no usable tenant *)
Example C12_nonvacuous_decide :
  acl_decide json_string json_string_array ex_meta ex_ctx_role = Some (true, false, false) /\
  acl_decide json_string json_string_array ex_meta ex_ctx_nomatch = Some (false, false, false) /\
  acl_decide json_string json_string_array ex_meta ex_ctx_other = Some (false, true, false) /\
  acl_decide json_string json_string_array ex_bad_list ex_ctx_role = Some (false, false, true) /\
  acl_decide json_string json_string_array ex_public ex_ctx_nomatch = Some (true, false, false) /\
  acl_decide json_string json_string_array ex_meta ex_ctx_blank = None.
Proof. vm_compute. repeat split. Qed.

(* (2)/(5): four hits over frames 0..3 (restricted+role, public, bad list, missing frame):
   Enforce keeps frames 0 and 1, re-ranked 1,2; Audit keeps all four; Enforce with the
   blank-tenant context and with no context are the two errors *)
Definition ex_frames (id : N) : option meta :=
  if N.eqb id 0 then Some ex_meta else if N.eqb id 1 then Some ex_public
  else if N.eqb id 2 then Some ex_bad_list else None.
Definition ex_hits : list (hit unit) := [mkHit 1 2 tt; mkHit 2 0 tt; mkHit 3 3 tt; mkHit 4 1 tt]%N.
Definition ex_view (o : outcome (list (hit unit) * stats)) : outcome (list (N * N) * N * N) :=
  match o with
  | Ok (hs, st) => Ok (map (fun h => (h_rank h, h_frame h)) hs, st_allowed st, st_denied st)
  | Err k => Err k | Panic p => Panic p
  end.

Example C12_nonvacuous_apply :
  ex_view (apply_acl json_string json_string_array unit ex_frames ex_hits (Some ex_ctx_role) Enforce)
    = Ok ([(1, 0); (2, 1)], 2, 2)%N /\
  ex_view (apply_acl json_string json_string_array unit ex_frames ex_hits (Some ex_ctx_role) Audit)
    = Ok ([(1, 2); (2, 0); (3, 3); (4, 1)], 2, 2)%N /\
  ex_view (apply_acl json_string json_string_array unit ex_frames ex_hits (Some ex_ctx_blank) Enforce) = Err 2%N /\
  ex_view (apply_acl json_string json_string_array unit ex_frames ex_hits None Enforce) = Err 1%N.
Proof. vm_compute. repeat split. Qed.

(* (7): the refutation witness and a member of the complement class, computed *)
Example C12_nonvacuous_enforce_without_tenant :
  (exists r, search_acl json_string json_string_array unit ex_frames nat (@List.length _)
                        (PreEmpty unit nat) None Enforce = Ok r) /\
  early_exit_search (PreEmpty unit nat) = true /\
  early_exit_search (PreResp unit nat (mkResp unit nat ex_hits 4%N 4)) = false /\
  search_acl json_string json_string_array unit ex_frames nat (@List.length _)
             (PreResp unit nat (mkResp unit nat ex_hits 4%N 4)) (Some ex_ctx_blank) Enforce = Err 2%N /\
  early_exit_vec (Ok []) = true /\ early_exit_vec (Ok [3%N]) = false /\
  (exists r, vec_search_acl json_string json_string_array unit ex_frames nat (@List.length _) (fun _ => Some tt)
                            (Ok []) 0 (Some ex_ctx_blank) Enforce = Ok r) /\
  vec_search_acl json_string json_string_array unit ex_frames nat (@List.length _) (fun _ => Some tt)
                 (Ok [3%N]) 5 (Some ex_ctx_blank) Enforce = Err 2%N.
Proof. vm_compute. repeat split; eexists; reflexivity. Qed.

(* (5) for ask: citations and fragments of the filtered hits only *)
Example C12_nonvacuous_ask :
  match ask_acl json_string json_string_array unit ex_frames nat (@List.length _)
                (Ok (ex_hits, 4%N)) false (Some ex_ctx_role) Enforce with
  | Ok a => (map (fun h => h_frame h) (a_hits a), a_total a, a_context a, a_citations a, a_fragments a)
            = ([0; 1], 2, 2%nat, [(1, 0); (2, 1)], [(1, 0); (2, 1)])%N
  | _ => False
  end.
Proof. vm_compute. reflexivity. Qed.

(* (8): an analytical ask -- one filtered search list [frame 0; frame 1] and the UNFILTERED timeline
   list [frames 0,1,2,3]; fusion = concatenation (draws_from).  With the final pass only frames 0, 1
   come out; without it (seeded change C12-1) the bad-list frame 2 and the missing frame 3 leak,
   and the `final` runner of Corr/C12.v does not reproduce that response. *)
Definition ex_filtered : list (list (hit unit)) := [[mkHit 1 0 tt; mkHit 2 1 tt]]%N.
Definition ex_timeline : list (list (hit unit)) := [[mkHit 1 0 tt; mkHit 2 1 tt; mkHit 3 2 tt; mkHit 4 3 tt]]%N.
Definition ex_fuse (ls : list (list (hit unit))) : list (hit unit) := List.concat ls.

Example C12_no_final_pass_leaks :
  match ask_pipeline json_string json_string_array unit ex_frames nat (@List.length _)
                     ex_fuse ex_filtered ex_timeline 6%N false (Some ex_ctx_role) Enforce,
        ask_pipeline_no_final_pass unit nat (@List.length _) ex_fuse ex_filtered ex_timeline 6%N false with
  | Ok a, Ok b =>
      map (fun h => h_frame h) (a_hits a) = [0; 1; 0; 1]%N /\
      map (fun h => h_frame h) (a_hits b) = [0; 1; 0; 1; 2; 3]%N /\
      map snd (a_citations b) = [0; 1; 0; 1; 2; 3]%N /\
      acl_decide json_string json_string_array ex_bad_list ex_ctx_role = Some (false, false, true) /\
      MV.Corr.C12.C12_final_one [(0, ex_meta); (1, ex_public); (2, ex_bad_list)]%N
        (Some (Some (s "tenant-a"), Some (s "bob"), [s "viewer"; s "ANALYST"], []), true, 2%N,
         map (fun h => (h_rank h, h_frame h)) (a_hits b))
      <> Ok (map (fun h => (h_rank h, h_frame h)) (a_hits b), a_citations b, a_fragments b)
  | _, _ => False
  end.
Proof. vm_compute. repeat split; discriminate. Qed.

Example C12_draws_from_nonvacuous : draws_from ex_fuse.
Proof.
  intros ls h Hin. apply in_concat in Hin as [l [Hl Hh]]. exists l, h. auto.
Qed.
