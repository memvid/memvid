(* C27 Memory-card queries are temporally consistent and persistent.
   Short proofs stand under the statements; what they rest on is in Proofs/MemoriesProofs.v, the
   stable-sort facts in Base/SortFacts.v. *)
From MV Require Import Base.Prelude Base.SortFacts Model.Memories Proofs.MemoriesProofs.
From Coq Require Import String Permutation.
Local Open Scope Z_scope.

(* Rust's sort_by is a stable sort; under a total preorder a stable sort is unique *)
(* (S1) insertion sort is a stable sort: sorted, a permutation, ties keep their order *)
Theorem C27_stable_sort_spec :
  forall (A : Type) (leb : A -> A -> bool),
    (forall a b, leb a b = true \/ leb b a = true) ->
    (forall a b c, leb a b = true -> leb b c = true -> leb a c = true) ->
    forall l, sorted leb (isort leb l) /\ Permutation (isort leb l) l /\
              forall x, filter (equivb leb x) (isort leb l) = filter (equivb leb x) l.
Proof. exact isort_is_stable_sort. Qed.
Print Assumptions C27_stable_sort_spec.

(* (S2) whatever stable algorithm the library uses, its result is that list; merge sort too *)
Theorem C27_stable_sort_unique :
  forall (A : Type) (leb : A -> A -> bool),
    (forall a b, leb a b = true \/ leb b a = true) ->
    (forall a b c, leb a b = true -> leb b c = true -> leb a c = true) ->
    forall l l', sorted leb l' -> stable_of leb l l' -> l' = isort leb l.
Proof. exact stable_sort_unique. Qed.
Print Assumptions C27_stable_sort_unique.

Theorem C27_merge_sort_is_that_sort :
  forall (A : Type) (leb : A -> A -> bool),
    (forall a b, leb a b = true \/ leb b a = true) ->
    (forall a b c, leb a b = true -> leb b c = true -> leb a c = true) ->
    forall l, msort leb l = isort leb l.
Proof. exact msort_eq_isort. Qed.
Print Assumptions C27_merge_sort_is_that_sort.

(* the queries, for EVERY track state (cards, ids and slot index arbitrary),
   every entity, slot and time *)
(* (1) get_at_time never returns a card after t, never a retraction; it returns a stored card *)
Theorem C27_at_time_never_future_never_retraction :
  forall (tr : track) (e s : string) (t : Z) (c : card),
    get_at_time tr e s t = Some c ->
    eff c <= t /\ is_retracted c = false /\ In c (get_cards tr e s) /\ In c (t_cards tr).
Proof.
  intros tr e s t c H. rewrite get_at_time_best in H. apply best_in in H.
  destruct H as [Hin Hp]. apply filter_In in Hin. destruct Hin as [Hin Ht].
  split; [apply at_filter_true, Ht|]. split; [apply not_retracted_true, Hp|].
  split; [exact Hin|eapply get_cards_in; exact Hin].
Qed.
Print Assumptions C27_at_time_never_future_never_retraction.

(* (2) at or beyond the latest card it equals get_current (the whole card, not just the id) *)
Theorem C27_at_time_late_is_current :
  forall (tr : track) (e s : string) (t : Z),
    (forall c, In c (t_cards tr) -> eff c <= t) ->
    get_at_time tr e s t = get_current tr e s.
Proof. intros tr e s t H. apply get_at_time_late. intros c Hc. apply H. eapply get_cards_in; exact Hc. Qed.
Print Assumptions C27_at_time_late_is_current.

(* (2') it is enough that t is at or beyond the cards of that slot *)
Theorem C27_at_time_late_is_current_slot :
  forall (tr : track) (e s : string) (t : Z),
    (forall c, In c (get_cards tr e s) -> eff c <= t) ->
    get_at_time tr e s t = get_current tr e s.
Proof. exact get_at_time_late. Qed.
Print Assumptions C27_at_time_late_is_current_slot.

(* (3) which card exactly, in terms of the order of get_cards: the first one among the
       non-retracted cards with eff <= t of greatest effective time; and none iff there is none *)
Theorem C27_at_time_is_first_of_the_latest :
  forall (tr : track) (e s : string) (t : Z) (c : card),
    get_at_time tr e s t = Some c <->
    exists l1 l2, filter (at_filter t) (get_cards tr e s) = l1 ++ c :: l2 /\
                  is_retracted c = false /\
                  (forall d, In d l1 -> is_retracted d = false -> eff d < eff c) /\
                  (forall d, In d l2 -> is_retracted d = false -> eff d <= eff c).
Proof. intros. rewrite get_at_time_best. apply best_desc_char. Qed.
Print Assumptions C27_at_time_is_first_of_the_latest.

Theorem C27_at_time_none_iff :
  forall (tr : track) (e s : string) (t : Z),
    get_at_time tr e s t = None <->
    forall d, In d (get_cards tr e s) -> eff d <= t -> is_retracted d = true.
Proof.
  intros tr e s t. rewrite get_at_time_best, best_none_iff. unfold not_retracted. split.
  - intros H d Hd Ht. assert (In d (filter (at_filter t) (get_cards tr e s))) as Hin.
    { apply filter_In. split; [exact Hd|apply at_filter_true, Ht]. }
    specialize (H d Hin). destruct (is_retracted d); [reflexivity|discriminate].
  - intros H d Hd. apply filter_In in Hd. destruct Hd as [Hd Ht].
    rewrite (H d Hd); [reflexivity|apply at_filter_true, Ht].
Qed.
Print Assumptions C27_at_time_none_iff.

(* tracks built by add_card from the empty track (any list of cards) *)
(* (4) "latest" stated on the card set: c is returned iff it is an eligible card (stored, same
       lower-cased entity:slot key, eff <= t, not a retraction) and every eligible card is not
       later than c, where d is not later than c iff eff d < eff c, or eff d = eff c and d was
       not added after c (id d <= id c): among ties the card added LAST wins *)
Theorem C27_at_time_is_latest :
  forall (cs : list card) (e s : string) (t : Z) (c : card),
    get_at_time (build cs) e s t = Some c <->
    eligible (build cs) e s t c /\ forall d, eligible (build cs) e s t d -> not_later d c.
Proof. intros cs e s t c. apply at_time_latest, Inv_build. Qed.
Print Assumptions C27_at_time_is_latest.

Theorem C27_at_time_none_iff_no_eligible :
  forall (cs : list card) (e s : string) (t : Z),
    get_at_time (build cs) e s t = None <-> forall d, ~ eligible (build cs) e s t d.
Proof. intros cs e s t. apply at_time_none_iff_no_eligible, Inv_build. Qed.
Print Assumptions C27_at_time_none_iff_no_eligible.

Theorem C27_current_is_latest :
  forall (cs : list card) (e s : string) (c : card),
    get_current (build cs) e s = Some c <->
    (In c (t_cards (build cs)) /\ card_key c = slot_key e s /\ is_retracted c = false) /\
    forall d, In d (t_cards (build cs)) -> card_key d = slot_key e s -> is_retracted d = false ->
              not_later d c.
Proof. intros cs e s c. apply current_latest, Inv_build. Qed.
Print Assumptions C27_current_is_latest.

Definition sample_card (conf : option (option N)) : card :=
  mkCard 0 "user" "city" "Paris" (Some 10) None None Sets conf 5.

(* persistence.  PARTIAL: the byte codecs (serde_json + zstd for the track, bincode + zstd
        for the mesh, the TOC manifest and its checksum) are not modelled; the model says what
        they do to the values (every field round-trips, except a non-finite f32 confidence which
        JSON writes as null; the mesh is stored in sorted order) and the correspondence run
        checks that on real files.  As stated -- for ALL card sets -- the property is
        refuted by the faithful model in one narrow class (a card whose confidence is NaN or
        infinite comes back with confidence None): *)
Theorem C27_persist_refuted_nonfinite_confidence :
  exists ops, t_cards (s_track (mstep (mrun ops) Reopen)) <> t_cards (s_track (mrun ops)).
Proof. exists [PutCard (sample_card (Some None))]. vm_compute. discriminate. Qed.
Print Assumptions C27_persist_refuted_nonfinite_confidence.

(* outside it (known_class ops = some card put with a non-finite confidence): after ANY history of put_memory_card(s) / add_mesh_node / add_mesh_edge /
   put_bytes / commit / reopen / crash, closing and reopening -- with or without an explicit
   commit -- gives back the identical track (every card, id, version key, index), and a mesh
   with the same nodes and edges, in the (unique, stable) serialisation order *)
Theorem C27_persist_outside_known :
  forall ops, known_class ops = false ->
    let s := mrun ops in
    s_track (mstep s Reopen) = s_track s /\
    s_track (mstep (mstep s Commit) Reopen) = s_track s /\
    s_track (mstep s Commit) = s_track s /\
    s_mesh (mstep s Reopen) = disk_mesh (s_mesh s) /\
    Permutation (m_nodes (s_mesh (mstep s Reopen))) (m_nodes (s_mesh s)) /\
    Permutation (m_edges (s_mesh (mstep s Reopen))) (m_edges (s_mesh s)).
Proof.
  intros ops H s. pose proof (Good_run ops) as G. rewrite H in G. fold s in G.
  destruct (commit_mem s) as [Ct _]. destruct (commit_disk _ s G) as [Dt Dm].
  destruct (commit_disk _ _ (Good_commit _ s G)) as [Dt2 _].
  cbn [mstep do_open s_track s_mesh]. rewrite Dt, Dm, Dt2, Ct, (disk_track_ok _ (g_mem _ s G eq_refl)).
  repeat split; apply disk_mesh_perm.
Qed.
Print Assumptions C27_persist_outside_known.

(* a committed card set and mesh also survive the death of the process with any number of
   uncommitted frame records in the WAL (open loads the tracks, then replays the log) *)
Theorem C27_persist_crash_keeps_committed_outside_known :
  forall ops frames, known_class ops = false ->
    let s := mrun ops in
    s_track (fold_left mstep (Commit :: repeat PutFrame frames ++ [CrashReopen]) s) = s_track s /\
    s_mesh (fold_left mstep (Commit :: repeat PutFrame frames ++ [CrashReopen]) s) = disk_mesh (s_mesh s).
Proof.
  intros ops frames H s. pose proof (Good_run ops) as G. rewrite H in G. fold s in G.
  cbn [fold_left]. rewrite fold_left_app. cbn [fold_left mstep do_open s_track s_mesh].
  destruct (put_frames_keep_disk frames (do_commit s)) as [E1 E2].
  rewrite E1, E2, <- (disk_track_ok _ (g_mem _ s G eq_refl)) at 1. apply (commit_disk _ s G).
Qed.
Print Assumptions C27_persist_crash_keeps_committed_outside_known.

Theorem C27_mesh_order_is_stable_sort_and_idempotent :
  forall m,
    is_stable_sort node_leb (m_nodes m) (m_nodes (persist_mesh m)) /\
    is_stable_sort edge_leb (m_edges m) (m_edges (persist_mesh m)) /\
    persist_mesh (persist_mesh m) = persist_mesh m.
Proof.
  intro m. destruct (persist_mesh_stable_sort m) as [H1 H2].
  split; [exact H1|]. split; [exact H2|apply persist_mesh_idem].
Qed.
Print Assumptions C27_mesh_order_is_stable_sort_and_idempotent.

Local Open Scope string_scope.
Definition mkc (e s v : string) (ev doc : option Z) (r : vrel) (created : Z) : card :=
  mkCard 77 e s v ev doc None r None created.
(* two ties at time 20 (ids 1 and 3), a retraction at 30, a later card of another slot,
   a mixed-case entity *)
Definition sample_cards : list card :=
  [ mkc "user" "city" "Paris" (Some 10) None Sets 1;
    mkc "User" "City" "Rome" None (Some 20) Updates 2;
    mkc "user" "job" "x" (Some 99) None Sets 3;
    mkc "USER" "city" "Oslo" (Some 20) (Some 5) Extends 4;
    mkc "user" "city" "Oslo" None None Retracts 30 ].

Example C27_nonvacuous_queries :
  option_map c_id (get_at_time (build sample_cards) "user" "CITY" 9) = None /\
  option_map c_id (get_at_time (build sample_cards) "user" "CITY" 10) = Some 0%N /\
  option_map c_id (get_at_time (build sample_cards) "user" "CITY" 19) = Some 0%N /\
  option_map c_id (get_at_time (build sample_cards) "user" "CITY" 20) = Some 3%N /\   (* tie: added last wins *)
  option_map c_id (get_at_time (build sample_cards) "user" "CITY" 30) = Some 3%N /\   (* the retraction is skipped *)
  option_map c_id (get_current (build sample_cards) "user" "city") = Some 3%N /\
  map c_id (get_cards (build sample_cards) "user" "city") = [4; 3; 1; 0]%N /\
  (forall c, In c (t_cards (build sample_cards)) -> eff c <= 99).
Proof.
  repeat split; try (vm_compute; reflexivity).
  intros c Hc. vm_compute in Hc.
  repeat (destruct Hc as [Hc|Hc]; [subst c; vm_compute; discriminate|]). destruct Hc.
Qed.

Example C27_nonvacuous_eligible :
  exists c, eligible (build sample_cards) "user" "city" 20 c /\ c_id c = 3%N /\
            get_at_time (build sample_cards) "user" "city" 20 = Some c.
Proof.
  (* the fourth card as add_card stores it *)
  exists (set_id_vkey (mkc "USER" "city" "Oslo" (Some 20) (Some 5) Extends 4) 3).
  split; [|split].
  - unfold eligible.
    split. { vm_compute. do 3 right. left. reflexivity. }
    split. { reflexivity. }
    split. { vm_compute. discriminate. }
    reflexivity.
  - reflexivity.
  - vm_compute. reflexivity.
Qed.

(* a history outside the known classes, with cards, a mesh, frames, commits and reopens *)
Definition sample_ops : list mop :=
  [ PutCard (mkc "user" "city" "Paris" (Some 10) None Sets 1);
    AddNode (mkNode 9 "zed" "Zed" 0 50 [1]%N [(1, 0, 3)]%N);
    AddNode (mkNode 2 "amy" "Amy" 0 50 [1]%N [(1, 4, 3)]%N);
    AddEdge (mkEdge 9 2 "manager" false 80 1);
    PutFrame; Commit;
    PutCards [mkc "user" "city" "Rome" None None Updates 7]; Reopen;
    PutFrame; Reopen; CrashReopen ].
Example C27_nonvacuous_persist :
  known_class sample_ops = false /\
  List.length (t_cards (s_track (mrun sample_ops))) = 2%nat /\
  map n_id (m_nodes (s_mesh (mrun sample_ops))) = [2; 9]%N.
Proof. vm_compute. repeat split. Qed.

Example C27_nonvacuous_stable_sort :
  isort Nat.leb [3; 1; 2; 1]%nat = [1; 1; 2; 3]%nat /\
  msort (fun a b : nat * nat => Nat.leb (fst a) (fst b)) [(2,0); (1,1); (2,2); (1,3); (0,4)]%nat
    = [(0,4); (1,1); (1,3); (2,0); (2,2)]%nat.
Proof. vm_compute. split; reflexivity. Qed.
