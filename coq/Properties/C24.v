(* C24 Capacity limit is never exceeded by committed payloads.
   Short proofs stand under the statements; what they rest on is in Proofs/CapacityProofs.v; the
   machine is in Model/Capacity.v:
   step_fixed / run_fixed follow put_internal's capacity check AS IT IS since fix f25e235
     payload_tail = max(cached_payload_end, data_end) + pending_payload_bytes
     check 1: payload_tail + prepared.len()        > limit -> CapacityExceeded{payload_tail, limit, prepared.len()}
     check 2: payload_tail + stored_payload_bytes  > limit -> CapacityExceeded{payload_tail, limit, stored_payload_bytes}
              (stored_payload_bytes = stored parent payload + separately compressed chunk payloads)
     pending_payload_bytes += stored_payload_bytes after the appends; reset to 0 by apply_records,
   together with capacity_limit / tier, ensure_mutation_allowed, apply_ticket, apply_records' payload
   placement, rebuild_indexes' data_end reset, grow_wal_region, ensure_wal_capacity, open.
   (step_old / run_old = the check before the fix, kept only for the historical lemmas of part (D).)

   The code compares an ABSOLUTE file offset with the byte budget; a growth of the embedded log moves
   every payload, so the statement that survives log growth is
       top + BASE0 <= limit + base         (BASE0 = 4096 + 65536 = start of the data region at creation,
                                            base = 4096 + wal_size = its start now)
   which is "payload end <= capacity" as the code measures it while the log has its initial size, and
   implies "size of the payload region <= capacity" always.  All three are stated, for
       top = max(cached_payload_end, real end of the frames that store bytes)
   (the cached end is what the put check reads, the real end is what compute_payload_region_end()
   finds at the next open).

   Histories range over puts (any stored sizes, chunked or not, with or without embedding, any log
   growth, with or without automatic checkpoint), commits, tickets, reopen (any data_end), log
   pre-sizing.  The hypothesis tickets_ok: a ticket is only applied when what is stored and
   promised fits the capacity it grants and that is at least the 69632 bytes an empty memory ends at
   (a ticket granting less than what is already there makes "payload end <= capacity" false without
   any put; see C24_ticket_hypothesis_needed); and the data_end found at open is not before the
   frames (compute_data_end is a maximum over them; checked on every reopen of the correspondence run). *)
From MV Require Import Base.Prelude Model.Capacity Proofs.CapacityProofs.
From MV Require Gen.Consts.
Local Open Scope N_scope.

(* (A) the capacity is never exceeded: every history *)

Theorem C24_fixed_capacity_invariant :
  forall ops, tickets_ok true init ops ->
    let s := run_fixed init ops in
    top s + BASE0 <= limit s + base s /\
    (wal s = WAL_SIZE_TINY -> top s <= limit s) /\
    top s - base s <= limit s.
Proof. intros ops Ht s. apply inv_capacity, inv_run; [apply inv_init|exact Ht|discriminate]. Qed.
Print Assumptions C24_fixed_capacity_invariant.

(* ... and whatever is pending will fit too: committing now stays within the capacity *)
Theorem C24_fixed_pending_fit :
  forall ops, tickets_ok true init ops ->
    let s := run_fixed init ops in top (commit s) + BASE0 <= limit s + base s.
Proof.
  intros ops Ht s. assert (Hi : inv s) by (apply inv_run; [apply inv_init|exact Ht|discriminate]).
  destruct (commit_limit_base s) as [<- <-]. exact (proj1 (inv_capacity _ (inv_commit _ Hi))).
Qed.
Print Assumptions C24_fixed_pending_fit.

(* (B) a put that would exceed the limit fails with CapacityExceeded *)

(* full_projection s st = max(payload end, data end) + pending stored bytes + the bytes this put stores *)
Theorem C24_fixed_put_rejects_excess :
  forall s emb chk st grow auto,
    mutation_allowed s = true -> limit s < full_projection s st ->
    code (snd (put true s emb chk st grow auto)) = 1.
Proof.
  intros s emb chk st grow auto Ha Hx. rewrite put_fixed_result, Ha. unfold full_projection in Hx. cbn [negb].
  destruct (limit s <? _ + chk); [reflexivity|]. destruct (limit s <? _ + sum st) eqn:E2; [reflexivity|lia].
Qed.
Print Assumptions C24_fixed_put_rejects_excess.

Theorem C24_fixed_put_accepts_only_fitting :
  forall s emb chk st grow auto,
    code (snd (put true s emb chk st grow auto)) = 0 ->
    full_projection s st <= limit s /\ N.max (cpe s) (dend s) + sum (pend s) + chk <= limit s.
Proof.
  intros s emb chk st grow auto. rewrite put_fixed_result. unfold full_projection. cbv zeta.
  destruct (negb (mutation_allowed s)); [discriminate|].
  destruct (limit s <? _ + chk) eqn:E1; [discriminate|].
  destruct (limit s <? _ + sum st) eqn:E2; [discriminate|]. lia.
Qed.
Print Assumptions C24_fixed_put_accepts_only_fitting.

(* what a put returns: TicketRequired, or CapacityExceeded{current = payload_tail, limit, required}
   from the first check that fails (whole-payload size, then the bytes really stored), else Ok *)
Theorem C24_fixed_put_result :
  forall s emb chk st grow auto,
    snd (put true s emb chk st grow auto) =
      let t := N.max (cpe s) (dend s) + sum (pend s) in
      if negb (mutation_allowed s) then r_ticket_required
      else if limit s <? t + chk then r_cap t (limit s) chk
      else if limit s <? t + sum st then r_cap t (limit s) (sum st)
      else r_ok.
Proof. exact put_fixed_result. Qed.
Print Assumptions C24_fixed_put_result.

(* (C) ... and leaves the memory unchanged *)

(* exactly what a rejected put returns: the state it got, except that a put carrying an embedding
   has already run enable_vec() *)
Theorem C24_rejected_put_state :
  forall fixed s emb chk st grow auto,
    code (snd (put fixed s emb chk st grow auto)) <> 0 ->
    fst (put fixed s emb chk st grow auto) = (if emb && mutation_allowed s then set_vec s else s).
Proof. exact put_rejected_state. Qed.
Print Assumptions C24_rejected_put_state.

(* known finding F-C24-4 (not repaired): "unchanged" is refuted for a put with an embedding on a
   memory whose vector index is not enabled yet *)
Theorem C24_rejected_put_unchanged_refuted :
  exists s emb chk st grow auto,
    snd (put true s emb chk st grow auto) = r_cap (cpe s) (limit s) chk /\
    fst (put true s emb chk st grow auto) <> s.
Proof.
  exists (fst (ticket init 2 (Some BASE0) ISS_OTHER)), true, 10, [10], 0, false.
  split; [vm_compute; reflexivity|]. vm_compute. intros H. discriminate H.
Qed.
Print Assumptions C24_rejected_put_unchanged_refuted.

Theorem C24_rejected_put_unchanged_outside_known :
  forall fixed s emb chk st grow auto,
    emb = false \/ vec s = true ->
    code (snd (put fixed s emb chk st grow auto)) <> 0 ->
    fst (put fixed s emb chk st grow auto) = s.
Proof.
  intros fixed s emb chk st grow auto Hc H. rewrite put_rejected_state by exact H.
  destruct Hc as [->|Hv]; [reflexivity|]. destruct (emb && mutation_allowed s); [apply set_vec_id; exact Hv|reflexivity].
Qed.
Print Assumptions C24_rejected_put_unchanged_outside_known.

(* a history meeting the hypotheses: ticket, accepted put, commit, rejected put (one byte too many),
   put that fills the capacity exactly, commit, reopen, pre-sizing of the log, rejected put *)
Definition sample_ok : list cop :=
  [OTicket 2 (Some (BASE0 + 3000)) ISS_OTHER; OPut false 2000 [2000] 0 false; OCommit 0;
   OPut false 1001 [1001] 0 false; OPut false 1000 [1000] 0 false; OCommit 0;
   OReopen (BASE0 + 3000 + 4000); OPresize 100000; OPut true 1 [1] 0 false].
Example C24_invariant_nonvacuous :
  tickets_okb true init sample_ok = true /\
  (let s := run_fixed init sample_ok in stored s = 3000 /\ wal s = 131072 /\ dend s = 142168).
Proof. vm_compute. repeat split. Qed.

(* the three histories that used to breach the capacity: the excess put is rejected *)
Definition witness_pending : list cop :=
  [OTicket 2 (Some (BASE0 + 3000)) ISS_OTHER;
   OPut false 2000 [2000] 0 false; OPut false 2000 [2000] 0 false; OPut false 2000 [2000] 0 false;
   OCommit 0].
Definition witness_stale_end : list cop :=
  [OTicket 2 (Some (BASE0 + 2000)) ISS_OTHER; OPut false 1700 [1700] 0 false; OCommit 0;
   OReopen 75408; OPut false 100 [100] 0 false; OCommit 0].
Definition witness_chunks : list cop :=
  [OTicket 2 (Some (BASE0 + 1600)) ISS_OTHER; OPut false 1501 [0; 363; 353; 418; 381; 408; 93] 0 false; OCommit 0].
Example C24_fixed_rejects_witnesses :
  tickets_okb true init witness_pending = true /\ cpe (run_fixed init witness_pending) = BASE0 + 2000 /\
  tickets_okb true init witness_stale_end = true /\ cpe (run_fixed init witness_stale_end) = BASE0 + 1700 /\
  tickets_okb true init witness_chunks = true /\ cpe (run_fixed init witness_chunks) = BASE0 /\
  (* the chunked document fails the SECOND check: required = 2016 = the bytes really stored *)
  snd (put true (fst (ticket init 2 (Some (BASE0 + 1600)) ISS_OTHER)) false 1501 [0; 363; 353; 418; 381; 408; 93] 0 false)
    = r_cap BASE0 (BASE0 + 1600) 2016.
Proof. vm_compute. repeat split. Qed.

(* the ticket hypothesis is needed: a ticket granting less than what is stored breaks
   "payload end <= capacity" with no put after it *)
Example C24_ticket_hypothesis_needed :
  let ops := [OPut false 5000 [5000] 0 false; OCommit 0; OTicket 2 (Some (BASE0 + 100)) ISS_OTHER] in
  tickets_okb true init ops = false /\ limit (run_fixed init ops) <? cpe (run_fixed init ops) = true.
Proof. vm_compute. repeat split. Qed.

(* log growth: the plain absolute reading fails after a growth (the payloads moved by 65536), the
   growth-corrected and the byte-budget readings hold *)
Example C24_growth_moves_the_absolute_end :
  let ops := [OTicket 2 (Some (BASE0 + 70000)) ISS_OTHER; OPut false 60000 [60000] 65536 true] in
  let s := run_fixed init ops in
  tickets_okb true init ops = true /\ wal s = 131072 /\ limit s <? cpe s = true /\
  cpe s + BASE0 <=? limit s + base s = true.
Proof. vm_compute. repeat split. Qed.

(* the model's log-region constants are the ones in src/constants.rs (Gen/Consts.v is regenerated
   from the source at each run); the tier capacities TIER_*_CAP are not in Gen/Consts.v and are
   not tied *)
Theorem C24_consts_tied :
  WAL_OFFSET = MV.Gen.Consts.WAL_OFFSET /\ WAL_SIZE_TINY = MV.Gen.Consts.WAL_SIZE_TINY /\
  WAL_SIZE_MEDIUM = MV.Gen.Consts.WAL_SIZE_MEDIUM /\ WAL_SIZE_LARGE = MV.Gen.Consts.WAL_SIZE_LARGE.
Proof. repeat split. Qed.
Print Assumptions C24_consts_tied.

(* (D) HISTORICAL: the check before fix f25e235 (step_old = step false)
   Not statements about the present code.  They record why the fix was needed and are the
   regression reference: a revert of the fix makes the implementation follow run_old again. *)

(* the old check (cached_payload_end + prepared.len() only) let the payload end pass the capacity:
   three 2000-byte puts into a budget of 3000 all accepted, 6000 bytes committed *)
Theorem C24_old_check_refuted_pending :
  exists ops, tickets_ok false init ops /\
    let s := run_old init ops in
    wal s = WAL_SIZE_TINY /\ limit s = BASE0 + 3000 /\ cpe s = BASE0 + 6000 /\ fend s = BASE0 + 6000 /\ stored s = 6000 /\
    ~ (top s <= limit s) /\ ~ (top s + BASE0 <= limit s + base s).
Proof.
  exists witness_pending. split; [apply tickets_okb_sound; vm_compute; reflexivity|].
  (* a <= b on N is (a ?= b) <> Gt: each false instance evaluates to Gt <> Gt *)
  vm_compute. repeat split; intros H; apply H; reflexivity.
Qed.
Print Assumptions C24_old_check_refuted_pending.

(* after a reopen data_end (75408, behind the index segments) is beyond the cached payload end
   (71332); the old check admitted a 100-byte put behind the latter, stored behind the former *)
Theorem C24_old_check_refuted_stale_end :
  exists ops, tickets_ok false init ops /\
    let s := run_old init ops in
    limit s = 71632 /\ cpe s = 75508 /\ fend s = 75508 /\ stored s = 1800 /\ ~ (top s + BASE0 <= limit s + base s).
Proof.
  exists witness_stale_end. split; [apply tickets_okb_sound; vm_compute; reflexivity|].
  vm_compute. repeat split; intros H; apply H; reflexivity.
Qed.
Print Assumptions C24_old_check_refuted_stale_end.

(* a chunked document was admitted on the compressed size of the whole text (1501) and stored as
   separately compressed chunks (2016) *)
Theorem C24_old_check_refuted_chunks :
  exists ops, tickets_ok false init ops /\
    let s := run_old init ops in
    limit s = BASE0 + 1600 /\ cpe s = BASE0 + 2016 /\ fend s = BASE0 + 2016 /\ ~ (top s + BASE0 <= limit s + base s).
Proof.
  exists witness_chunks. split; [apply tickets_okb_sound; vm_compute; reflexivity|].
  vm_compute. repeat split; intros H; apply H; reflexivity.
Qed.
Print Assumptions C24_old_check_refuted_chunks.

(* the old check kept the invariant exactly on the histories in which no accepted put was
   under-counted, and under-counting had exactly three causes *)
Theorem C24_old_check_invariant_outside_undercounted :
  forall ops, known_class init ops = false -> tickets_ok false init ops ->
    let s := run_old init ops in
    top s + BASE0 <= limit s + base s /\
    (wal s = WAL_SIZE_TINY -> top s <= limit s) /\
    top s - base s <= limit s.
Proof. intros ops Hk Ht s. apply inv_capacity, inv_run; [apply inv_init|exact Ht|intros _; exact Hk]. Qed.
Print Assumptions C24_old_check_invariant_outside_undercounted.

Theorem C24_old_check_undercount_reasons :
  forall s emb chk st grow auto,
    undercounted s (OPut emb chk st grow auto) = true ->
    by_pending s = true \/ by_stale_end s = true \/ by_chunks chk st = true.
Proof.
  intros s emb chk st grow auto H. cbn [undercounted] in H.
  apply Bool.andb_true_iff in H. destruct H as [H H3]. apply Bool.andb_true_iff in H. destruct H as [_ H2].
  unfold by_pending, by_stale_end, by_chunks, full_projection in *.
  destruct (0 <? sum (pend s)) eqn:A; [left; reflexivity|].
  destruct (cpe s <? dend s) eqn:B; [right; left; reflexivity|].
  right; right. lia.
Qed.
Print Assumptions C24_old_check_undercount_reasons.
