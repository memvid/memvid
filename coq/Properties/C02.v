(* C02 Process-crash atomicity (protocol level, partial).
   Model: Model/FsProto.v.  Short proofs stand under the statements; what they rest on is in
   Proofs/FsProtoProofs.v.  What is proved: the staged commit (copy to a staging file, write there,
   fsync, rename over the memory, fsync the directory) is crash-atomic for ANY writes to the staging
   file and ANY crash point; and one in-place log append (record write, fsync, sentinel write),
   started from a state whose log is fully synced, leaves the log without the record, with it, or
   with it and the sentinel.  What is not: several appends in a row (a chunked put) as one trace --
   the recognizers wal_append_ok / wal_appends_ok of the model occur in no theorem --, byte contents
   (the log's byte level is Properties/C05), Tantivy/zstd internals, kernel behaviour, and the paths
   that write the memory file in place (log-region growth, vacuum, replay at open, ticket
   application): Corr/C02.v puts their traces in a class of their own, and they are explored on the
   real code by kill enumeration only. *)
From MV Require Import Base.Prelude Model.FsProto Proofs.FsProtoProofs.

(* For every accepted staged-commit trace (any number and kind of writes to the staging file),
   every split point, and every initial committed content: the file under the memory's name is
   the old image or the new image -- never a mixture. *)
Theorem C02_staged_commit_crash_atomic :
  forall (c : content) (t : list fsop), staged_commit_ok t = true ->
  forall p q, t = p ++ q ->
    after_crash (exec (fs0 c) p) = c \/ after_crash (exec (fs0 c) p) = new_image c t.
Proof.
  intros c t Hok p q E. unfold after_crash.
  destruct (proj1 (staged_commit_stages c t Hok) p q E) as [S|[S|S]]; [left|right|right]; apply S.
Qed.
Print Assumptions C02_staged_commit_crash_atomic.

(* The log append: a crash leaves the log without the record, with it, or with it and its sentinel. *)
Theorem C02_wal_append_crash_atomic :
  forall (c : content) (r z : wr) (s : fs), synced c s ->
  forall p q, [WriteMem r; FsyncMem; WriteMem z] = p ++ q ->
    after_crash (exec s p) = c \/ after_crash (exec s p) = c ++ [r] \/ after_crash (exec s p) = c ++ [r; z].
Proof. intros c r z s (<- & _). apply wal_append_crash. Qed.
Print Assumptions C02_wal_append_crash_atomic.

(* Non-vacuity: the trace recorded from the implementation for `commit` after two puts
   (shape: fsync, create staging, copy, fsync, 3 writes, fsync, write, fsync, rename, fsync dir). *)
Example C02_nonvacuous :
  let t := [FsyncMem; OpenTmp; CopyToTmp; FsyncTmp; WriteTmp (W 1); WriteTmp (W 2); WriteTmp (W 3); FsyncTmp;
            WriteTmp (W 4); FsyncTmp; RenameTmp; FsyncDir] in
  staged_commit_ok t = true /\ new_image [W 0] t = [W 0; W 1; W 2; W 3; W 4] /\
  after_crash (exec (fs0 [W 0]) (firstn 9 t)) = [W 0] /\ after_crash (exec (fs0 [W 0]) (firstn 11 t)) = [W 0; W 1; W 2; W 3; W 4].
Proof. vm_compute. repeat split. Qed.
