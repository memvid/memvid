(* C14 Vector index membership matches active embedded frames.
   Model: Model/VecStore.v (vector index on top of the frame-table model Model/Store.v);
   reference: Model/VecSpec.v (the embedding each frame was given, next to the reference frame
   table of Model/StoreSpec.v).  Short proofs stand under the statements; what they rest on is in
   Proofs/VecProofs.v.

   Representations.  VecIndexBuilder::finish switches to HNSW only under
   cfg(any(feature = "vec", feature = "hnsw_bench")) (at >= 1000 documents); product
   quantisation (VecIndex::Compressed) is produced only for vec *segments*
   (build_vec_segment_from_embeddings with VectorCompression::Pq96, reachable under feature
   parallel_segments; publish_vec_delta is dead code otherwise).  Default features are
   lex + pdf_extract + simd: the index of toc.indexes.vec has the single representation
   Uncompressed and the theorems below are about it.  Under vec / hnsw_bench, entries() of an
   HNSW index is empty, remove a no-op and embedding_for None, so the first rebuild after the
   index reaches 1000 documents keeps only the new documents and update_frame stops carrying
   embeddings: not modelled here; confirmed on a scratch build with feature hnsw_bench (1000
   embedded puts, commit: vector_count 1000 and frame_embedding(5) = None; one more embedded put,
   commit: vector_count 1 and only frame 1000 is reachable).

   History.  The property was refuted on the code before 83a83e8 / 8099cac by doctor with
   rebuild_vec_index (index emptied, F-C14-1) and by an exit without commit before the vec manifest
   ever reached the file (replay dropped the pending embeddings, F-C14-2).  Both are repaired in
   /repo; the model follows the repaired code and the membership theorem covers every
   history.  The old behaviour is kept as
   vcommit_unfixed / doctor_vec_unfixed with the lemmas C14_*_unfixed below.

   Boundary.  In the model the index on file always decodes.  An index whose bytes no longer
   decode makes ensure_vec_index fail (silently: vec_index stays None), and the next rebuild --
   any commit with a frame record, vacuum, doctor -- then writes an empty index: every embedding
   is lost.  That is file damage (C20 / C21), outside this property's histories. *)
From MV Require Import Base.Prelude Model.Store Model.StoreSpec Model.VecStore Model.VecSpec Proofs.StoreProofs Proofs.VecProofs.
Local Open Scope N_scope.

(* For EVERY history over put_with_embedding / put_with_chunk_embeddings (any number of chunk
   embeddings, empty vectors included) / plain puts / update_frame with or without an explicit
   embedding and with or without payload / delete / enable_vec / commit / vacuum / close+reopen /
   exit-without-commit + reopen (log replay, also before the first commit) / doctor (all 16 option
   sets, rebuild_vec_index included), for EVERY timing of automatic checkpoints and log growth:
   whenever nothing is pending, the loaded index (what search_vec scans and frame_embedding
   reads; Stats.vector_count is its length) is exactly the list of (frame, embedding given to
   it) over the ACTIVE frames, in frame order -- where "given" is: the embedding passed to the
   put, the i-th chunk embedding for the i-th chunk, the explicit embedding of an update or
   else what the updated frame had been given; an empty vector is no embedding.
   Side condition vrun_ok is C01's (no put asks for the DocumentChunk role, no acknowledged
   update targets a chunk frame): it is what ties frame ids to the reference table.  vrun_ok, and
   the invariant Inv of C14_invariant, are defined in Proofs/VecProofs.v. *)
Theorem C14_membership :
  forall ops : list vop,
    let r := vrun vstate0 ops in
    let s := fst (fst r) in let v := snd (fst r) in
    let xs := combine ops (snd r) in
    let R := fst (vref_run ([], []) xs) in let G := snd (vref_run ([], []) xs) in
    vrun_ok [] xs = true -> pending s = [] ->
    committed s = R /\ mem_docs v = expected_docs R G /\
    (venabled v = false -> expected_docs R G = []).
Proof. exact membership. Qed.
Print Assumptions C14_membership.

(* the same as an invariant of every reachable state, pending records included: the index is
   the expected list of the committed table restricted to what was given before the pending
   records, and the pending records carry exactly the remaining given embeddings *)
Theorem C14_invariant :
  forall ops s v R G,
    J s R -> Inv s v G ->
    vrun_ok R (combine ops (snd (vrun (s, v) ops))) = true ->
    J (fst (fst (vrun (s, v) ops))) (fst (vref_run (R, G) (combine ops (snd (vrun (s, v) ops))))) /\
    Inv (fst (fst (vrun (s, v) ops))) (snd (fst (vrun (s, v) ops))) (snd (vref_run (R, G) (combine ops (snd (vrun (s, v) ops))))).
Proof. exact vrun_inv. Qed.
Print Assumptions C14_invariant.

(* findability: in a state meeting the membership equation, frame_embedding (= embedding_for on
   the loaded index) answers the given embedding for an active frame and nothing otherwise *)
Theorem C14_frame_embedding :
  forall R G f, embedding_for (expected_docs R G) f = if frame_is_active R f then embedding_for G f else None.
Proof. exact embedding_for_expected. Qed.
Print Assumptions C14_frame_embedding.

(* update_frame without an explicit embedding carries exactly what the old frame was given *)
Theorem C14_update_carries :
  forall s v G target, Inv s v G -> frame_is_active (committed s) target = true ->
    (if venabled v then embedding_for (mem_docs v) target else None) = embedding_for G target.
Proof. exact carried_is_given. Qed.
Print Assumptions C14_update_carries.

(* doctor with rebuild_vec_index (no vacuum flag): the doctored index is the old index restricted
   to the active frames -- on a reachable quiescent state that is the old index itself *)
Theorem C14_doctor_vec_keeps :
  forall bits frames v, bit bits 2 = true -> bit bits 3 = false ->
    mem_docs (load (doctor_vec bits frames v)) = filter (fun d => frame_is_active frames (fst d)) (mem_docs v) /\
    venabled (load (doctor_vec bits frames v)) = true.
Proof.
  intros bits frames v H2 H3. unfold doctor_vec. rewrite H2, H3. unfold rebuild_indexes, build_vec_artifact. cbn [venabled].
  rewrite app_nil_r. split; reflexivity.
Qed.
Print Assumptions C14_doctor_vec_keeps.

(* the former witnesses now meet the property *)
Definition e1 : emb := [1065353216; 1073741824; 1077936128; 1082130432].   (* 1.0 2.0 3.0 4.0 *)
Definition e2 : emb := [1084227584; 0; 2147483648; 1065353216].
Definition e3 : emb := [1088421888; 1088421888; 0; 0].
Definition e4 : emb := [1090519040; 0; 0; 1065353216].

(* F-C14-1: put with embedding, commit, doctor { rebuild_vec_index } *)
Definition witness_doctor : list vop :=
  [VOp (OPut None 1000 0 0 None) (VPut (Some e1) None false); VOp (OCommit 1) VNone; VOp (ODoctor 0) (VDoctor 4)].
(* F-C14-2: first embedded put of a memory, exit without commit, reopen *)
Definition witness_crash : list vop :=
  [VOp (OPut None 1000 0 0 None) (VPut (Some e1) None false); VOp (OCrash 0) VNone].

Example C14_former_witnesses_hold :
  observe_vec (snd (fst (vrun vstate0 witness_doctor))) = (true, true, 1, Some [(0, e1)]) /\
  observe_vec (snd (fst (vrun vstate0 witness_crash))) = (true, true, 1, Some [(0, e1)]).
Proof. vm_compute. split; reflexivity. Qed.

(* before 83a83e8 doctor with rebuild_vec_index left an enabled, empty index whatever was there *)
Theorem C14_doctor_vec_wipes_unfixed :
  forall bits frames v, bit bits 2 = true ->
    mem_docs (load (doctor_vec_unfixed bits frames v)) = [] /\ venabled (load (doctor_vec_unfixed bits frames v)) = true.
Proof. exact doctor_vec_wipes_unfixed. Qed.
Print Assumptions C14_doctor_vec_wipes_unfixed.

(* before 8099cac a commit / replay that ran with vec disabled dropped the embeddings of its records *)
Theorem C14_replay_drops_unfixed :
  forall frames recs v, venabled v = false -> delta_nonempty recs = true ->
    mem_docs (vcommit_unfixed frames recs v) = [] /\ venabled (vcommit_unfixed frames recs v) = false.
Proof.
  intros frames recs v Hv Hd. unfold vcommit_unfixed. destruct (fold_left vapply_entry _ _) as [[a idx] nd].
  rewrite Hd. unfold rebuild_indexes, build_vec_artifact. rewrite Hv. split; reflexivity.
Qed.
Print Assumptions C14_replay_drops_unfixed.

(* non-vacuity: a history with a chunked document (an empty parent vector, one real and one
   empty chunk embedding), an update carrying the embedding, a delete, a crash before the first
   commit (replay keeps the embeddings), an automatic checkpoint, vacuum, doctor with every flag,
   enable_vec and a reopen meets the hypothesis; two frames stay findable *)
Definition demo : list vop :=
  [VOp (OPut None 1000 0 0 None) (VPut (Some e1) None false);
   VOp (OPut None 2000 2 0 None) (VPut (Some []) (Some [e3; []]) false);
   VOp (OCrash 1) VNone;
   VOp (OUpdate 0 (Some 3000) None None) (VUpd None false);
   VOp (ODelete 1 None) (VDel false);
   VOp (OCrash 1) VNone;
   VOp (OPut None 4000 0 0 (Some 1)) (VPut (Some e4) None false);
   VOp (OUpdate 5 None None None) (VUpd (Some []) false);
   VOp (OCommit 0) VVacuum;
   VOp (ODoctor 9) (VDoctor 15);
   VEnableVec;
   VOp (OReopen 0) VNone].

Example C14_nonvacuous :
  let r := vrun vstate0 demo in
  let xs := combine demo (snd r) in
  vrun_ok [] xs = true /\
  pending (fst (fst r)) = [] /\
  mem_docs (snd (fst r)) = [(2, e3); (4, e1)] /\
  expected_docs (fst (vref_run ([], []) xs)) (snd (vref_run ([], []) xs)) = [(2, e3); (4, e1)] /\
  snd (vref_run ([], []) xs) = [(0, e1); (2, e3); (4, e1); (5, e4)].
Proof. vm_compute. repeat split. Qed.
