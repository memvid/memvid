(* C16 Search pagination partitions the result stream.
   Short proofs stand under the statements; what they rest on is in Proofs/SearchPageProofs.v; model in
   Model/SearchPage.v. *)
From MV Require Import Base.Prelude Model.SearchPage Proofs.SearchPageProofs.
Local Open Scope N_scope.

(* (1) LAYER.  The page loop of try_tantivy_search (early = true, emit = emit_tantivy) and
   of search_with_lex_fallback (early = false, emit = emit_fallback eff) -- in fact for
   EVERY emit function -- over EVERY evaluated list `ev`, every page size k (0 counts as
   1, as in the code) and every K that can hold all hits:  following next_cursor from the
   first page terminates with next_cursor absent (never an error, never out of fuel:
   at most max(1, total) pages), the pages' hits concatenate to the hits of the one
   request with top_k = K, every page reports the same total_hits (that of the one-shot
   request), and the pages are a `partition` of the slice stream: consecutive intervals
   [0,n1) [n1,n2) ... [nj,total) with strictly increasing cursors, each page holding
   exactly the hits of its interval (so nothing is repeated or skipped -- slices whose
   clamped range is empty are counted in the cursor but emit no hit), at most k hits
   per page. *)
Theorem C16_layer_pages_partition_stream :
  forall (emit : edoc -> N * N -> option hit) (early : bool) (ev : list edoc) (k K : N),
    len (stream emit ev) <= N.max K 1 ->
    exists pages one,
      follow (S (N.to_nat (total_slices ev))) (page_of early emit ev k) None = (pages, Done) /\
      page_of early emit ev K None = Ok one /\
      concat (map p_hits pages) = p_hits one /\
      Forall (fun p => p_total p = p_total one) pages /\
      partition (items emit ev) (total_slices ev) 0 pages /\
      len pages <= N.max 1 (total_slices ev) /\
      Forall (fun p => len (p_hits p) <= N.max k 1) pages.
Proof. exact layer_pagination. Qed.
Print Assumptions C16_layer_pages_partition_stream.

(* what `partition` gives: concatenation and constant total (also from ANY start offset) *)
Theorem C16_partition_concat :
  forall its total start pages,
    partition its total start pages ->
    concat (map p_hits pages) = somes (skipn start its) /\
    Forall (fun p => p_total p = total) pages.
Proof. intros. split; [eapply partition_concat | eapply partition_totals]; eassumption. Qed.
Print Assumptions C16_partition_concat.

(* resuming from any valid cursor (not only 0) partitions the rest of the stream *)
Theorem C16_layer_resume_from_any_cursor :
  forall emit early ev top_k fuel start c,
    parse_cursor c (total_slices ev) = Ok (N.of_nat start) ->
    (start <= length (items emit ev))%nat ->
    (length (items emit ev) - start < fuel)%nat ->
    exists pages,
      follow fuel (page_of early emit ev top_k) c = (pages, Done) /\
      partition (items emit ev) (total_slices ev) start pages /\
      (length pages <= Nat.max 1 (length (items emit ev) - start))%nat /\
      Forall (fun p => len (p_hits p) <= N.max top_k 1) pages.
Proof. intros emit early ev top_k fuel start c Hc _. exact (follow_partition emit early ev top_k fuel start c Hc). Qed.
Print Assumptions C16_layer_resume_from_any_cursor.

(* a cursor beyond total_hits is InvalidCursor -- this is how a total_hits that shrinks
   between requests would surface *)
Theorem C16_cursor_beyond_total_rejected :
  forall early emit ev k n padded,
    total_slices ev < n -> page_of early emit ev k (Some (TInt n padded)) = Err E_CURSOR_BEYOND.
Proof.
  intros early emit ev k n padded H. unfold page_of, parse_cursor.
  replace (total_slices ev <? n) with true by lia. reflexivity.
Qed.
Print Assumptions C16_cursor_beyond_total_rejected.

(* (2) END TO END, as stated: REFUTED.  The evaluated list is not fixed: it is computed
   per request from the first doc_limit = max(20, 4*(max(top_k,1) + cursor)) engine
   candidates, with at most max(top_k,1) snippet slices per document, and re-sorted by a
   recency score relative to the newest document AMONG THOSE. *)

(* F-C16-1: more candidates than the first page's doc_limit.
   21 candidates with one slice each, scores 100..80, the last one a day newer; page size 1,
   one-shot 1000.  No cap binds.  The walk ends normally after 21 pages, but
   the paged sequence differs from the one-shot sequence: frame 5 is returned twice,
   frame 21 (first in the one-shot answer) never, and the first page says total_hits = 20. *)
Definition w1_cands : list cand :=
  map (fun i => mkCand (N.of_nat i) true (101 - N.of_nat i) 0 300 [[(0, 50)]]
                       (if Nat.eqb i 21 then 86400 else 0)%Z) (seq 1 21).

Theorem C16_e2e_doc_limit_refuted :
  exists (cands : list cand) (k K : N) pages one,
    cap_binds cands k K = false /\ limit_binds cands k = true /\
    follow 100 (e2e_page combined_days false None cands k) None = (pages, Done) /\
    e2e_page combined_days false None cands K None = Ok one /\
    len (p_hits one) <= K /\
    concat (map p_hits pages) <> p_hits one /\
    count_hit (5, (0, 50)) (concat (map p_hits pages)) = 2%nat /\
    count_hit (21, (0, 50)) (concat (map p_hits pages)) = 0%nat /\
    hd_error (p_hits one) = Some (21, (0, 50)) /\
    map p_total (firstn 2 pages) = [20; 20] /\ p_total one = 21.
Proof.
  exists w1_cands, 1, 1000. do 2 eexists.
  split; [vm_compute; reflexivity|]. split; [vm_compute; reflexivity|].
  (* the next two clauses determine `pages` and `one`; the remaining ones are about those values *)
  split; [vm_compute; reflexivity|]. split; [vm_compute; reflexivity|].
  vm_compute. repeat split; discriminate.
Qed.
Print Assumptions C16_e2e_doc_limit_refuted.

(* F-C16-2: a document with more snippet slices than the page size.
   One candidate whose text gives two slices; page size 1 caps it at one slice, so the
   walk returns one hit and total_hits = 1 where the one-shot request returns two. *)
Definition w2_cands : list cand :=
  [mkCand 7 true 100 0 400 [[(0, 50)]; [(0, 50); (170, 260)]] 0%Z].

Theorem C16_e2e_snippet_cap_refuted :
  exists (cands : list cand) (k K : N) pages one,
    limit_binds cands k = false /\ limit_binds cands K = false /\ cap_binds cands k K = true /\
    follow 100 (e2e_page combined_days false None cands k) None = (pages, Done) /\
    e2e_page combined_days false None cands K None = Ok one /\
    concat (map p_hits pages) = [(7, (0, 50))] /\
    p_hits one = [(7, (0, 50)); (7, (170, 260))] /\
    map p_total pages = [1] /\ p_total one = 2.
Proof.
  exists w2_cands, 1, 1000, [mkPage [(7, (0, 50))] 1 None], (mkPage [(7, (0, 50)); (7, (170, 260))] 2 None).
  vm_compute. repeat split.
Qed.
Print Assumptions C16_e2e_snippet_cap_refuted.

(* Outside the two classes the property holds end to end, for EVERY combined-score
   function, candidate list, candidate filter size consistent with the list, page size k
   and one-shot size K: the walk over e2e_page terminates with next_cursor absent, its
   hits concatenate to the one-shot hits, total_hits is the one-shot's on every page, the
   pages partition the slice stream of the (then constant) evaluated list.
   Side conditions: the tantivy pipeline answers (some slice exists: otherwise the legacy
   pipeline answers, covered by theorem (1) with emit_fallback), K holds all hits.
   (No arithmetic side condition: since /repo 9b4da04 `top_k.max(1).saturating_add(cursor)`
   cannot overflow.) *)
Theorem C16_e2e_outside_known :
  forall (combined : N -> Z -> N) (has_lex : bool) (flt : option N) (cands : list cand) (k K : N),
    known_class cands k K = false ->
    flt_ok flt (len cands) ->
    let EV := resort combined (evaluate (N.max k 1) cands) in
    0 < total_slices EV ->
    len (stream emit_tantivy EV) <= N.max K 1 ->
    exists pages one,
      follow (S (N.to_nat (total_slices EV))) (e2e_page combined has_lex flt cands k) None = (pages, Done) /\
      e2e_page combined has_lex flt cands K None = Ok one /\
      concat (map p_hits pages) = p_hits one /\
      Forall (fun p => p_total p = p_total one) pages /\
      partition (items emit_tantivy EV) (total_slices EV) 0 pages /\
      len pages <= N.max 1 (total_slices EV) /\
      Forall (fun p => len (p_hits p) <= N.max k 1) pages.
Proof.
  intros combined has_lex flt cands k K Hk. unfold known_class in Hk.
  apply orb_false_iff in Hk as [Hk Hc]. apply orb_false_iff in Hk as [Hk HK].
  apply e2e_pagination; assumption.
Qed.
Print Assumptions C16_e2e_outside_known.

(* layer: three documents, one slice clamped to nothing (counts, emits no hit), page sizes 2 and 3 *)
Definition nv_ev : list edoc :=
  [mkEdoc 4 0 100 60 [(0, 20); (30, 50)] 0%Z;
   mkEdoc 9 0 0 10 [(0, 10); (10, 30); (40, 50)] 0%Z;      (* (10,30) and (40,50) clamp to empty *)
   mkEdoc 2 0 0 80 [(5, 25)] 0%Z].

Example C16_layer_nonvacuous :
  total_slices nv_ev = 6 /\
  stream emit_tantivy nv_ev = [(4, (100, 120)); (4, (130, 150)); (9, (0, 10)); (2, (5, 25))] /\
  map (fun p => (p_hits p, p_total p, p_next p)) (fst (follow 7 (page_of true emit_tantivy nv_ev 2) None)) =
    [([(4, (100, 120)); (4, (130, 150))], 6, Some 2);
     ([(9, (0, 10)); (2, (5, 25))], 6, None)] /\
  map (fun p => (p_hits p, p_next p)) (fst (follow 7 (page_of true emit_tantivy nv_ev 3) None)) =
    [([(4, (100, 120)); (4, (130, 150)); (9, (0, 10))], Some 3);
     ([(2, (5, 25))], None)].
Proof. vm_compute. repeat split. Qed.

(* end to end: 20 candidates (the doc_limit floor exactly), up to 3 slices each, page size 3,
   different timestamps: every hypothesis of C16_e2e_outside_known holds and the walk has 20 pages *)
Definition nv_cands : list cand :=
  map (fun i => mkCand (N.of_nat i) true (200 - N.of_nat i) 0 500
                       [[(0, 50)]; [(0, 50); (170, 260)]; [(0, 50); (170, 260); (380, 470)]]
                       (Z.of_nat (i mod 3) * 86400)%Z) (seq 1 20).

Example C16_e2e_nonvacuous :
  known_class nv_cands 3 1000 = false /\
  flt_ok None (len nv_cands) /\
  total_slices (resort combined_days (evaluate 3 nv_cands)) = 60 /\
  len (stream emit_tantivy (resort combined_days (evaluate 3 nv_cands))) = 60 /\
  len (fst (follow 61 (e2e_page combined_days false None nv_cands 3) None)) = 20 /\
  hd_error (stream emit_tantivy (resort combined_days (evaluate 3 nv_cands))) = Some (2, (0, 50)).
Proof. vm_compute. repeat split; try reflexivity; discriminate. Qed.
