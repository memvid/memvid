(* C37 Adaptive retrieval cut-off respects its bounds.
   Model: Model/Adaptive.v (find_adaptive_cutoff, its five strategy helpers and
   normalize_scores of src/types/adaptive.rs, line by line, generic over the score type) and
   Model/AdaptiveF32.v (the binary32 instance on Flocq).  Short proofs stand under the statements;
   what they rest on is in Proofs/AdaptiveProofs.v (Flocq-free) and Proofs/AdaptiveF32Proofs.v.

   Theorems (1)-(4) quantify over EVERY score type F and EVERY interpretation O of the float
   operations (comparison, + - * /, sqrt, abs, usize->f32, max, min, literals): the index bounds and
   the threshold clauses never depend on what a float is, so they hold in particular for IEEE
   binary32 with NaN, infinities, signed zeros and subnormals.  Their assumption list is empty.

   Theorems (5)-(10) are about binary32 (Flocq) and carry Flocq's four standard-library axioms.
   The normalize clause ("normalized scores lie in [0,1], the maximum is mapped to 1") is REFUTED
   by the faithful model and by the implementation in exactly one class of finite inputs:
     range-overflow   max_score - min_score overflows binary32 (e.g. [3e38, -3e38]): range = +inf,
                      (max - min) / range = inf / inf = NaN
   (known finding F-C37-1); outside that class it is proved. *)
From Flocq Require Import IEEE754.BinarySingleNaN IEEE754.Binary IEEE754.Bits.
From Coq Require Import Reals.
From MV Require Import Base.Prelude Model.Adaptive Model.AdaptiveF32
     Proofs.AdaptiveProofs Proofs.AdaptiveF32Proofs.

(* (1) for any score list and configuration -- all five strategies, normalization on or off, any
       parameters -- the call returns (no panic: `normalized[0]` is in range) and the cut-off lies
       between min(min_results, n) and n *)
Theorem C37_cutoff_within_bounds :
  forall (F : Type) (O : fops F) (scores : list F) (cfg : config F),
    exists c t, find_adaptive_cutoff O scores cfg = Ok (c, t) /\
      (N.min (cfg_min_results cfg) (N.of_nat (length scores)) <= N.of_nat c)%N /\
      (c <= length scores)%nat.
Proof.
  intros F O scores cfg. exists (fst (cutoff_of O scores cfg)), (snd (cutoff_of O scores cfg)).
  rewrite find_adaptive_cutoff_total, <- surjective_pairing. split; [reflexivity | apply cutoff_of_bounds].
Qed.
Print Assumptions C37_cutoff_within_bounds.

(* (2) absolute / relative threshold.  `normalized_of` = the scores the strategy sees
       (normalize_scores(scores) or scores); `threshold_of` = min_score, resp.
       normalized[0] * min_ratio computed with the model's multiplication (binary32 in the instance).
       (a) no result kept beyond the first min_results is below the threshold;
       (b) if anything is cut, the first result after the cut-off is below the threshold, and the
           cut-off lies beyond the first min_results.
       With (1): the cut-off is the least index >= min_results whose score is below the threshold,
       or n when there is none. *)
Theorem C37_threshold_clauses :
  forall (F : Type) (O : fops F) (scores : list F) (cfg : config F) (thr : F) (c : nat) (t : N) (d : F),
    threshold_of O (normalized_of O scores cfg) (cfg_strategy cfg) = Some thr ->
    find_adaptive_cutoff O scores cfg = Ok (c, t) ->
    (forall i, (cfg_min_results cfg <= N.of_nat i)%N -> (i < c)%nat ->
               f_ltb O (nth i (normalized_of O scores cfg) d) thr = false) /\
    ((c < length scores)%nat ->
     f_ltb O (nth c (normalized_of O scores cfg) d) thr = true /\ (cfg_min_results cfg <= N.of_nat c)%N).
Proof. exact @threshold_clauses. Qed.
Print Assumptions C37_threshold_clauses.

(* (3) the trigger label of the threshold strategies: "no_cutoff" only when everything is kept *)
Theorem C37_threshold_label :
  forall (F : Type) (O : fops F) (scores : list F) (cfg : config F) (thr : F) (c : nat) (t : N),
    threshold_of O (normalized_of O scores cfg) (cfg_strategy cfg) = Some thr ->
    find_adaptive_cutoff O scores cfg = Ok (c, t) ->
    t = T_NO_RESULTS \/ t = T_MIN_RESULTS \/ t = T_ABSOLUTE_THRESHOLD \/
    (t = T_NO_CUTOFF /\ c = length scores).
Proof.
  intros F O scores cfg thr c t Hthr Hrun.
  rewrite find_adaptive_cutoff_total, (threshold_cutoff O scores cfg thr Hthr) in Hrun. injection Hrun as <- <-.
  destruct scores as [|s0 r]; [auto|]. destruct (_ <=? _)%N; [auto|].
  rewrite <- (normalized_of_length O (s0 :: r) cfg). right. right. apply find_absolute_cutoff_label.
Qed.
Print Assumptions C37_threshold_label.

(* (4) normalize_scores, the float-independent part: the length is preserved, and the all-equal
       branch (range < EPSILON) returns 1.0 everywhere *)
Theorem C37_normalize_shape :
  forall (F : Type) (O : fops F) (scores : list F),
    length (normalize_scores O scores) = length scores /\
    (scores <> [] -> f_ltb O (score_range O scores) (f_eps O) = true ->
     normalize_scores O scores = repeat (f_one O) (length scores)).
Proof. intros F O scores. split; [apply normalize_length | intros _; apply normalize_flat]. Qed.
Print Assumptions C37_normalize_shape.

(* (5) binary32: "not below" is "at or above".  For finite scores (and, when normalization is on, a
       range that does not overflow) and a non-NaN threshold, every result kept beyond the first
       min_results has a score >= the threshold.  f32_leb is IEEE `<=`; on finite values it is <= on
       the reals (8). *)
Theorem C37_kept_at_or_above_threshold_f32 :
  forall (scores : list f32) (cfg : config f32) (thr : f32) (c : nat) (t : N) (i : nat),
    all_finite scores = true ->
    (cfg_normalize cfg = true -> range_overflows scores = false) ->
    threshold_of f32ops (normalized_of f32ops scores cfg) (cfg_strategy cfg) = Some thr ->
    f32_is_nan thr = false ->
    find_adaptive_cutoff f32ops scores cfg = Ok (c, t) ->
    (cfg_min_results cfg <= N.of_nat i)%N -> (i < c)%nat ->
    f32_leb thr (nth i (normalized_of f32ops scores cfg) F32_ZERO) = true.
Proof.
  intros scores cfg thr c t i Hf Hov Hthr Hnan Hrun Hi1 Hi2.
  apply not_below_is_at_or_above; [|exact Hnan|].
  - (* a score of the list or, past its end, the default 0.0: finite either way *)
    apply fin_not_nan, finite_nth, (normalized_finite scores cfg Hf Hov).
  - exact (proj1 (C37_threshold_clauses f32 f32ops scores cfg thr c t F32_ZERO Hthr Hrun) i Hi1 Hi2).
Qed.
Print Assumptions C37_kept_at_or_above_threshold_f32.

(* (6) the normalize clause, outside the known class.
       normalize_ok scores := the output has the length of the input, every output is a finite
       number in [0,1], and every index holding a maximal score is mapped to exactly 1.
       Holds for every list of finite scores whose max - min does not overflow: any length,
       subnormals, signed zeros, ties, ranges below EPSILON included. *)
Theorem C37_normalize_ok_outside_known :
  forall scores : list f32,
    all_finite scores = true -> range_overflows scores = false -> normalize_ok scores.
Proof. exact normalize_ok_without_overflow. Qed.
Print Assumptions C37_normalize_ok_outside_known.

(* the witness of (7): [3e38, -3e38] is finite, its range overflows, and it is normalized to [NaN, 0] *)
Example C37_refutation_witness :
  all_finite overflow_witness = true /\ range_overflows overflow_witness = true /\
  map f32_bits (normalize_scores f32ops overflow_witness) = [2143289344%N; 0%N].   (* [NaN; 0.0] *)
Proof. vm_compute. repeat split. Qed.

(* (7) the clause as stated (every list of finite scores) is refuted *)
Theorem C37_normalize_ok_refuted :
  exists scores : list f32, all_finite scores = true /\ ~ normalize_ok scores.
Proof.
  destruct C37_refutation_witness as (Hfin & Hov & _).
  exists overflow_witness. split; [exact Hfin | exact (normalize_fails_on_overflow _ Hfin Hov)].
Qed.
Print Assumptions C37_normalize_ok_refuted.

(* (8) reading of the boolean comparisons on finite values *)
Theorem C37_leb_is_real_le :
  forall x y : f32, f32_is_finite x = true -> f32_is_finite y = true ->
                    (f32_leb x y = true <-> (B2R 24 128 x <= B2R 24 128 y)%R).
Proof.
  intros x y Hx Hy. unfold f32_leb, b32_compare. rewrite (Bcompare_correct 24 128 x y Hx Hy).
  destruct (Raux.Rcompare_spec (B2R 24 128 x) (B2R 24 128 y)) as [Hlt|Heq|Hgt].
  - split; [intros _; apply Rlt_le, Hlt | reflexivity].
  - split; [intros _; apply Req_le, Heq | reflexivity].
  - split; [discriminate | intros Hle; destruct (Rlt_not_le _ _ Hgt Hle)].
Qed.
Print Assumptions C37_leb_is_real_le.

(* (9) a successful normalization yields finite (hence non-NaN) scores, so (5) applies after it *)
Theorem C37_normalized_scores_finite :
  forall (scores : list f32) (cfg : config f32),
    all_finite scores = true ->
    (cfg_normalize cfg = true -> range_overflows scores = false) ->
    forall y, In y (normalized_of f32ops scores cfg) -> f32_is_finite y = true.
Proof. exact normalized_finite. Qed.
Print Assumptions C37_normalized_scores_finite.

(* (10) the known class is exact: EVERY list of finite scores whose max - min overflows violates the
        clause (the range is +inf, the maximal score is mapped to inf / inf = NaN) -- so with (6),
        for finite scores:  normalize_ok scores <-> range_overflows scores = false *)
Theorem C37_known_class_always_fails :
  forall scores : list f32,
    all_finite scores = true -> range_overflows scores = true -> ~ normalize_ok scores.
Proof. exact normalize_fails_on_overflow. Qed.
Print Assumptions C37_known_class_always_fails.

(* the crate's own test vector [1.0, 0.8, 0.6, 0.4, 0.2]: finite, no overflow; normalized to
   [1.0, 0.75, 0.50000006, 0.25, 0.0] *)
Definition sample_scores : list f32 :=
  map f32_of_bits [1065353216; 1061997773; 1058642330; 1053609165; 1045220557]%N.

Example C37_nonvacuous_normalize :
  all_finite sample_scores = true /\ range_overflows sample_scores = false /\
  map f32_bits (normalize_scores f32ops sample_scores) =
  [1065353216; 1061158912; 1056964609; 1048576000; 0]%N.
Proof. vm_compute. repeat split. Qed.

(* absolute threshold 0.5 on the normalized sample, min_results = 1: results 0,1,2 are kept
   (1.0, 0.75, 0.50000006 >= 0.5), the cut-off is 3 and normalized[3] = 0.25 < 0.5 *)
Definition sample_cfg : config f32 := mk_config 1%N true (AbsoluteThreshold (f32_of_bits 1056964608)).

Example C37_nonvacuous_threshold :
  find_adaptive_cutoff f32ops sample_scores sample_cfg = Ok (3%nat, T_ABSOLUTE_THRESHOLD) /\
  threshold_of f32ops (normalized_of f32ops sample_scores sample_cfg) (cfg_strategy sample_cfg)
    = Some (f32_of_bits 1056964608) /\
  f32_is_nan (f32_of_bits 1056964608) = false /\
  f32_ltb (nth 3 (normalized_of f32ops sample_scores sample_cfg) F32_ZERO) (f32_of_bits 1056964608) = true /\
  f32_leb (f32_of_bits 1056964608) (nth 2 (normalized_of f32ops sample_scores sample_cfg) F32_ZERO) = true.
Proof. vm_compute. repeat split. Qed.

(* relative threshold 0.6 without normalization on [1.0, 0.9, 0.8, 0.5, 0.3, 0.1], min_results 2:
   threshold = fl(1.0 * 0.6); cut-off 3 *)
Example C37_nonvacuous_relative :
  let sc := map f32_of_bits [1065353216; 1063675494; 1061997773; 1056964608; 1050253722; 1036831949]%N in
  let cfg := mk_config 2%N false (RelativeThreshold (f32_of_bits 1058642330)) in
  find_adaptive_cutoff f32ops sc cfg = Ok (3%nat, T_ABSOLUTE_THRESHOLD) /\
  option_map f32_bits (threshold_of f32ops (normalized_of f32ops sc cfg) (cfg_strategy cfg)) = Some 1058642330%N.
Proof. vm_compute. repeat split. Qed.

(* the other three strategies reach their mechanisms on the crate's documented examples *)
Example C37_nonvacuous_cliff_elbow_combined :
  let cliff := map f32_of_bits [1065353216; 1064514355; 1063675494; 1062836634; 1061997773; 1050253722; 1048576000; 1045220557]%N in
  let elbow := map f32_of_bits [1065353216; 1064514355; 1063675494; 1062836634; 1061997773; 1056964608; 1056293519; 1055622431; 1054951342; 1054280253]%N in
  find_adaptive_cutoff f32ops cliff (mk_config 1%N true (ScoreCliff (f32_of_bits 1053609165))) = Ok (5%nat, T_SCORE_CLIFF) /\
  find_adaptive_cutoff f32ops elbow (mk_config 1%N true (Elbow F32_ONE)) = Ok (6%nat, T_ELBOW_DETECTION) /\
  find_adaptive_cutoff f32ops cliff (mk_config 1%N true (Combined (f32_of_bits 1056964608) (f32_of_bits 1053609165) (f32_of_bits 1050253722)))
    = Ok (5%nat, T_ABSOLUTE_MIN).
Proof. vm_compute. repeat split. Qed.
