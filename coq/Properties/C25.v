(* C25 Tickets: strictly increasing sequence, authentic signatures only.
   Short proofs stand under the statements; what they rest on is in Proofs/TicketProofs.v;
   model Model/Ticket.v.

   Everything below holds for EVERY function `verify` (Ed25519 verify_strict is an oracle) and
   every embedded key.  `tinv s` says that the ticket held in memory is the ticket in the last
   TOC written to the file; it holds for a freshly created memory (C25_init_state_ok) and is
   preserved by every operation except unbind_memory.

   Quantifier.  The property speaks of tickets "accepted before on this memory, including
   across reopen", over "random ticket sequences ..., tampering, interleaved with reopen":
   histories over apply_ticket, apply_signed_ticket, bind_memory (which applies a ticket),
   set_memory_binding_only, commit, reopen (Drop commits when dirty) and process exit without
   commit + reopen, of any length, in any order.  unbind_memory is NOT in that quantifier: it
   is documented as "clears the binding and reverts to free tier capacity" and replaces the
   ticket by the free-tier ticket (sequence number 1); after it the file is no longer the
   control plane's "this memory".  It is modelled (OUnbind) and what it does to the sequence
   is stated as an observation (C25_observation_unbind_resets_sequence), not as a refutation. *)
From MV Require Import Base.Prelude Model.Ticket Proofs.TicketProofs.
From Coq Require Import Sorting.Sorted String.
Local Open Scope Z_scope.

(* 1. Strictly increasing, all histories, from any state whose ticket is on file.  The sequence
   numbers of the accepted tickets, in order of acceptance, are strictly increasing and all
   above the number the history started with (so nothing accepted before the history, e.g.
   before an earlier reopen, is ever matched or undercut). *)
Theorem C25_accepted_strictly_increasing :
  forall (verify : bytes -> bytes -> bytes -> bool) (pubkey : bytes) (ops : list top) (s : mstate),
    no_unbind ops = true -> tinv s ->
    StronglySorted Z.lt (cur s :: accepted verify pubkey s ops).
Proof.
  intros verify pubkey ops s Hn Hi.
  apply history_inv; assumption.
Qed.
Print Assumptions C25_accepted_strictly_increasing.

(* 1'. The property's wording: after ANY history `pre` on a fresh memory (reopens, crashes,
   commits, binds anywhere in it), a ticket-carrying operation is accepted only if its sequence
   number is greater than that of every ticket accepted during `pre`. *)
Theorem C25_accepted_only_if_greater_than_all_before :
  forall (verify : bytes -> bytes -> bytes -> bool) (pubkey : bytes) (pre : list top) (op : top) (q : Z) (s' : mstate),
    no_unbind pre = true ->
    tstep verify pubkey (final verify pubkey init_state pre) op = (s', Ok tt) -> op_seq op = Some q ->
    1 < q /\ Forall (fun q' => q' < q) (accepted verify pubkey init_state pre).
Proof.
  intros verify pubkey pre op q s' Hn Hs Hq.
  exact (accepted_only_if_greater verify pubkey pre op init_state q s' Hn tinv_init Hs Hq).
Qed.
Print Assumptions C25_accepted_only_if_greater_than_all_before.

(* 1''. Across reopen: reopening (with the Drop commit, or after a process exit without it)
   leaves the ticket - hence the sequence number to beat - exactly as it was. *)
Theorem C25_reopen_keeps_ticket :
  forall (verify : bytes -> bytes -> bytes -> bool) (pubkey : bytes) (ops : list top),
    no_unbind ops = true ->
    let s := final verify pubkey init_state ops in
    t_ticket (s_mem (reopen s)) = t_ticket (s_mem s) /\ t_ticket (s_mem (crash_reopen s)) = t_ticket (s_mem s).
Proof.
  intros verify pubkey ops Hn s. apply reopen_keeps_ticket.
  apply history_inv; [exact Hn | exact tinv_init].
Qed.
Print Assumptions C25_reopen_keeps_ticket.

(* 2. A rejected ticket changes nothing: whenever apply_ticket / apply_signed_ticket /
   bind_memory does not return Ok (an error OR the overflow panic), the whole state - ticket
   and binding in memory, TOC in the file, dirty flag - is the state before.  ANY state. *)
Theorem C25_rejected_ticket_changes_nothing :
  forall (verify : bytes -> bytes -> bytes -> bool) (pubkey : bytes) (s : mstate) (op : top) (s' : mstate) (o : outcome unit),
    tstep verify pubkey s op = (s', o) -> op_seq op <> None -> o <> Ok tt -> s' = s.
Proof.
  intros verify pubkey s op s' o Hs Hop Ho. destruct (op_seq op) as [q|] eqn:Eq; [|congruence].
  pose proof (tstep_ticket verify pubkey s op q Eq) as H. rewrite Hs in H. inversion H; congruence.
Qed.
Print Assumptions C25_rejected_ticket_changes_nothing.

(* 3. A signed ticket is accepted exactly when the memory is bound, the ticket names the bound
   memory, the signature has 64 bytes and verifies with the embedded key over the canonical
   payload of the ticket's own fields, and the sequence number is greater than the current
   one.  ("only if" is the property; "if" shows nothing else is demanded.)  ANY state. *)
Theorem C25_signed_accepted_iff :
  forall (verify : bytes -> bytes -> bytes -> bool) (pubkey : bytes) (s : mstate) (st : sticket),
    snd (tstep verify pubkey s (OSigned st)) = Ok tt <->
    (t_binding (s_mem s) = Some (st_mid st) /\
     (Nat.eqb (List.length (st_sig st)) 64 &&
      verify pubkey (canonical_payload (st_mid st) (tk_issuer (st_ticket st)) (tk_seq (st_ticket st))
                                       (tk_expires (st_ticket st)) (tk_cap (st_ticket st))) (st_sig st)) = true /\
     cur s < tk_seq (st_ticket st)).
Proof. exact signed_accept_iff. Qed.
Print Assumptions C25_signed_accepted_iff.

(* an accepted signed ticket installs exactly its own fields, marked verified, in memory and file *)
Theorem C25_signed_accepted_state :
  forall (verify : bytes -> bytes -> bytes -> bool) (pubkey : bytes) (s : mstate) (st : sticket) (s' : mstate),
    tstep verify pubkey s (OSigned st) = (s', Ok tt) -> s' = install s (st_ticket st) true.
Proof.
  intros verify pubkey s st s'. cbn [tstep]. rewrite apply_signed_offer.
  destruct (admits verify pubkey s st); [apply offer_accepted | discriminate].
Qed.
Print Assumptions C25_signed_accepted_state.

(* 3'. "Signature over the canonical payload" binds every field: the payload string
   {"version":1,"memory_id":"<uuid>","issuer":<JSON string>,"seq_no":n,"expires_in":n,
   "capacity_bytes":n|null} determines memory id, issuer, sequence number, expiry, capacity. *)
Theorem C25_canonical_payload_injective :
  forall (mid mid' issuer issuer' : bytes) (seq seq' : Z) (expires expires' : N) (cap cap' : option N),
    List.length mid = 16%nat -> List.length mid' = 16%nat -> bytes_ok mid = true -> bytes_ok mid' = true ->
    canonical_payload mid issuer seq expires cap = canonical_payload mid' issuer' seq' expires' cap' ->
    mid = mid' /\ issuer = issuer' /\ seq = seq' /\ expires = expires' /\ cap = cap'.
Proof. exact canonical_payload_inj. Qed.
Print Assumptions C25_canonical_payload_injective.

(* 3''. Tampering.  If a signature verifies under the embedded key for at most one message
   (what Ed25519 provides against an adversary without the private key; here a hypothesis on
   the oracle for the signature at hand), then among all signed tickets carrying it at most
   one is ever accepted, in any states: changing memory id, issuer, sequence number, expiry
   or capacity of an accepted ticket gets it rejected. *)
Theorem C25_tampered_ticket_rejected :
  forall (verify : bytes -> bytes -> bytes -> bool) (pubkey sg : bytes),
    (forall m m', verify pubkey m sg = true -> verify pubkey m' sg = true -> m = m') ->
    forall (s1 s2 : mstate) (st st' : sticket),
      st_sig st = sg -> st_sig st' = sg -> id_ok st -> id_ok st' ->
      snd (tstep verify pubkey s1 (OSigned st)) = Ok tt ->
      snd (tstep verify pubkey s2 (OSigned st')) = Ok tt ->
      st' = st.
Proof.
  intros verify pubkey sg Huniq s1 s2 st st' Hsg Hsg' Hid Hid' Ha Ha'.
  apply signed_accept_iff in Ha as [_ [Hv _]]. apply signed_accept_iff in Ha' as [_ [Hv' _]].
  unfold sig_ok in Hv, Hv'. apply andb_true_iff in Hv as [_ Hv]. apply andb_true_iff in Hv' as [_ Hv'].
  rewrite Hsg in Hv. rewrite Hsg' in Hv'.
  destruct (payload_of_inj st st' Hid Hid' (Huniq _ _ Hv Hv')) as [Em Et].
  destruct st, st'. cbn in *. congruence.
Qed.
Print Assumptions C25_tampered_ticket_rejected.

(* unsigned tickets: accepted exactly when the sequence number exceeds the current one *)
Theorem C25_unsigned_accepted_iff :
  forall (verify : bytes -> bytes -> bytes -> bool) (pubkey : bytes) (s : mstate) (t : ticket),
    snd (tstep verify pubkey s (OApply t)) = Ok tt <-> cur s < tk_seq t.
Proof.
  intros verify pubkey s t. apply offer_ok.
Qed.
Print Assumptions C25_unsigned_accepted_iff.

Theorem C25_init_state_ok : tinv init_state /\ cur init_state = 1.
Proof. split; reflexivity. Qed.
Print Assumptions C25_init_state_ok.

(* observations: behaviour outside the property's quantifier *)

(* unbind_memory resets the sequence number to 1: a history WITH unbind accepts 2 after 5. *)
Theorem C25_observation_unbind_resets_sequence :
  exists ops, no_unbind ops = false /\
    accepted (fun _ _ _ => false) [] init_state ops = [5; 2].
Proof.
  exists [OApply (mkTicket [] 5 0 None); OUnbind; OApply (mkTicket [] 2 0 None)].
  split; vm_compute; reflexivity.
Qed.
Print Assumptions C25_observation_unbind_resets_sequence.

(* once i64::MAX has been accepted every later ticket is refused by a panic (the error value's
   `current_seq + 1` overflows with overflow checks on); the state is still unchanged *)
Theorem C25_observation_rejection_panics_at_i64_max :
  forall (verify : bytes -> bytes -> bytes -> bool) (pubkey : bytes) (s : mstate) (t : ticket),
    cur s = I64_MAX -> tk_seq t <= I64_MAX -> tstep verify pubkey s (OApply t) = (s, Panic 1%N).
Proof.
  intros verify pubkey s t Hc Ht. cbn [tstep]. rewrite apply_ticket_offer. unfold offer.
  destruct (Z.leb_spec (tk_seq t) (cur s)); [rewrite Hc; reflexivity | lia].
Qed.
Print Assumptions C25_observation_rejection_panics_at_i64_max.

(* the payload of the vector quoted in src/signature.rs (test_payload_json_format) *)
Example C25_payload_example :
  canonical_payload (hex "123e4567e89b12d3a456426614174000") (ascii_bytes "memvid-dashboard") 2 86400 (Some 10737418240%N)
  = ascii_bytes "{""version"":1,""memory_id"":""123e4567-e89b-12d3-a456-426614174000"",""issuer"":""memvid-dashboard"",""seq_no"":2,""expires_in"":86400,""capacity_bytes"":10737418240}".
Proof. vm_compute. reflexivity. Qed.

(* escapes (quote, backslash, newline, control character), raw 0x7f and UTF-8, negative
   number, null *)
Example C25_payload_example_escapes :
  canonical_payload (hex "00000000000000000000000000000000") [34; 92; 10; 1; 127; 195; 169]%N (-7) 0 None
  = (ascii_bytes "{""version"":1,""memory_id"":""00000000-0000-0000-0000-000000000000"",""issuer"":""\""\\\n\u0001" ++ [127; 195; 169]%N
    ++ ascii_bytes """,""seq_no"":-7,""expires_in"":0,""capacity_bytes"":null}")%list.
Proof. vm_compute. reflexivity. Qed.

(* a toy oracle: exactly one (message, signature) pair is authentic *)
Definition demo_id : bytes := hex "69601cefbea57ba3fec39b5c00000000".
Definition demo_ticket : ticket := mkTicket (ascii_bytes "memvid-dashboard") 9 86400 (Some 10737418240%N).
Definition demo_sig : bytes := repeat 7%N 64.
Definition demo_signed : sticket := mkSigned demo_ticket demo_id demo_sig.
Definition demo_verify (pk m sg : bytes) : bool :=
  bytes_eqb m (payload_of demo_signed) && bytes_eqb sg demo_sig.

Definition demo_ops : list top :=
  [ OApply (mkTicket (ascii_bytes "a") 2 0 None);                       (* accepted *)
    OApply (mkTicket (ascii_bytes "b") 2 5 (Some 1%N));                 (* equal: rejected *)
    OSigned demo_signed;                                                (* not bound: rejected *)
    OBindOnly demo_id;
    OCrash;                                                             (* binding lost, ticket kept *)
    OBind demo_id (mkTicket (ascii_bytes "t") 3 0 (Some 0%N));          (* accepted *)
    OSigned (mkSigned (mkTicket (ascii_bytes "memvid-dashboard") 10 86400 (Some 10737418240%N)) demo_id demo_sig);  (* tampered seq *)
    OSigned (mkSigned demo_ticket (hex "11111111111111111111111111111111") demo_sig);                             (* other memory *)
    OSigned (mkSigned demo_ticket demo_id (repeat 7%N 63));                                                       (* short signature *)
    OSigned demo_signed;                                                (* accepted *)
    OReopen;
    OSigned demo_signed;                                                (* replay after reopen: rejected *)
    OApply (mkTicket (ascii_bytes "c") 9223372036854775807 0 None);     (* accepted *)
    OCommit;
    OApply (mkTicket (ascii_bytes "d") 4 0 None) ].                     (* refused by the overflow panic *)

Example C25_nonvacuous :
  no_unbind demo_ops = true /\ tinv init_state /\
  accepted demo_verify [] init_state demo_ops = [2; 3; 9; 9223372036854775807] /\
  map fst (trun demo_verify [] init_state demo_ops) =
    [Ok tt; Err 1%N; Err 2%N; Ok tt; Ok tt; Ok tt; Err 2%N; Err 2%N; Err 2%N; Ok tt; Ok tt; Err 1%N; Ok tt; Ok tt; Panic 1%N] /\
  observe (final demo_verify [] init_state (firstn 11 demo_ops)) =
    (Some 9, 10737418240%N, (ascii_bytes "memvid-dashboard", 9, 86400%N, 10737418240%N, true), Some demo_id).
Proof. vm_compute. repeat split; reflexivity. Qed.

(* the hypothesis of C25_tampered_ticket_rejected is satisfiable, with an accepted ticket *)
Example C25_tamper_hypothesis_satisfiable :
  (forall m m', demo_verify [] m demo_sig = true -> demo_verify [] m' demo_sig = true -> m = m') /\
  id_ok demo_signed /\
  snd (tstep demo_verify [] (final demo_verify [] init_state (firstn 9 demo_ops)) (OSigned demo_signed)) = Ok tt.
Proof.
  split; [|split; [split|]; vm_compute; reflexivity].
  unfold demo_verify. intros m m' H H'.
  apply andb_true_iff in H as [H _]. apply andb_true_iff in H' as [H' _].
  apply Facts.bytes_eqb_spec in H. apply Facts.bytes_eqb_spec in H'. congruence.
Qed.
