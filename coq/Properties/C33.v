(* C33 Text normalization invariants (src/text.rs: normalize_text, truncate_at_grapheme_boundary).
   Short proofs stand under the statements; what they rest on is in Proofs/TextProofs.v.  The
   model (Model/Text.v) follows the Rust code line by line over lists of code points with exact
   UTF-8 byte widths.

   The Unicode tables are NOT part of the model: every theorem quantifies over
     nfkc : list cp -> list cp,  is_control, is_whitespace : cp -> bool,
     graphemes : list cp -> list (list cp)
   and assumes only the facts listed in its statement, taken from
     space_is_ws        is_whitespace ' ' = true     newline_is_ws  is_whitespace '\n' = true
     space_not_control  is_control ' ' = false
     G_concat           concat (graphemes s) = s     G_nonempty     no grapheme is empty
   (the names they have in TextProofs.v; `oracles_ok` is their conjunction).  No theorem assumes
   anything about nfkc except where an explicit hypothesis `nfkc out = out` / idempotence appears.

   Result on the unchanged implementation.  Proved for ALL inputs and limits: no control character
   but '\n', no leading whitespace, whitespace is only ' ' / '\n' and never two in a row (no double
   spaces, no blank lines), byte bound with the first-grapheme exception, output = whole graphemes
   of the trimmed text and the cut is maximal, text never empty, truncate_at_grapheme_boundary.
   REFUTED as stated, in two narrow classes recorded as known findings:
     F-C33-1 nfkc-shielded-by-removed-control   "output is NFKC" and "normalizing an untruncated
             output again returns it unchanged": the control filter runs after NFKC, so a removed
             control character may have separated code points that NFKC composes / reorders
             ("a\u{1}\u{301} b" -> "a\u{301} b" -> second pass "\u{e1} b").
     F-C33-2 trailing-whitespace-after-truncation   "no trailing whitespace": trimming runs before
             truncation, so a cut right after a ' ' / '\n' grapheme leaves it at the end
             ("ab cd", limit 3 -> "ab ").
   Outside the classes the clauses are proved (C33_*_outside_known); idempotence is proved for every
   untruncated output that NFKC leaves unchanged. *)
From MV Require Import Base.Prelude Model.Text Proofs.TextProofs.
Local Open Scope N_scope.

(* (1) no control characters other than newline (and no '\r', no '\t' at all) *)
Theorem C33_no_control_except_newline :
  forall nfkc is_control is_whitespace graphemes,
    is_control SP = false ->
    (forall s, concat (graphemes s) = s) -> (forall s, Forall (fun g => g <> []) (graphemes s)) ->
    forall input limit out tr,
      normalize_text nfkc is_control is_whitespace graphemes input limit = Some (out, tr) ->
      Forall (fun c => (is_control c = false \/ c = NL) /\ c <> CR /\ c <> TAB) out.
Proof. exact no_control. Qed.
Print Assumptions C33_no_control_except_newline.

(* (2) whitespace shape: every whitespace character of the output is ' ' or '\n', no two
       whitespace characters are adjacent, the first character is not whitespace *)
Theorem C33_whitespace_shape :
  forall nfkc is_control is_whitespace graphemes,
    is_whitespace SP = true -> is_control SP = false ->
    (forall s, concat (graphemes s) = s) -> (forall s, Forall (fun g => g <> []) (graphemes s)) ->
    forall input limit out tr,
      normalize_text nfkc is_control is_whitespace graphemes input limit = Some (out, tr) ->
      Forall (fun c => is_whitespace c = true -> c = SP \/ c = NL) out /\
      (forall a b, adjacent a b out -> ~ (is_whitespace a = true /\ is_whitespace b = true)) /\
      is_whitespace (hd 0 out) = false.
Proof. intros nfkc is_control is_whitespace graphemes Hsp _. exact (whitespace_shape nfkc is_control is_whitespace graphemes Hsp). Qed.
Print Assumptions C33_whitespace_shape.

(*     hence no runs of spaces, no blank lines, no space next to a newline *)
Theorem C33_no_double_space_no_blank_line :
  forall nfkc is_control is_whitespace graphemes,
    is_whitespace SP = true -> is_whitespace NL = true -> is_control SP = false ->
    (forall s, concat (graphemes s) = s) -> (forall s, Forall (fun g => g <> []) (graphemes s)) ->
    forall input limit out tr,
      normalize_text nfkc is_control is_whitespace graphemes input limit = Some (out, tr) ->
      ~ adjacent SP SP out /\ ~ adjacent NL NL out /\ ~ adjacent SP NL out /\ ~ adjacent NL SP out.
Proof.
  intros nfkc is_control is_whitespace graphemes Hsp Hnl _ G1 G2 input limit out tr H.
  destruct (whitespace_shape nfkc is_control is_whitespace graphemes Hsp G1 G2 H) as (_ & Hadj & _).
  assert (Hno : forall a b, is_whitespace a = true -> is_whitespace b = true -> ~ adjacent a b out)
    by (intros a b Ha Hb Hab; exact (Hadj a b Hab (conj Ha Hb))).
  split; [apply Hno; exact Hsp|]. split; [apply Hno; exact Hnl|].
  split; apply Hno; assumption.
Qed.
Print Assumptions C33_no_double_space_no_blank_line.

(* (3) trailing whitespace.  Untruncated outputs have none ... *)
Theorem C33_untruncated_no_trailing_whitespace :
  forall nfkc is_control is_whitespace graphemes,
    (forall s, concat (graphemes s) = s) -> (forall s, Forall (fun g => g <> []) (graphemes s)) ->
    forall input limit out,
      normalize_text nfkc is_control is_whitespace graphemes input limit = Some (out, false) ->
      is_whitespace (last out 0) = false.
Proof. exact untruncated_no_trailing_ws. Qed.
Print Assumptions C33_untruncated_no_trailing_whitespace.

(*     ... but the clause as stated is refuted (witness "ab cd", limit 3 -> "ab ", truncated) *)
Theorem C33_trailing_whitespace_refuted :
  exists nfkc is_control is_whitespace graphemes,
    oracles_ok is_control is_whitespace graphemes /\
    exists input limit out,
      normalize_text nfkc is_control is_whitespace graphemes input limit = Some (out, true) /\
      is_whitespace (last out 0) = true /\
      known_trailing nfkc is_control is_whitespace graphemes input limit = true.
Proof.
  exists toy_nfkc, std_is_control, std_is_whitespace, toy_graphemes.
  split; [exact toy_oracles_ok|].
  exists trailing_witness, 3, [97; 98; 32]. exact trailing_witness_facts.
Qed.
Print Assumptions C33_trailing_whitespace_refuted.

(*     known_trailing := truncated && last character of the output is whitespace *)
Theorem C33_trailing_whitespace_outside_known :
  forall nfkc is_control is_whitespace graphemes,
    (forall s, concat (graphemes s) = s) -> (forall s, Forall (fun g => g <> []) (graphemes s)) ->
    forall input limit out tr,
      normalize_text nfkc is_control is_whitespace graphemes input limit = Some (out, tr) ->
      known_trailing nfkc is_control is_whitespace graphemes input limit = false ->
      is_whitespace (last out 0) = false.
Proof.
  intros nfkc is_control is_whitespace graphemes G1 G2 input limit out tr H Hk.
  rewrite <- Hk. symmetry. exact (known_trailing_eq nfkc is_control is_whitespace graphemes G1 G2 H).
Qed.
Print Assumptions C33_trailing_whitespace_outside_known.

(*     the class is exact *)
Theorem C33_trailing_class_exact :
  forall nfkc is_control is_whitespace graphemes input limit out tr,
    (forall s, concat (graphemes s) = s) -> (forall s, Forall (fun g => g <> []) (graphemes s)) ->
    normalize_text nfkc is_control is_whitespace graphemes input limit = Some (out, tr) ->
    (is_whitespace (last out 0) = true <->
     known_trailing nfkc is_control is_whitespace graphemes input limit = true).
Proof.
  intros nfkc is_control is_whitespace graphemes input limit out tr G1 G2 H.
  rewrite (known_trailing_eq nfkc is_control is_whitespace graphemes G1 G2 H). reflexivity.
Qed.
Print Assumptions C33_trailing_class_exact.

(* (4)+(5) the output is the concatenation of the first k >= 1 graphemes of the trimmed text (it
       ends on a grapheme boundary); it has at most `limit` bytes unless it is the first grapheme
       alone; untruncated means nothing was cut; truncated means the next grapheme does not fit
       (or the fallback returned an over-long first grapheme).  limit 0 acts as limit 1. *)
Theorem C33_length_bound_and_grapheme_boundary :
  forall nfkc is_control is_whitespace graphemes,
    (forall s, concat (graphemes s) = s) -> (forall s, Forall (fun g => g <> []) (graphemes s)) ->
    forall input limit out tr,
      normalize_text nfkc is_control is_whitespace graphemes input limit = Some (out, tr) ->
      let gs := graphemes (trimmed_of nfkc is_control is_whitespace input) in
      exists k : nat,
        (1 <= k <= length gs)%nat /\
        out = concat (firstn k gs) /\
        (byte_len out <= limit \/ k = 1%nat) /\
        (byte_len out <= N.max limit 1 \/ (k = 1%nat /\ tr = true)) /\
        (tr = false -> out = trimmed_of nfkc is_control is_whitespace input) /\
        (tr = true -> N.max limit 1 < byte_len (concat (firstn (S k) gs)) \/
                      (k = 1%nat /\ N.max limit 1 < byte_len out)).
Proof. exact length_and_boundary. Qed.
Print Assumptions C33_length_bound_and_grapheme_boundary.

(*     the result is None exactly when nothing but whitespace is left, and Some text is never empty *)
Theorem C33_none_iff_blank :
  forall nfkc is_control is_whitespace graphemes input limit,
    normalize_text nfkc is_control is_whitespace graphemes input limit = None <->
    trimmed_of nfkc is_control is_whitespace input = [].
Proof.
  intros nfkc is_control is_whitespace graphemes input limit.
  unfold normalize_text. fold (trimmed_of nfkc is_control is_whitespace input).
  destruct (trimmed_of nfkc is_control is_whitespace input) as [|t0 t'] eqn:Et; [split; reflexivity|].
  split; [|discriminate].
  destruct (take_graphemes (N.max limit 1) 0 (graphemes (t0 :: t'))) as [o tr0].
  destruct o; [destruct (graphemes (t0 :: t'))|]; discriminate.
Qed.
Print Assumptions C33_none_iff_blank.

Theorem C33_output_nonempty :
  forall nfkc is_control is_whitespace graphemes,
    (forall s, concat (graphemes s) = s) -> (forall s, Forall (fun g => g <> []) (graphemes s)) ->
    forall input limit out tr,
      normalize_text nfkc is_control is_whitespace graphemes input limit = Some (out, tr) -> out <> [].
Proof. exact out_nonempty. Qed.
Print Assumptions C33_output_nonempty.

(* (6) truncate_at_grapheme_boundary: the index is the byte length of the first k graphemes (a
       grapheme boundary, s splits there), it is len(s) when s fits, at most `limit` unless it is
       the first grapheme alone, never 0 for a non-empty s, and the next boundary exceeds limit *)
Theorem C33_truncate_at_grapheme_boundary :
  forall graphemes,
    (forall s, concat (graphemes s) = s) -> (forall s, Forall (fun g => g <> []) (graphemes s)) ->
    forall s limit,
      let gs := graphemes s in
      let r := truncate_at_grapheme_boundary graphemes s limit in
      (byte_len s <= limit -> r = byte_len s) /\
      exists k : nat,
        (k <= length gs)%nat /\ (s <> [] -> (1 <= k)%nat) /\
        r = byte_len (concat (firstn k gs)) /\
        s = concat (firstn k gs) ++ concat (skipn k gs) /\
        (r <= limit \/ k = 1%nat) /\
        (k = length gs \/ limit < byte_len (concat (firstn (S k) gs))).
Proof.
  intros graphemes G1 G2 s limit gs r. subst r. rewrite (truncate_taken graphemes G1 G2). fold gs.
  pose proof (G1 s) as Hc. fold gs in Hc.
  split.
  - intros Hle. rewrite taken_all, firstn_all, Hc by (rewrite Hc; exact Hle). reflexivity.
  - exists (taken limit gs).
    split; [apply taken_le|].
    split; [intros Hs; apply taken_pos; intros E; exact (Hs (graphemes_nil graphemes G1 s E))|].
    split; [reflexivity|].
    split; [rewrite <- concat_app, firstn_skipn; symmetry; exact Hc|].
    split; [|apply taken_next].
    destruct (taken_bound limit gs) as [Hb | [_ Hk]]; [left; exact Hb | right; exact Hk].
Qed.
Print Assumptions C33_truncate_at_grapheme_boundary.

(*     the two functions agree: the text normalize_text returns has exactly the byte length that
       truncate_at_grapheme_boundary computes for the trimmed text and limit.max(1) *)
Theorem C33_normalize_cuts_where_truncate_says :
  forall nfkc is_control is_whitespace graphemes,
    (forall s, concat (graphemes s) = s) -> (forall s, Forall (fun g => g <> []) (graphemes s)) ->
    forall input limit out tr,
      normalize_text nfkc is_control is_whitespace graphemes input limit = Some (out, tr) ->
      byte_len out =
      truncate_at_grapheme_boundary graphemes (trimmed_of nfkc is_control is_whitespace input) (N.max limit 1).
Proof.
  intros nfkc is_control is_whitespace graphemes G1 G2 input limit out tr H.
  destruct (normalize_text_some nfkc is_control is_whitespace graphemes G1 G2 H) as (_ & -> & _).
  symmetry. exact (truncate_taken graphemes G1 G2 _ _).
Qed.
Print Assumptions C33_normalize_cuts_where_truncate_says.

(* (7) idempotence, conditionally: an untruncated output that NFKC leaves unchanged is a fixed
       point -- for the same limit and for any limit it fits in *)
Theorem C33_idempotent_if_output_nfkc_stable :
  forall nfkc is_control is_whitespace graphemes,
    is_whitespace SP = true -> is_whitespace NL = true -> is_control SP = false ->
    (forall s, concat (graphemes s) = s) -> (forall s, Forall (fun g => g <> []) (graphemes s)) ->
    forall input limit out limit2,
      normalize_text nfkc is_control is_whitespace graphemes input limit = Some (out, false) ->
      nfkc out = out ->
      byte_len out <= N.max limit2 1 ->
      normalize_text nfkc is_control is_whitespace graphemes out limit2 = Some (out, false).
Proof. exact idempotent_if_nfkc_stable. Qed.
Print Assumptions C33_idempotent_if_output_nfkc_stable.

Theorem C33_idempotent_same_limit :
  forall nfkc is_control is_whitespace graphemes,
    is_whitespace SP = true -> is_whitespace NL = true -> is_control SP = false ->
    (forall s, concat (graphemes s) = s) -> (forall s, Forall (fun g => g <> []) (graphemes s)) ->
    forall input limit out,
      normalize_text nfkc is_control is_whitespace graphemes input limit = Some (out, false) ->
      nfkc out = out ->
      normalize_text nfkc is_control is_whitespace graphemes out limit = Some (out, false).
Proof. exact idempotent_same_limit. Qed.
Print Assumptions C33_idempotent_same_limit.

(* (8) "output is NFKC" and unconditional idempotence are refuted: with an idempotent nfkc that
       composes 'a' + U+0301 (as the real one does) and an input that is itself NFKC-stable *)
Theorem C33_nfkc_refuted :
  exists nfkc is_control is_whitespace graphemes,
    oracles_ok is_control is_whitespace graphemes /\ (forall s, nfkc (nfkc s) = nfkc s) /\
    exists input limit out,
      nfkc input = input /\
      normalize_text nfkc is_control is_whitespace graphemes input limit = Some (out, false) /\
      nfkc out <> out /\
      known_shield nfkc is_control is_whitespace graphemes input limit = true.
Proof.
  exists toy_nfkc, std_is_control, std_is_whitespace, toy_graphemes.
  split; [exact toy_oracles_ok|]. split; [exact toy_nfkc_idem|].
  exists shield_witness, 100, [97; 769; 32; 98].
  destruct shield_witness_facts as (Hstable & Hfirst & Hcomposed & _ & Hknown).
  split; [exact Hstable|]. split; [exact Hfirst|]. split; [rewrite Hcomposed; discriminate | exact Hknown].
Qed.
Print Assumptions C33_nfkc_refuted.

Theorem C33_idempotence_refuted :
  exists nfkc is_control is_whitespace graphemes,
    oracles_ok is_control is_whitespace graphemes /\ (forall s, nfkc (nfkc s) = nfkc s) /\
    exists input limit out out2,
      normalize_text nfkc is_control is_whitespace graphemes input limit = Some (out, false) /\
      normalize_text nfkc is_control is_whitespace graphemes out limit = Some (out2, false) /\
      out2 <> out.
Proof.
  exists toy_nfkc, std_is_control, std_is_whitespace, toy_graphemes.
  split; [exact toy_oracles_ok|]. split; [exact toy_nfkc_idem|].
  exists shield_witness, 100, [97; 769; 32; 98], [225; 32; 98].
  destruct shield_witness_facts as (_ & Hfirst & _ & Hsecond & _).
  split; [exact Hfirst|]. split; [exact Hsecond | discriminate].
Qed.
Print Assumptions C33_idempotence_refuted.

(*     known_shield := the control filter removes some code point of nfkc(input)
                       && nfkc(output) <> output   (decided with the oracle).
       Outside the class: every NFKC failure that goes with a removed control character is excluded,
       and idempotence of untruncated outputs follows from NFKC stability alone.  (That an output
       is NFKC when NO control character was removed is a fact about the Unicode tables -- NFKC
       strings stay NFKC under substring and under the ' ' / '\n' edits -- which the model cannot
       express; the harness checks it on every case and reports it under a different class tag.) *)
Theorem C33_nfkc_outside_known :
  forall nfkc is_control is_whitespace graphemes,
    is_whitespace SP = true -> is_whitespace NL = true -> is_control SP = false ->
    (forall s, concat (graphemes s) = s) -> (forall s, Forall (fun g => g <> []) (graphemes s)) ->
    forall input limit out tr,
      normalize_text nfkc is_control is_whitespace graphemes input limit = Some (out, tr) ->
      known_shield nfkc is_control is_whitespace graphemes input limit = false ->
      (removes_control nfkc is_control input = true -> nfkc out = out) /\
      (nfkc out = out -> tr = false ->
       normalize_text nfkc is_control is_whitespace graphemes out limit = Some (out, false)).
Proof.
  intros nfkc is_control is_whitespace graphemes Hsp Hnl Hc G1 G2 input limit out tr H Hk.
  unfold known_shield in Hk. rewrite H in Hk. split.
  - intros Hr. rewrite Hr in Hk. cbn [andb] in Hk. apply negb_false_iff in Hk. apply cps_eqb_spec. exact Hk.
  - intros Hn ->. exact (idempotent_same_limit nfkc is_control is_whitespace graphemes Hsp Hnl Hc G1 G2 input limit out H Hn).
Qed.
Print Assumptions C33_nfkc_outside_known.

(*     every member of the class fails *)
Theorem C33_shield_class_fails :
  forall nfkc is_control is_whitespace graphemes input limit out tr,
    normalize_text nfkc is_control is_whitespace graphemes input limit = Some (out, tr) ->
    known_shield nfkc is_control is_whitespace graphemes input limit = true ->
    nfkc out <> out /\ removes_control nfkc is_control input = true.
Proof.
  intros nfkc is_control is_whitespace graphemes input limit out tr H Hk.
  unfold known_shield in Hk. rewrite H in Hk. apply andb_true_iff in Hk. destruct Hk as [Hr Hn].
  split; [|exact Hr]. intros E. apply negb_true_iff in Hn.
  assert (Ht : cps_eqb (nfkc out) out = true) by (apply cps_eqb_spec; exact E). congruence.
Qed.
Print Assumptions C33_shield_class_fails.

(*     when cleaning, trimming and truncation have nothing to do, the output is nfkc(input):
       NFKC-stable and a fixed point as soon as nfkc is idempotent *)
Theorem C33_unedited_output_is_nfkc :
  forall nfkc is_control is_whitespace graphemes,
    is_whitespace SP = true -> is_whitespace NL = true -> is_control SP = false ->
    (forall s, concat (graphemes s) = s) -> (forall s, Forall (fun g => g <> []) (graphemes s)) ->
    forall input limit out,
      (forall s, nfkc (nfkc s) = nfkc s) ->
      normalize_text nfkc is_control is_whitespace graphemes input limit = Some (out, false) ->
      trimmed_of nfkc is_control is_whitespace input = nfkc input ->
      nfkc out = out /\
      normalize_text nfkc is_control is_whitespace graphemes out limit = Some (out, false).
Proof.
  intros nfkc is_control is_whitespace graphemes Hsp Hnl Hc G1 G2 input limit out Hi H Ht.
  assert (Hn : nfkc out = out).
  { rewrite (untruncated_is_trimmed nfkc is_control is_whitespace graphemes G1 G2 H), Ht. apply Hi. }
  split; [exact Hn|].
  exact (idempotent_same_limit nfkc is_control is_whitespace graphemes Hsp Hnl Hc G1 G2 input limit out H Hn).
Qed.
Print Assumptions C33_unedited_output_is_nfkc.

(* non-vacuity: the hypotheses are satisfiable (std's is_control / is_whitespace tables, a
   segmentation that joins U+0301 to the code point before it, an NFKC that composes a + U+0301),
   and concrete non-trivial runs *)
Example C33_hypotheses_satisfiable :
  oracles_ok std_is_control std_is_whitespace toy_graphemes /\ (forall s, toy_nfkc (toy_nfkc s) = toy_nfkc s).
Proof. split; [exact toy_oracles_ok | exact toy_nfkc_idem]. Qed.

(* " Hello\tWorld \u{b} test\r\nnext" with limit 128 (the crate's own unit test):
   "Hello World test\nnext", untruncated, NFKC-stable, and a fixed point *)
Definition sample_in : list cp :=
  [32; 72; 101; 108; 108; 111; 9; 87; 111; 114; 108; 100; 32; 11; 32; 116; 101; 115; 116; 13; 10; 110; 101; 120; 116].
Definition sample_out : list cp :=
  [72; 101; 108; 108; 111; 32; 87; 111; 114; 108; 100; 32; 116; 101; 115; 116; 10; 110; 101; 120; 116].
Example C33_nonvacuous_whole :
  toy_normalize sample_in 128 = Some (sample_out, false) /\
  toy_nfkc sample_out = sample_out /\
  toy_normalize sample_out 128 = Some (sample_out, false).
Proof. vm_compute. repeat split. Qed.

(* "a\u{301}bcd" with limit 3: "\u{e1}b" (3 bytes), truncated; with limit 1: the first grapheme
   alone (2 bytes > 1), truncated; "e\u{301}x" is not composed by the toy NFKC: the 3-byte
   grapheme "e\u{301}" is returned whole for limit 2 *)
Example C33_nonvacuous_truncated :
  toy_normalize [97; 769; 98; 99; 100] 3 = Some ([225; 98], true) /\
  toy_normalize [97; 769; 98; 99; 100] 1 = Some ([225], true) /\
  toy_normalize [101; 769; 120] 2 = Some ([101; 769], true) /\
  truncate_at_grapheme_boundary toy_graphemes [101; 769; 120; 121] 2 = 3 /\
  truncate_at_grapheme_boundary toy_graphemes [101; 769; 120; 121] 4 = 4 /\
  truncate_at_grapheme_boundary toy_graphemes [101; 769; 120; 121] 9 = 5.
Proof. vm_compute. repeat split. Qed.
