(* C17 At most one writer: the exclusive lock holds for the handle's lifetime.
   The model is Model/LockTable.v (inodes, open file descriptions, flock).  Short proofs stand under the
   statements; what they rest on is in Proofs/LockTableProofs.v.

   run_fixed / step_fixed : the CORRECT protocol (the staging description takes the flock before
     the rename and becomes the handle's lock; an opener re-checks after the grant that the path
     still names the inode it locked; create truncates only under the lock).
   run_impl / step_impl   : what src/lock.rs + with_staging_lock do (self.lock keeps the description
     of the inode the commit replaced; the opener does not re-check; create truncates first).
   Ops: any interleaving, any number of handles, of OpenFd / OpenLock / GiveUp (a blocking open cut at
   the rounds of its retry loop), Open, Create(Fd), TryOpen, Put, Commit, Vacuum, Drop, Kill, Doctor,
   Touch (the in-place writers that issue no flock call) and EnableVec. *)
From MV Require Import Base.Prelude Model.LockTable Proofs.LockTableProofs.
Local Open Scope N_scope.

(* (1) the property, for the correct protocol: after ANY op list at most one live writable handle *)
Theorem C17_one_writer_correct_protocol :
  forall ops : list op, one_writer (run_fixed ops).
Proof.
  intros ops. destruct (inv_fixed_run ops) as [T H]. exact (on_path_one_writer _ T (coherent_on_path _ T H)).
Qed.
Print Assumptions C17_one_writer_correct_protocol.

(* (2) ... and that writer holds the exclusive flock on the inode the path names, writes that inode,
       and its in-memory frame table / log position are exactly that file's *)
Theorem C17_writer_coherent_correct_protocol :
  forall (ops : list op) (w : N) (h : handle),
    s_hs (run_fixed ops) w = Some h -> h_phase h = PLive ->
    let s := run_fixed ops in
    h_lock_mode h = LEx /\ h_lock_ino h = s_dir s /\ h_file_ino h = s_dir s /\
    h_toc h = fst (s_files s (s_dir s)) /\ h_wpos h = length (snd (s_files s (s_dir s))).
Proof. intros ops w h. destruct (inv_fixed_run ops) as [T H]. exact (coherent_live _ T H w h). Qed.
Print Assumptions C17_writer_coherent_correct_protocol.

(* (3) "no commit is lost", correct protocol: in every reachable state a commit (vacuum, drop) keeps
       every frame the path's file held, whoever wrote it; a put appends exactly its record; an
       open / create that is not granted the lock changes no file *)
Theorem C17_commit_keeps_frames_correct_protocol :
  forall (ops : list op) (w : N),
    path_frames (commit_fixed (run_fixed ops) w) = path_frames (run_fixed ops).
Proof.
  intros ops w. destruct (inv_fixed_run ops) as [T I]. set (s := run_fixed ops) in *.
  change (commit_fixed s w) with (commit_of true s w).
  destruct (commit_eq true s w) as [->|(h & c & l & E & P & F & ->)]; [reflexivity|].
  (* the staged table is the handle's own plus the logged frames, and its own is the file's *)
  destruct (coherent_live s T I w h E P) as (_ & _ & Hfi & Htoc & _). rewrite Hfi in F.
  unfold path_frames. cbn. rewrite upd_same, F, Htoc, F. apply app_nil_r.
Qed.
Print Assumptions C17_commit_keeps_frames_correct_protocol.

Theorem C17_put_appends_correct_protocol :
  forall (ops : list op) (w t : N), is_live (run_fixed ops) w = true ->
    path_frames (put (run_fixed ops) w t) = path_frames (run_fixed ops) ++ frames_of [t].
Proof.
  intros ops w t L. destruct (inv_fixed_run ops) as [T I]. set (s := run_fixed ops) in *.
  apply is_live_writable in L as [h [E P]].
  unfold put. rewrite E, P.
  (* the handle writes the path's inode, at the end of its log *)
  destruct (coherent_live s T I w h E P) as (_ & _ & Hfi & _ & Hwp).
  rewrite Hfi. unfold path_frames at 2. destruct (s_files s (s_dir s)) as [c l]. cbn in Hwp.
  unfold path_frames. cbn. rewrite upd_same, Hwp, firstn_all.
  unfold frames_of. rewrite filter_app. apply app_assoc.
Qed.
Print Assumptions C17_put_appends_correct_protocol.

Theorem C17_failed_open_changes_nothing_correct_protocol :
  forall (s : st) (w : N) (creating : bool),
    let s' := open_all open_lock_fixed false creating s w in
    s_hs s w = None -> is_live s' w = false ->
    s_dir s' = s_dir s /\ forall i, s_files s' i = s_files s i.
Proof.
  intros s w creating s' Hn. subst s'. unfold open_all, open_fd. rewrite Hn.
  set (s1 := set_h (add_dom s w) w (Some (fresh_handle s creating))).
  assert (E1 : s_hs s1 w = Some (fresh_handle s creating)) by apply upd_same.
  unfold open_lock_fixed. rewrite E1. cbn [fresh_handle h_phase].
  destruct (try_lock_ex s1 w _) as [h'|] eqn:T.
  - (* granted, on the inode the path names: it went live *)
    apply try_lock_ex_some in T as [_ ->]. cbn [with_ex h_lock_ino]. change (s_dir s1) with (s_dir s).
    rewrite N.eqb_refl, give_up_live, go_live_is_live by apply go_live_is_live. discriminate.
  - intros _. unfold give_up. rewrite E1. split; reflexivity.
Qed.
Print Assumptions C17_failed_open_changes_nothing_correct_protocol.

(* (4) the implementation REFUTES the property: create; commit; open -- two live writers *)
Theorem C17_one_writer_refuted :
  exists ops : list op, ~ one_writer (run_impl ops).
Proof.
  exists witness_two_writers. intros H.
  assert (A : live_writable (run_impl witness_two_writers) 0) by (apply is_live_writable; vm_compute; reflexivity).
  assert (B : live_writable (run_impl witness_two_writers) 1) by (apply is_live_writable; vm_compute; reflexivity).
  pose proof (H 0 1 A B). discriminate.
Qed.
Print Assumptions C17_one_writer_refuted.

(* (5) known class F-C17-1 "a commit has replaced the inode since the handle took its lock":
       stale s = some live handle's flock is on an inode the path no longer names.  Outside it the
       property holds for every op list; in particular for every history without an
       inode-replacing step (commit, vacuum, drop, doctor -- and put: an open that finds log records
       replays them through a staged rename, so create; put; kill; open; open gives two writers) *)
Theorem C17_one_writer_outside_known :
  forall ops : list op, stale (run_impl ops) = false -> one_writer (run_impl ops).
Proof. exact impl_one_writer_outside_known. Qed.
Print Assumptions C17_one_writer_outside_known.

Theorem C17_one_writer_before_any_commit :
  forall ops : list op, forallb quiet_op ops = true -> one_writer (run_impl ops).
Proof.
  intros ops Hq. pose proof (table_ok_impl ops) as T. destruct (unrenamed_run ops Hq) as [Hn _].
  apply (on_path_one_writer _ T).
  (* the inode counter is 1: the path and every lock are on inode 0 *)
  intros w h Hw _. destruct (t_below _ T w h Hw) as [B _]. pose proof (t_dir _ T) as D. lia.
Qed.
Print Assumptions C17_one_writer_before_any_commit.

Theorem C17_replay_on_open_refuted :
  is_live (run_impl witness_replay_on_open) 1 = true /\ is_live (run_impl witness_replay_on_open) 2 = true /\
  stale (run_impl witness_replay_on_open) = true.
Proof. vm_compute. repeat split. Qed.
Print Assumptions C17_replay_on_open_refuted.

(* per inode the lock does work in the implementation: two live handles whose flocks are on the
   same inode are the same handle *)
Theorem C17_one_writer_per_inode :
  forall (ops : list op) (w1 w2 : N) (h1 h2 : handle),
    s_hs (run_impl ops) w1 = Some h1 -> s_hs (run_impl ops) w2 = Some h2 ->
    h_phase h1 = PLive -> h_phase h2 = PLive -> h_lock_ino h1 = h_lock_ino h2 -> w1 = w2.
Proof. intros ops w1 w2 h1 h2. apply one_writer_per_inode, table_ok_impl. Qed.
Print Assumptions C17_one_writer_per_inode.

(* the writer's critical section contains no unlock: in every reachable state of the implementation
   model every live handle still holds the exclusive flock its open was granted (flock state belongs
   to the open file description; a LOCK_UN through a dup / try_clone of one of its descriptors would
   release it -- Model.LockTable.unlock_description).  The harness checks the same on the real
   process: strace of a writer shows no flock(LOCK_UN) on the memory file before its close. *)
Theorem C17_writer_lock_never_released :
  forall (ops : list op) (w : N) (h : handle),
    s_hs (run_impl ops) w = Some h -> h_phase h = PLive -> h_lock_mode h = LEx.
Proof. intros ops w h Hw. exact (proj1 (t_held _ (table_ok_impl ops) w h Hw)). Qed.
Print Assumptions C17_writer_lock_never_released.

(* ... and what a violation of it does (NOT the implementation: a temporary
   FileLock::acquire(&self.file) guard inside begin_batch / log growth, before the first commit):
   the guard's drop unlocks the writer's own description, a second open is granted on the SAME
   inode -- outside the known class *)
Theorem C17_guard_on_clone_admits_second_writer :
  let s := touch_with_temporary_guard (run_impl before_guard) 0 in
  forallb (fun o => match o with Commit _ | Vacuum _ | Drop _ | Doctor _ => false | _ => true end) before_guard = true /\
  is_live (step_impl (run_impl before_guard) (Open 1)) 1 = false /\
  (exists h, s_hs s 0 = Some h /\ h_phase h = PLive /\ h_lock_mode h = LNone) /\
  stale s = false /\
  is_live (step_impl s (Open 1)) 0 = true /\ is_live (step_impl s (Open 1)) 1 = true.
Proof. vm_compute. repeat split. eexists. repeat split. Qed.
Print Assumptions C17_guard_on_clone_admits_second_writer.

(* the correct protocol never enters the known class *)
Theorem C17_correct_protocol_never_stale : forall ops : list op, stale (run_fixed ops) = false.
Proof.
  intros ops. destruct (inv_fixed_run ops) as [T H]. exact (proj2 (stale_false_iff _ (t_dom _ T)) (coherent_on_path _ T H)).
Qed.
Print Assumptions C17_correct_protocol_never_stale.

(* (6) the consequence "no commit can be silently lost to a concurrent writer" REFUTED:
       A opens, puts 1, commits; B opens successfully; A puts 2, commits (on file: [1;2]);
       B puts 3, commits: the file holds [1;3]; a later reopen shows [1;3] *)
Theorem C17_commit_lost_refuted :
  is_live (run_impl (firstn 4 witness_lost_commit)) 1 = true /\
  path_frames (run_impl (firstn 6 witness_lost_commit)) = [1; 2] /\
  path_frames (run_impl witness_lost_commit) = [1; 3] /\
  path_frames (run_impl (witness_lost_commit ++ [Drop 0; Drop 1; Open 2])) = [1; 3] /\
  path_frames (run_fixed witness_lost_commit) = [1; 2].
Proof. vm_compute. repeat split. Qed.
Print Assumptions C17_commit_lost_refuted.

(* same class, one live writer at a time: an opener waiting in the retry loop is granted the lock
   on the replaced inode after A commits twice and closes; its commit discards A's second commit *)
Theorem C17_waiting_opener_loses_commit_refuted :
  path_frames (run_impl (firstn 8 witness_waiter)) = [1; 2] /\
  is_live (run_impl (firstn 9 witness_waiter)) 1 = true /\
  path_frames (run_impl witness_waiter) = [1; 3] /\
  path_frames (run_fixed (witness_waiter ++ [OpenLock 1; Put 1 3; Commit 1])) = [1; 2; 3].
Proof. vm_compute. repeat split. Qed.
Print Assumptions C17_waiting_opener_loses_commit_refuted.

(* (7) known class F-C17-2 "create truncates before it locks": a Memvid::create that FAILS on the
       lock has already emptied the live writer's file *)
Theorem C17_failed_create_destroys_refuted :
  is_live (run_impl witness_failed_create) 1 = false /\
  path_frames (run_impl (firstn 3 witness_failed_create)) = [7; 8] /\
  path_frames (run_impl witness_failed_create) = [].
Proof. vm_compute. repeat split. Qed.
Print Assumptions C17_failed_create_destroys_refuted.

(* Non-vacuity: a history that exercises the hypotheses -- the lock refuses a second writer before
   the first commit (model of the implementation), state not in the known class, one writer *)
Example C17_nonvacuous_outside_known :
  let ops := [Create 0; Open 1; TryOpen 2; OpenFd 3; OpenLock 3; Kill 0; OpenLock 3; Open 1] in
  stale (run_impl ops) = false /\ forallb quiet_op ops = true /\
  is_live (run_impl (firstn 5 ops)) 0 = true /\ is_live (run_impl (firstn 5 ops)) 1 = false /\
  is_live (run_impl (firstn 5 ops)) 2 = false /\ is_live (run_impl (firstn 5 ops)) 3 = false /\
  is_live (run_impl ops) 3 = true /\ is_live (run_impl ops) 1 = false.
Proof. vm_compute. repeat split. Qed.

(* ... and one of the correct protocol in which the second opener waits, the writer commits twice
   and closes, and the waiter then gets in, sees everything, and nothing is lost *)
Example C17_nonvacuous_correct_protocol :
  let ops := [Create 0; OpenFd 1; OpenLock 1; Put 0 1; Commit 0; Put 0 2; Commit 0; OpenLock 1; Drop 0;
              OpenLock 1; OpenLock 1; Put 1 3; Commit 1] in
  is_live (run_fixed (firstn 8 ops)) 1 = false /\ is_live (run_fixed ops) 1 = true /\
  path_frames (run_fixed ops) = [1; 2; 3] /\ stale (run_impl witness_two_writers) = true.
Proof. vm_compute. repeat split. Qed.
