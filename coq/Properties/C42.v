(* C42 Vacuum compacts without changing content.
   Short proofs and non-vacuity examples stand under the statements; what they rest on is in
   Proofs/VacuumProofs.v; the model is Model/Vacuum.v
   (Memvid::vacuum line by line at byte level; doctor's VacuumCompaction action is the same function
   followed by the Finalize commit).  Crash safety of the in-place rewrite is not stated here, nor proved
   anywhere: C02 leaves vacuum's in-place path to kill enumeration on the real code.
   store_inv, share_or_disjoint, all_disjoint and kept are defined in Proofs/VacuumProofs.v. *)
From MV Require Import Base.Prelude Model.Vacuum Proofs.VacuumProofs.
Local Open Scope N_scope.

(* (1) The in-place rewrite itself (read phase, then write phase) never changes content, for EVERY table
       meeting the invariant -- overlapping or shared windows included: all reads precede the first
       write, later writes land after the windows already written. *)
Theorem C42_rewrite_preserves_content :
  forall st, store_inv st ->
  exists st1, rewrite st = Ok st1 /\
    Forall2 (kept st st1) (vs_frames st) (vs_frames st1) /\
    vs_frames st1 = relocate (vs_frames st) (vs_start st) /\
    vs_data_end st1 = vs_start st + active_bytes (vs_frames st) /\
    vs_start st1 = vs_start st /\ vs_cpe st1 = vs_data_end st1 /\ vs_footer st1 = vs_footer st /\
    vs_lex st1 = vs_lex st /\ vs_vec st1 = vs_vec st /\ vs_pending st1 = vs_pending st /\
    vs_data_end st1 <= file_len st1 /\ file_len st <= file_len st1.
Proof. exact rewrite_correct. Qed.
Print Assumptions C42_rewrite_preserves_content.

(* (2) The property: vacuum INCLUDING its index rebuild (any index image), for EVERY state meeting the
       invariant, with no side condition: vacuum succeeds, every frame is kept (content, id, metadata,
       status; inactive frames get (0,0) and stay inactive), cached_payload_end = data start + active
       bytes (so later appends and the index image start after the last payload), no log record is left
       pending, and the invariant holds again.  (Before fix f791181 this failed for tables with shared
       windows: Proofs/VacuumProofs.v historical_stale_cpe_refutation, finding F-C42-1, now fixed.) *)
Theorem C42_vacuum_preserves_content :
  forall st ix, store_inv st ->
  exists st', vacuum st ix = Ok st' /\
    Forall2 (kept st st') (vs_frames st) (vs_frames st') /\
    vs_frames st' = relocate (vs_frames st) (vs_start st) /\
    vs_start st' = vs_start st /\
    vs_cpe st' = vs_start st + active_bytes (vs_frames st) /\
    vs_data_end st' <= vs_cpe st' /\
    vs_footer st <= vs_footer st' /\
    vs_pending st' = 0 /\
    store_inv st'.
Proof.
  (* vacuum is vacuum_core followed by a checkpoint, which touches the pending count only *)
  intros st ix Hi. destruct (vacuum_core_correct st ix Hi) as (s & Hv & Hall & Ht & Hs & Hc & Hd & Hf & Hinv).
  exists (checkpoint s). unfold vacuum. rewrite Hv. split; [reflexivity|].
  split; [exact Hall|].
  split; [exact Ht|]. split; [exact Hs|]. split; [exact Hc|]. split; [exact Hd|]. split; [exact Hf|].
  split; [reflexivity|]. apply store_inv_checkpoint; exact Hinv.
Qed.
Print Assumptions C42_vacuum_preserves_content.

(* (3) Layout: row i of the new table is the old row with window (data start + lengths of the active
       frames before it, old length) if active -- a zero-length active frame (chunked parent) gets the
       running end and length 0 -- and (0, 0) if inactive.  Non-empty active windows are pairwise
       disjoint afterwards and lie in [data start, cached_payload_end']: two active frames that shared one
       window before each get their own copy (the bytes ARE duplicated; harmless now that the index
       image starts after the last copy). *)
Theorem C42_layout_contiguous :
  forall st ix, store_inv st ->
  exists st', vacuum st ix = Ok st' /\
    (forall i f, nth_error (vs_frames st) i = Some f ->
       nth_error (vs_frames st') i =
         Some (if vf_active f
               then set_window f (vs_start st + active_bytes (firstn i (vs_frames st))) (vf_len f)
               else set_window f 0 0)) /\
    pairwise win_disjoint (live (vs_frames st')) /\
    (forall f', In f' (live (vs_frames st')) ->
       vs_start st <= vf_off f' /\ vf_off f' + vf_len f' <= vs_cpe st') /\
    vs_cpe st' = vs_start st + active_bytes (vs_frames st).
Proof.
  intros st ix Hi. destruct (C42_vacuum_preserves_content st ix Hi) as (st' & Hv & _ & Ht & _ & Hc & _).
  exists st'. split; [exact Hv|]. rewrite Ht, Hc. split; [|split; [|split]].
  - intros i f Hn. apply relocate_nth; exact Hn.
  - apply relocate_disjoint.
  - apply relocate_in_range.
  - reflexivity.
Qed.
Print Assumptions C42_layout_contiguous.

(* (4) Without window sharing (pairwise disjoint active windows) the payload region does not grow: the
       payloads end at or before any bound all old windows respected. *)
Theorem C42_payload_region_does_not_grow :
  forall st ix E, store_inv st -> all_disjoint st -> vs_start st <= E ->
  (forall f, In f (live (vs_frames st)) -> vf_off f + vf_len f <= E) ->
  exists st', vacuum st ix = Ok st' /\ vs_cpe st' <= E.
Proof.
  intros st ix E Hi Hd Hse Hin. destruct (C42_vacuum_preserves_content st ix Hi) as (st' & Hv & _ & _ & _ & Hc & _).
  exists st'. split; [exact Hv|]. rewrite Hc, active_bytes_live.
  (* the old windows are pairwise disjoint inside [data start, E] *)
  enough (total_len (live (vs_frames st)) <= E - vs_start st) by lia.
  apply (disjoint_total_le _ vf_off); [exact Hd|].
  intros f Hf. split; [|apply Hin; exact Hf].
  apply live_In in Hf as (Hf1 & Ha & Hn).
  destruct (inv_bounds st Hi f Hf1 Ha) as [H0|(_ & M2 & _)]; [contradiction|exact M2].
Qed.
Print Assumptions C42_payload_region_does_not_grow.

(* (5) What search, timeline and the index rebuild read of the table (id, status, role, metadata tag,
       index-text flag) is unchanged, so the rebuilt Tantivy document set (active frames with text), the
       time index (active Document frames) and ANY other function of that view are the same. *)
Theorem C42_views_unchanged :
  forall st ix, store_inv st ->
  exists st', vacuum st ix = Ok st' /\
    table_view (vs_frames st') = table_view (vs_frames st) /\
    lex_docs (vs_frames st') = lex_docs (vs_frames st) /\
    time_entries (vs_frames st') = time_entries (vs_frames st) /\
    (forall (A : Type) (rebuild_from : list (N * N * N * N * bool) -> A),
        rebuild_from (table_view (vs_frames st')) = rebuild_from (table_view (vs_frames st))).
Proof.
  intros st ix Hi. destruct (C42_vacuum_preserves_content st ix Hi) as (st' & Hv & _ & Ht & _).
  exists st'. split; [exact Hv|]. rewrite Ht.
  destruct (relocate_index_sets (vs_frames st) (vs_start st)) as (V1 & V2 & V3).
  repeat split; try assumption. intros A g. rewrite V1. reflexivity.
Qed.
Print Assumptions C42_views_unchanged.

(* (6) "Verifies as Passed": no log record is pending after vacuum() (the lex batch record appended by the
       index rebuild is checkpointed since fix 4c0da7f; before it verify failed with one pending record:
       Proofs/VacuumProofs.v historical_verify_failed_before_4c0da7f, finding F-C42-2, now fixed), nor
       after doctor's vacuum.  verify's remaining checks decode the index images (oracles). *)
Theorem C42_verify_after_vacuum :
  forall st ix st', vacuum st ix = Ok st' -> verify_passed st' = true.
Proof.
  intros st ix st'. unfold vacuum. destruct (vacuum_core st ix); try discriminate.
  intros H. injection H as <-. reflexivity.
Qed.
Print Assumptions C42_verify_after_vacuum.

Theorem C42_verify_after_doctor_vacuum :
  forall st ix again st', doctor_vacuum st ix again = Ok st' -> verify_passed st' = true.
Proof.
  intros st ix again st'. unfold doctor_vacuum. destruct (vacuum st ix); try discriminate.
  intros H. injection H as <-. reflexivity.
Qed.
Print Assumptions C42_verify_after_doctor_vacuum.

(* (7) Observation, not part of the property: vacuum never gives FILE space back -- the footer offset
       (where the TOC is written) does not decrease (footer_offset is a max of the old value and the end of
       the new index image), so "compacts" is a statement about the payload region ((3), (4)) only. *)
Theorem C42_file_never_shrinks :
  forall st ix st', vacuum st ix = Ok st' -> vs_footer st <= vs_footer st'.
Proof.
  intros st ix st'. unfold vacuum, vacuum_core.
  destruct (rewrite (checkpoint st)) as [st1| |] eqn:Hr; try discriminate.
  intros H. injection H as <-. destruct (rebuild_fields st1 ix) as (_ & _ & _ & Hf & _).
  destruct (rewrite_fields _ _ Hr) as (Hfo & _). rewrite Hfo in Hf. exact Hf.
Qed.
Print Assumptions C42_file_never_shrinks.

(* a deleted frame, an active frame, a zero-length active frame (chunked parent), a superseded frame and
   the active frame that reuses its window (payload-less update) *)
Definition ex_frames : list vframe :=
  [mkVF 0 2 100 5 0 20 true; mkVF 1 0 105 3 0 21 true; mkVF 2 0 108 0 0 22 true;
   mkVF 3 1 108 2 0 23 false; mkVF 4 0 108 2 1 24 false].
Definition ex : vstate := mkVS 100 ex_frames [1; 1; 1; 1; 1; 2; 3; 4; 5; 6; 60; 61] 110 110 110 true true 3.

Example C42_nonvacuous_inv : store_inv ex /\ all_disjoint ex /\ share_or_disjoint ex.
Proof.
  split; [|split].
  - constructor; cbn [ex vs_frames vs_data_end vs_cpe vs_start ex_frames map vf_id].
    + repeat constructor; cbn; intuition discriminate.
    + (* the three active frames, in table order; frame 2 is empty *)
      intros f [<-|[<-|[<-|[<-|[<-|[]]]]]] Ha; try discriminate Ha.
      * right. unfold MAX_FRAME_BYTES. cbn. lia.
      * left. reflexivity.
      * right. unfold MAX_FRAME_BYTES. cbn. lia.
    + unfold file_len; cbn; lia.
  - (* the live frames are 1 and 4: 105+3 <= 108 *)
    unfold all_disjoint. cbn. split.
    + intros y [<-|[]]. left. cbn. lia.
    + split; [intros y []|exact I].
  - unfold share_or_disjoint. cbn. split.
    + intros y [<-|[]]. right. left. cbn. lia.
    + split; [intros y []|exact I].
Qed.

Example C42_nonvacuous_run :
  exists st', vacuum ex [8; 8] = Ok st' /\
    map (fun f => (vf_id f, vf_status f, vf_off f, vf_len f)) (vs_frames st') =
      [(0, 2, 0, 0); (1, 0, 100, 3); (2, 0, 103, 0); (3, 1, 0, 0); (4, 0, 103, 2)] /\
    map (frame_bytes st') (vs_frames st') = [[]; [2; 3; 4]; []; []; [5; 6]] /\
    vs_data_end st' = 105 /\ vs_cpe st' = 105 /\ vs_pending st' = 0 /\ verify_passed st' = true.
Proof. eexists. split; [vm_compute; reflexivity|]. vm_compute. repeat split; reflexivity. Qed.

(* the former F-C42-1 witness (frames 1 and 2 share superseded frame 0's window): each gets its own copy,
   both read the shared bytes, and the index image starts after the second copy *)
Example C42_shared_window_regression :
  store_inv wit /\ share_or_disjoint wit /\
  exists st', vacuum wit wit_ix = Ok st' /\
    map (fun f => (vf_id f, vf_off f, vf_len f)) (vs_frames st') = [(0, 0, 0); (1, 100, 4); (2, 104, 4)] /\
    map (frame_bytes st') (vs_frames st') = [[]; [1; 2; 3; 4]; [1; 2; 3; 4]] /\
    vs_cpe st' = 108 /\ vs_data_end st' = 108.
Proof.
  split; [|split].
  - constructor; cbn [wit vs_frames vs_data_end vs_cpe vs_start wit_frames map vf_id].
    + repeat constructor; cbn; intuition discriminate.
    + intros f [<-|[<-|[<-|[]]]] Ha; try discriminate Ha; right; unfold MAX_FRAME_BYTES; cbn; lia.
    + unfold file_len; cbn; lia.
  - unfold share_or_disjoint. cbn. split; [|split; [|exact I]].
    + intros y [<-|[]]. left. split; reflexivity.
    + intros y [].
  - eexists. split; [vm_compute; reflexivity|]. vm_compute. repeat split; reflexivity.
Qed.
