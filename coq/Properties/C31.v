(* C31 Footer scan finds the most recent valid commit.
   Statements only; proofs live in Proofs/FooterProofs.v. *)
From MV Require Import Base.Prelude Model.Footer Proofs.FooterProofs.
Require MV.Gen.Consts.

(* (1) the scan returns a slice exactly when it is the slice of the valid footer
       (56 bytes in range, magic, 0 < toc_len <= position, H(toc) = toc_hash)
       at the greatest position. *)
Theorem C31_scan_returns_last_valid :
  forall (H : bytes -> bytes) (b : bytes) (s : footer_slice),
    find_last_valid_footer H b = Some s <->
    exists pos, valid_at H b pos = true /\ slice_at b pos = Some s /\
                forall q, valid_at H b q = true -> q <= pos.
Proof. exact find_last_valid_footer_some. Qed.
Print Assumptions C31_scan_returns_last_valid.

(* (2) it returns nothing exactly when no position holds a valid footer. *)
Theorem C31_scan_none_iff_no_valid :
  forall (H : bytes -> bytes) (b : bytes),
    find_last_valid_footer H b = None <-> forall q, valid_at H b q = false.
Proof. exact find_last_valid_footer_none. Qed.
Print Assumptions C31_scan_none_iff_no_valid.

(* (3) the TOC bytes returned are exactly the bytes that footer describes. *)
Theorem C31_toc_bytes_are_described :
  forall (b : bytes) (pos : nat) (s : footer_slice),
    slice_at b pos = Some s ->
    fs_footer_offset s = pos /\
    footer_decode (slice b pos FOOTER_SIZE) = Some (fs_footer s) /\
    fs_toc_offset s = pos - N.to_nat (toc_len (fs_footer s)) /\
    fs_toc_bytes s = slice b (fs_toc_offset s) (N.to_nat (toc_len (fs_footer s))).
Proof. exact slice_at_describes. Qed.
Print Assumptions C31_toc_bytes_are_described.

(* (4) footer codec round trip (restated in C30). *)
Theorem C31_footer_roundtrip :
  forall f, (toc_len f < 2 ^ 64)%N -> (generation f < 2 ^ 64)%N -> length (toc_hash f) = 32 ->
            footer_decode (footer_encode f) = Some f.
Proof. exact footer_decode_encode. Qed.
Print Assumptions C31_footer_roundtrip.

(* Non-vacuity: a concrete buffer with two valid footers and stray 'M' bytes between them, inside
   the second TOC and after the last footer;
   H is a toy hash (sum of bytes repeated) -- the theorems hold for every H. *)
Definition toyH (x : bytes) : bytes := repeat (fold_left N.add x 0%N mod 256)%N 32.
Definition mk (toc : bytes) (g : N) : bytes :=
  toc ++ footer_encode (mkFooter (N.of_nat (length toc)) (toyH toc) g).
Definition sample : bytes := mk [1;2;3]%N 1 ++ [77;77]%N ++ mk [9;9;77;4]%N 2 ++ [77;0;1]%N.

Example C31_nonvacuous :
  exists s, find_last_valid_footer toyH sample = Some s /\
            fs_footer_offset s = 65 /\ generation (fs_footer s) = 2%N /\
            fs_toc_bytes s = [9;9;77;4]%N /\ valid_at toyH sample 3 = true.
Proof. eexists. vm_compute. repeat split. Qed.

(* (5) the model's constants equal those extracted from src/footer.rs into Gen/Consts.v. *)
Theorem C31_consts_tied :
  FOOTER_MAGIC = MV.Gen.Consts.FOOTER_MAGIC /\ N.of_nat FOOTER_SIZE = MV.Gen.Consts.FOOTER_SIZE.
Proof. split; reflexivity. Qed.
Print Assumptions C31_consts_tied.
