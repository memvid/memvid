(* C32 Query language is total and means what it says.
   Short proofs stand under the statements; what they rest on is in Proofs/QueryProofs.v.
   The model (Model/Query.v) follows src/search/parser.rs and src/search/mod.rs;
   alnum = char::is_alphanumeric and parse_date = parse_date_value are arbitrary functions in
   every theorem.
   parse_query returns (Ok AST | Err kind | Panic, stack depth in parser frames).
   (1)-(6) are the totality half of the property, (7)-(10) the meaning half. *)
From Coq Require Import String Ascii.
From MV Require Import Base.Prelude Model.Query Proofs.QueryProofs.

(* (1) The lexer, given fuel = length of the text, never runs out of fuel: Ok tokens or an
       InvalidQuery kind, for every text. *)
Theorem C32_lexer_total :
  forall (q : str), no_panic (tokenize (length q) q).
Proof. intros q. apply tokenize_no_panic. apply le_n. Qed.
Print Assumptions C32_lexer_total.

(* (2) Lexer + parser: for EVERY text (unbalanced, nested, arbitrary code points) the result
       is Ok or Err (an InvalidQuery kind), never Panic / out of fuel, with the fuel that
       parse_query itself computes: length q for the lexer, 4*tokens+4 for the parser. *)
Theorem C32_parse_total :
  forall (alnum : N -> bool) (parse_date : str -> option Z) (q : str),
    no_panic (fst (parse_query alnum parse_date q)).
Proof. exact parse_query_total. Qed.
Print Assumptions C32_parse_total.

(* (3) That fuel is linear in the length of the text. *)
Theorem C32_fuel_linear :
  forall (q : str) (ts : list token),
    tokenize (length q) q = Ok ts -> parser_fuel ts <= 4 * length q + 4.
Proof.
  intros q ts H. pose proof (Facts.post_ok (tokenize_post _ q) H) as Hl. cbn beta in Hl.
  unfold parser_fuel. lia.
Qed.
Print Assumptions C32_fuel_linear.

(* (4) The number of nested parser frames is at most 4 per '(' or NOT token + 4.
       (QueryProofs.parser_inv has the tighter 4 per '(' + 1 per NOT + 4, through stack_room;
       not_chain below shows the gap: 64 NOTs reach 68 frames, not 260.) *)
Theorem C32_depth_bound :
  forall alnum parse_date (q : str),
    snd (parse_query alnum parse_date q) <= 4 * nest_weight q + 4.
Proof. intros alnum parse_date q. destruct (parse_query_inv alnum parse_date q) as [_ H]. lia. Qed.
Print Assumptions C32_depth_bound.

(* (5) The depth limit (commit 932224c: MAX_QUERY_DEPTH = 64 nested '(' / NOT, then
       InvalidQuery "query nesting too deep") makes the full statement true: for EVERY text
       the result is Ok or an InvalidQuery kind, never Panic / out of fuel, AND the parser
       never has more than 4*MAX_QUERY_DEPTH+4 = 260 nested frames on the stack.
       (Before the fix the depth was 4n+4 on n pairs of parentheses, unbounded; 20000 pairs
       aborted the process.) *)
Theorem C32_parse_total_stack_bounded :
  forall (alnum : N -> bool) (parse_date : str -> option Z) (q : str),
    no_panic (fst (parse_query alnum parse_date q)) /\
    snd (parse_query alnum parse_date q) <= 4 * MAX_QUERY_DEPTH + 4.
Proof.
  intros alnum parse_date q. destruct (parse_query_inv alnum parse_date q) as [Hn Hd].
  split; [exact Hn | lia].
Qed.
Print Assumptions C32_parse_total_stack_bounded.

(* (6) The model's limit is the constant in src/search/parser.rs (Gen/Consts.v is regenerated
       from it each run). *)
Theorem C32_depth_limit_tied :
  N.of_nat MAX_QUERY_DEPTH = MV.Gen.Consts.MAX_QUERY_DEPTH /\ 4 * MAX_QUERY_DEPTH + 4 = 260.
Proof. split; [exact max_query_depth_tied | reflexivity]. Qed.
Print Assumptions C32_depth_limit_tied.

(* the boundary, computed: 64 levels are accepted and reach the bound, 65 are rejected *)
Definition asc (c : N) : bool :=
  ((48 <=? c) && (c <=? 57) || (65 <=? c) && (c <=? 90) || (97 <=? c) && (c <=? 122))%N.
Definition nodate (_ : str) : option Z := None.
Definition not_chain (n : nat) : str := concat (repeat [78; 79; 84; 32]%N n) ++ [120%N].
Example C32_depth_limit_boundary :
  parse_query asc nodate (nested_query 64) = (Ok (ETerm (TWord [120%N])), 260) /\
  parse_query asc nodate (nested_query 65) = (Err E_TOO_DEEP, 260) /\
  parse_query asc nodate (nested_query 2000) = (Err E_TOO_DEEP, 260) /\
  snd (parse_query asc nodate (not_chain 64)) = 68 /\
  parse_query asc nodate (not_chain 65) = (Err E_TOO_DEEP, 67).
Proof. vm_compute. repeat split; reflexivity. Qed.

(* (7) The evaluator decides the reference semantics: OR = some operand, AND = every operand,
       NOT = negation, word/phrase = the ASCII-lower-cased text is a substring of the content,
       uri/track/tag/label = equality ignoring ASCII case, scope = prefix of the uri,
       date range = some candidate timestamp inside the inclusive range. *)
Theorem C32_eval_is_reference_semantics :
  forall parse_date (e : expr) (d : doc),
    eval parse_date e d = true <-> sem parse_date e d.
Proof. exact eval_sem. Qed.
Print Assumptions C32_eval_is_reference_semantics.

(* (8) Precedence, token level: print any well-formed expression with parentheses only where
       NOT > AND > OR requires them (AND written or implicit); the parser consumes all the
       tokens and returns an expression with the same match decision on every document.
       nd 0 e = the nesting of parentheses and NOTs in the printed form; it must fit under
       the depth limit (otherwise the parser rejects the text, by design). *)
Theorem C32_precedence_tokens :
  forall alnum parse_date (explicit : bool) (e : expr),
    wf alnum e -> nd 0 e <= MAX_QUERY_DEPTH ->
    exists e' depth,
      parse_expression alnum parse_date (parser_fuel (print_tokens explicit e)) 0 (print_tokens explicit e)
        = (Ok (e', []), depth) /\
      forall d, eval parse_date e' d = eval parse_date e d.
Proof.
  intros alnum parse_date explicit e Hw Hn.
  exists (norm e), (snd (parse_nt alnum parse_date NExpr 0 (print_tokens explicit e))).
  split; [|intros d; apply eval_norm].
  (* parse_nt .. NExpr 0 ts is parse_expression .. (parser_fuel ts) 0 ts *)
  rewrite <- (parse_print_norm alnum parse_date explicit e Hw Hn). apply surjective_pairing.
Qed.
Print Assumptions C32_precedence_tokens.

(* (9) The same for text, through the lexer: eval (parse (print e)) d = sem e d.
       Hypotheses: operand lists non-empty and every term printable (wf: its token is
       turned back into the same term), and every term's text survives the lexer (terms_ok:
       no quote inside, words without whitespace/parentheses/colon and not a keyword).
       Date ranges are not printable (their text goes through the date oracle): _partial
       in that respect only. *)
Theorem C32_print_parse_sem_partial :
  forall alnum parse_date (explicit : bool) (e : expr),
    wf alnum e -> terms_ok e = true -> nd 0 e <= MAX_QUERY_DEPTH ->
    exists e' depth,
      parse_query alnum parse_date (print explicit e) = (Ok e', depth) /\
      forall d, eval parse_date e' d = true <-> sem parse_date e d.
Proof.
  intros alnum parse_date explicit e Hw Hok Hn.
  exists (norm e), (snd (parse_query alnum parse_date (print explicit e))). split.
  - rewrite <- (parse_query_print alnum parse_date explicit e Hw Hok Hn). apply surjective_pairing.
  - intros d. rewrite eval_norm. apply eval_sem.
Qed.
Print Assumptions C32_print_parse_sem_partial.

(* (10) A sufficient condition for a word to be printable: alphanumeric at both ends,
        no upper-case ASCII, no '*' or '?'. *)
Theorem C32_plain_words_printable :
  forall alnum (w : str), plain_word alnum w = true -> from_word alnum w = TWord w.
Proof. exact plain_word_from_word. Qed.
Print Assumptions C32_plain_words_printable.

Fixpoint cp (s : string) : str :=
  match s with EmptyString => [] | String a r => N_of_ascii a :: cp r end.

(* alpha OR (beta AND NOT (gamma OR "two words") AND tag:"red") OR NOT mach*ne *)
Definition sample : expr :=
  EOr [ETerm (TWord (cp "alpha"));
       EAnd [ETerm (TWord (cp "beta"));
             ENot (EOr [ETerm (TWord (cp "gamma")); ETerm (TPhrase (cp "two words"))]);
             ETerm (TTag (cp "red"))];
       ENot (ETerm (TWild (cp "mach*ne")))].

Example C32_sample_wf : wf asc sample /\ terms_ok sample = true /\ nd 0 sample = 2.
Proof. split; [|split; reflexivity]. repeat (constructor; try discriminate); vm_compute; reflexivity. Qed.

Example C32_sample_text :
  print true sample = cp "alpha OR beta AND NOT ( gamma OR ""two words"" ) AND tag:""red"" OR NOT mach*ne " /\
  print false sample = cp "alpha OR beta NOT ( gamma OR ""two words"" ) tag:""red"" OR NOT mach*ne ".
Proof. vm_compute. split; reflexivity. Qed.

Example C32_sample_roundtrip :
  fst (parse_query asc nodate (print false sample)) = Ok sample /\
  fst (parse_query asc nodate (print true sample)) = Ok sample.
Proof. vm_compute. split; reflexivity. Qed.

(* precedence on raw text: NOT binds tighter than AND, AND (written or implicit) tighter than OR *)
Example C32_precedence_example :
  fst (parse_query asc nodate (cp "a OR b AND NOT c d")) =
  Ok (EOr [ETerm (TWord (cp "a"));
           EAnd [ETerm (TWord (cp "b")); ENot (ETerm (TWord (cp "c"))); ETerm (TWord (cp "d"))]]).
Proof. vm_compute. reflexivity. Qed.

(* totality on malformed text: error kinds, not panics; and a word satisfying (10) *)
Example C32_malformed_examples :
  fst (parse_query asc nodate (cp "((a")) = Err E_EXPECTED_RPAREN /\
  fst (parse_query asc nodate (cp "a AND")) = Err E_UNEXPECTED_END /\
  fst (parse_query asc nodate (cp "tag:""x")) = Err E_UNTERMINATED_QUOTE /\
  fst (parse_query asc nodate (cp ") a")) = Err E_UNEXPECTED_TOKEN /\
  plain_word asc (cp "test-word") = true /\
  nest_weight (cp "((a) NOT b)") = 3.
Proof. vm_compute. repeat split; reflexivity. Qed.

(* a document on which the sample matches: not through alpha, but through each of the other
   two disjuncts *)
Definition sample_doc : doc :=
  mkDoc (Some (cp "mv2://docs/a")) None [cp "Red"] [] 0%Z [] (cp "beta delta machine").
Example C32_sample_eval :
  eval nodate sample sample_doc = true /\
  eval nodate (EOr [ETerm (TWord (cp "alpha")); ENot (ETerm (TWild (cp "mach*ne")))]) sample_doc = true /\
  eval nodate (ETerm (TWord (cp "gamma"))) sample_doc = false.
Proof. vm_compute. repeat split; reflexivity. Qed.
