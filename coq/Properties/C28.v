(* C28 Persisted indexes answer exactly like the in-memory ones.
   Model: Model/Persist.v (file image of the Tantivy documents / vector index / time index / sketch
   track; Memvid::open, open_read_only, doctor build the handle from the image only; instant_index's
   temporary documents) on top of Model/Reads.v (C08: which in-memory set each commit path updates)
   and Model/Store.v (frame table).  Vector index and time index also on their own models:
   Model/VecStore.v (C14), Model/Timeline.v (C15).  Short proofs stand under the statements; what they
   rest on is in Proofs/PersistProofs.v and, for the last two models, Proofs/PersistImports.v. *)
From MV Require Import Base.Prelude Model.Store Model.Reads Proofs.ReadsProofs Model.Persist Proofs.PersistProofs Proofs.PersistImports.
Local Open Scope N_scope.

(* 1. For EVERY history (puts plain / chunked / embedded / instant-indexed, updates, deletes, commits,
   reopen, crash + replay, every timing of automatic checkpoints) that ends fully committed: the
   handle reopened read-write, the read-only handle and the handle opened after
   doctor{rebuild_lex_index, rebuild_time_index, rebuild_vec_index} (any subset) hold the frame table,
   the Tantivy documents, the vector index and the time index of the live handle; vector search is
   enabled exactly when it is on the live handle -- except that rebuild_vec_index leaves it enabled
   (with the same, possibly empty, index); their sketch track is the live one written and read back. *)
Theorem C28_reopened_handles_hold_the_live_indexes :
  forall ops extra lexf timef vecf,
    let p := fst (prun pstore0 ops) in
    Quiet p ->
    same_idx (handle_rw p extra) (handle_live p) /\
    same_idx (handle_ro p) (handle_live p) /\
    (let h := handle_doctor p lexf timef vecf in
     v_frames h = v_frames (handle_live p) /\ v_lex h = v_lex (handle_live p) /\ v_vec h = v_vec (handle_live p) /\
     v_tix h = v_tix (handle_live p) /\ v_vec_on h = vecf || v_vec_on (handle_live p)) /\
    ((vecf = true -> v_vec_on (handle_live p) = true) -> same_idx (handle_doctor p lexf timef vecf) (handle_live p)) /\
    v_sk (handle_rw p extra) = sk_read (sk_written (sk p)) /\
    v_sk (handle_ro p) = sk_read (sk_written (sk p)) /\
    v_sk (handle_doctor p lexf timef vecf) = sk_read (sk_written (sk p)).
Proof.
  intros ops extra lexf timef vecf p HQ. pose proof (prun_inv ops) as HP. fold p in HP.
  destruct (reopen_same p extra HP HQ) as [Hrw Hrw_sk]. destruct (readonly_same p HP HQ) as [Hro Hro_sk].
  destruct (doctor_sets p lexf timef vecf HP HQ) as (Dfr & Dlex & Dvec & Dtix & Don & Dsk).
  split; [exact Hrw|]. split; [exact Hro|]. split; [cbv zeta; tauto|]. split; [|tauto].
  intros Hv. apply (doctor_same p lexf timef vecf HP HQ Hv).
Qed.
Print Assumptions C28_reopened_handles_hold_the_live_indexes.

(* 2. Hence equal answers.  The engines are oracles that answer from what the handle holds (Tantivy's
   search over the engine's documents with the optional frame filter, the per-hit post-evaluation,
   the sketch test of one entry, the vector ranking): search, vector search and timeline return the
   same lists on all four handles -- outside the class of F-C39-1 (pre-filter used and sketch ids
   not 0,1,2,..).  doctor may rebuild any subset of lex / time / vec; when it rebuilds the vector
   index of a memory that has none, lexical search and timeline still agree and vector search answers
   the empty list instead of VecNotEnabled (last clause). *)
Theorem C28_same_answers_outside_known :
  forall (query : Type) (engine_search : list N -> option (list N) -> query -> list N)
         (post_hit : frame -> query -> bool) (sk_pass : N -> query -> bool) (has_text : query -> bool)
         (vec_rank : list (N * N) -> query -> nat -> list N)
         ops extra lexf timef vecf no_sketch,
    let p := fst (prun pstore0 ops) in
    Quiet p -> known_class p no_sketch = false ->
    (forall h, h = handle_rw p extra \/ h = handle_ro p \/
               (h = handle_doctor p lexf timef vecf /\ (vecf = true -> v_vec_on (handle_live p) = true)) ->
      (forall q, psearch query engine_search post_hit sk_pass has_text h no_sketch q =
                 psearch query engine_search post_hit sk_pass has_text (handle_live p) no_sketch q) /\
      (forall q n, pvec query vec_rank h q n = pvec query vec_rank (handle_live p) q n) /\
      (forall keep rev lim, ptimeline h keep rev lim = ptimeline (handle_live p) keep rev lim)) /\
    (let h := handle_doctor p lexf timef true in
     (forall q, psearch query engine_search post_hit sk_pass has_text h no_sketch q =
                psearch query engine_search post_hit sk_pass has_text (handle_live p) no_sketch q) /\
     (forall keep rev lim, ptimeline h keep rev lim = ptimeline (handle_live p) keep rev lim) /\
     (forall q n, pvec query vec_rank h q n = Some (vec_rank (v_vec (handle_live p)) q n))).
Proof.
  intros query es ph sp ht vr ops extra lexf timef vecf ns p HQ HK.
  exact (same_answers query es ph sp ht vr p extra lexf timef vecf ns (prun_inv ops) HQ HK).
Qed.
Print Assumptions C28_same_answers_outside_known.

(* 3. The property as stated is REFUTED inside that class (finding F-C39-1 seen from Memvid::search):
   a frame without index text (no sketch entry) followed by a text frame gives the sketch track
   [(1,1)]; the file stores no ids, the reopened handle holds [(0,1)]; with the pre-filter on, the
   live handle offers candidate 1 (the hit), the reopened one candidate 0 (no hit). *)
Definition c28_witness : list pop :=
  [PMut (RPut None 1000 0 None empty_fields false None false) [false];
   PMut (RPut None 2000 0 None empty_fields true None false) [true];
   PCommit 1].
Definition filter_engine (lx : list N) (filt : option (list N)) (_ : unit) : list N :=
  match filt with Some l => filter (fun i => mem i l) lx | None => lx end.

Theorem C28_prefilter_after_reopen_refuted :
  exists ops (engine_search : list N -> option (list N) -> unit -> list N),
    let p := fst (prun pstore0 ops) in
    (forall lx f q i, In i (engine_search lx f q) -> In i lx) /\
    Quiet p /\ known_class p false = true /\
    psearch unit engine_search (fun _ _ => true) (fun _ _ => true) (fun _ => true) (handle_live p) false tt = [1] /\
    psearch unit engine_search (fun _ _ => true) (fun _ _ => true) (fun _ => true) (handle_rw p 0) false tt = [] /\
    psearch unit engine_search (fun _ _ => true) (fun _ _ => true) (fun _ => true) (handle_ro p) false tt = [].
Proof.
  exists c28_witness, filter_engine. cbv zeta. split.
  - intros lx f q i. unfold filter_engine. destruct f; [|auto]. intros H. apply filter_In in H. tauto.
  - vm_compute. repeat split; reflexivity.
Qed.
Print Assumptions C28_prefilter_after_reopen_refuted.

(* the class is exact for the track: it survives write + read iff its ids are 0,1,2,.. *)
Theorem C28_sketch_track_survives_iff_dense :
  forall t, sk_read (sk_written t) = t <-> sk_dense t = true.
Proof. exact sk_roundtrip_iff. Qed.
Print Assumptions C28_sketch_track_survives_iff_dense.

(* doctor{rebuild_vec_index} (code since 83a83e8): the doctored handle holds the live vector index and
   vector search is enabled on it *)
Theorem C28_doctor_vec_rebuild_keeps_the_index :
  forall ops lexf timef,
    let p := fst (prun pstore0 ops) in
    Quiet p ->
    v_vec (handle_doctor p lexf timef true) = v_vec (handle_live p) /\
    v_vec_on (handle_doctor p lexf timef true) = true.
Proof.
  intros ops lexf timef p HQ. destruct (doctor_sets p lexf timef true (prun_inv ops) HQ) as (_ & _ & Hvec & _ & Hon & _).
  split; [exact Hvec|exact Hon].
Qed.
Print Assumptions C28_doctor_vec_rebuild_keeps_the_index.

(* historical: the code before 83a83e8 (finding F-C14-1, now fixed) dropped the index before the
   rebuild, so the doctored image held no vectors *)
Lemma C28_doctor_vec_rebuild_emptied_unfixed :
  forall d frames al lexf timef, k_vec (doctor_unfixed d frames al lexf timef true) = [].
Proof. intros d frames al lexf timef. unfold doctor_unfixed. rewrite orb_true_r. reflexivity. Qed.
Print Assumptions C28_doctor_vec_rebuild_emptied_unfixed.

(* 4. Searches between a put and its commit.  In EVERY state of every history (also with pending
   records and temporary documents of instant-indexed puts in the engine), whatever the engine
   returns: every hit is a frame of the committed table on whose own search text the query
   evaluates to true (the post-evaluation of try_tantivy_search), and it is never the temporary
   document of a pending put -- those carry next_frame_id(), which is not in the table yet, and are
   skipped as stale.  So a search before the commit never returns a frame that does not contain the
   query (and does not return the pending document at all). *)
Theorem C28_search_before_commit :
  forall (query : Type) (engine_search : list N -> option (list N) -> query -> list N)
         (post_hit : frame -> query -> bool) (sk_pass : N -> query -> bool) (has_text : query -> bool)
         ops no_sketch q i,
    let p := fst (prun pstore0 ops) in
    In i (psearch query engine_search post_hit sk_pass has_text (handle_live p) no_sketch q) ->
    (exists f, get (committed (base (live p))) i = Some f /\ post_hit f q = true) /\ ~ In i (temps p).
Proof.
  intros query es ph sp ht ops ns q i p Hi.
  destruct (psearch_hits_evaluated query es ph sp ht (handle_live p) ns q i Hi) as (f & Hf & Hp). split; [exists f; split; assumption|].
  intros Ht. pose proof (temps_unresolved p i (prun_inv ops) Ht) as Hn.
  cbn [handle_live view_of v_frames] in Hf. congruence.
Qed.
Print Assumptions C28_search_before_commit.

(* 5. The explicit-reload machine IS the machine of C08 (which keeps the sets in memory across a
   reopen): same states, same outputs, for every history -- so C08's theorems (index members are
   Active committed frames, ...) hold for handles built from the file. *)
Theorem C28_reload_machine_is_C08s :
  forall ops,
    live (fst (prun pstore0 ops)) = fst (rrun rstore0 (map rop_of ops)) /\
    map snd (snd (prun pstore0 ops)) = map snd (snd (rrun rstore0 (map rop_of ops))) /\
    IxInv (live (fst (prun pstore0 ops))).
Proof.
  intros ops. destruct (prun_refines ops pstore0 PInv0) as (Hinv & Hlive & Hout & _).
  split; [exact Hlive|]. split; [exact Hout|]. exact (PInv_ix _ Hinv).
Qed.
Print Assumptions C28_reload_machine_is_C08s.

(* 6. The same on the models of C14 and C15 *)
Theorem C28_vector_index_reload_C14 :
  forall ops,
    let r := VecStore.vrun VecStore.vstate0 ops in
    let v := snd (fst r) in
    let xs := combine ops (snd r) in
    VecProofs.vrun_ok [] xs = true ->
    VecStore.mem_index (VecStore.load v) = VecStore.mem_index v /\
    (VecStore.vdisk v = VecStore.vmem v -> VecStore.observe_vec (VecStore.load v) = VecStore.observe_vec v).
Proof. exact vec_reload_C14. Qed.
Print Assumptions C28_vector_index_reload_C14.

Theorem C28_timeline_reload_C15 :
  forall engines ops force q,
    let s := Timeline.trun engines ops in
    Timeline.ts_pending s = [] ->
    let s1 := Timeline.tstep engines s Timeline.TReopen in
    let s2 := Timeline.tstep engines s (Timeline.TDoctor force) in
    Timeline.ts_frames s1 = Timeline.ts_frames s /\ Timeline.ts_frames s2 = Timeline.ts_frames s /\
    Timeline.build_timeline_fixed (Timeline.ts_frames s1) (Timeline.ts_index s1) q =
      Timeline.build_timeline_fixed (Timeline.ts_frames s) (Timeline.ts_index s) q /\
    Timeline.build_timeline_fixed (Timeline.ts_frames s2) (Timeline.ts_index s2) q =
      Timeline.build_timeline_fixed (Timeline.ts_frames s) (Timeline.ts_index s) q.
Proof. exact timeline_reload_C15. Qed.
Print Assumptions C28_timeline_reload_C15.

(* Non-vacuity: a history with a chunked embedded document, an instant-indexed put, an update, a delete, a crash
   with replay, a reopen, ending committed: Quiet holds, the sets are non-trivial, the sketch ids are
   dense (outside the known class with the pre-filter on) *)
Definition demo28 : list pop :=
  [PMut (RPut (Some 1) 1000 2 None empty_fields true (Some 11) false) [true; true; true];
   PMut (RPut None 2000 0 None empty_fields true (Some 12) true) [true];
   PCommit 1;
   PMut (RPut None 3000 0 None empty_fields true None true) [true];
   PCrash 1;
   PMut (RUpdate 3 None None empty_fields true None false) [true];
   PMut (RDelete 4 None) [];
   PReopen 1;
   PMut (RPut None 4000 0 (Some 1) empty_fields true (Some 13) false) [true];
   PCommit 0].

Example C28_nonvacuous :
  let p := fst (prun pstore0 demo28) in
  Quiet p /\ known_class p false = false /\
  v_lex (handle_live p) = [0; 1; 2; 5; 6] /\ map fst (v_vec (handle_live p)) = [0; 5; 6] /\ v_tix (handle_live p) = [0; 5; 6] /\
  map fst (sk p) = [0; 1; 2; 3; 4; 5; 6] /\
  v_lex (handle_ro p) = [0; 1; 2; 5; 6] /\ v_lex (handle_doctor p true true false) = [0; 1; 2; 5; 6] /\
  map fst (v_vec (handle_doctor p false false true)) = [0; 5; 6] /\ v_vec_on (handle_live p) = true /\
  v_lex (handle_rw p 0) = [0; 1; 2; 5; 6].
Proof. vm_compute. repeat split; reflexivity. Qed.

(* a state between an instant-indexed put and its commit: the engine holds the temporary document 4
   (= next_frame_id), the table has 4 frames *)
Example C28_pending_state_nonvacuous :
  let p := fst (prun pstore0 (firstn 4 demo28)) in
  temps p = [4] /\ len (committed (base (live p))) = 4 /\ v_lex (handle_live p) = [0; 1; 2; 3; 4] /\
  psearch unit filter_engine (fun _ _ => true) (fun _ _ => true) (fun _ => true) (handle_live p) true tt = [0; 1; 2; 3].
Proof. vm_compute. repeat split; reflexivity. Qed.

(* the witness of the refutation is inside the class, its sketch ids are [1] *)
Example C28_witness_in_class :
  let p := fst (prun pstore0 c28_witness) in
  sk p = [(1, 1)] /\ v_sk (handle_rw p 0) = [(0, 1)] /\ known_class p false = true /\ known_class p true = false.
Proof. vm_compute. repeat split; reflexivity. Qed.
