(* C08 Deleted and superseded frames disappear from every read path.
   Model: Model/Reads.v (index sets, update_frame's inheritance / carried embedding, the read paths)
   on top of Model/Store.v (frame table) and Model/StoreSpec.v (reference table of C01).
   Short proofs stand under the statements; what they rest on is in Proofs/ReadsProofs.v. *)
From MV Require Import Base.Prelude Model.Store Model.StoreSpec Proofs.StoreProofs Model.Reads Proofs.ReadsProofs.
Local Open Scope N_scope.

(* 1. For EVERY history (puts plain / chunked / embedded / instant-indexed, updates with or without
   payload, options, embedding, deletes, commits, reopen, crash + replay, every timing of automatic
   checkpoints) and in EVERY state of it (also with uncommitted changes pending):
   every entry of the time index is an Active committed Document frame, every entry of the vector
   index is an Active committed frame, and every document of the Tantivy engine is an Active committed
   frame unless an instant-indexed put still waits for its commit (tdirty).  No side condition. *)
Theorem C08_index_sets_hold_active_frames_only :
  forall rops : list rop,
    let r := fst (rrun rstore0 rops) in
    let fr := committed (base r) in
    (forall i, In i (tix r) -> is_active fr i = true /\ has_role fr 0 i = true) /\
    (forall i, In i (map fst (vec r)) -> is_active fr i = true) /\
    (tdirty r = false -> forall i, In i (lex r) -> is_active fr i = true).
Proof.
  intros rops r fr. pose proof (rrun_inv rops rstore0 IxInv0) as HI. fold r in HI.
  pose proof HI as (_ & Htix & _ & Hlex & _). split; [exact Htix|]. split; [|exact Hlex].
  intros i Hi. eapply vec_member; eauto.
Qed.
Print Assumptions C08_index_sets_hold_active_frames_only.

(* the same in every intermediate state of the history *)
Theorem C08_index_invariant_all_states :
  forall rops, Forall (fun ro => IxInv (fst ro)) (snd (rrun rstore0 rops)).
Proof. intros rops. apply rrun_inv_all, IxInv0. Qed.
Print Assumptions C08_index_invariant_all_states.

(* 2. Hence no read path names a frame that is not Active.  The engines are oracles: the ONLY thing
   assumed of Tantivy's search, of the vector ranking and of ask's fusion / re-ranking is that they
   return members of what they were given.  `returned_by_some_read` = search, search_vec,
   vec_search_with_embedding, search_adaptive, ask (all its retrieval calls: lexical variants, timeline
   fallback with child frames, vector candidates), timeline (entries and child frames), and
   frame_by_uri's active-uri lookup.  The hypothesis Dense is not used: every table a history commits
   is dense (Dense_committed_rrun). *)
Theorem C08_no_read_path_returns_inactive_partial :
  forall (query : Type) (engine_search : list N -> query -> list N) (post_hit : frame -> query -> bool)
         (vec_rank : list (N * N) -> query -> nat -> list N) (cutoff : list N -> nat) (fuse : list N -> list N),
    (forall docs q i, In i (engine_search docs q) -> In i docs) ->
    (forall vx q n i, In i (vec_rank vx q n) -> In i (map fst vx)) ->
    (forall l i, In i (fuse l) -> In i l) ->
    forall rops f,
      let r := fst (rrun rstore0 rops) in
      tdirty r = false -> Dense (committed (base r)) ->
      is_active (committed (base r)) f = false ->
      ~ returned_by_some_read query engine_search post_hit vec_rank cutoff fuse r f.
Proof.
  intros query es ph vr cu fu H1 H2 H3 rops f r Htd _ Hf.
  exact (no_read_path_returns_inactive query es ph vr cu fu H1 H2 H3 rops f Htd Hf).
Qed.
Print Assumptions C08_no_read_path_returns_inactive_partial.

(* 3. End to end: in a history from the empty memory, once an acknowledged delete / update of an
   existing frame f is committed (nothing pending), the committed table is the reference table of the
   acknowledged calls (C01), f is not Active in it, and no read path returns f.
   Partial: side condition run_ok of C01 (no update of a DocumentChunk frame), engine oracles. *)
Theorem C08_deleted_or_superseded_disappears_partial :
  forall (query : Type) (engine_search : list N -> query -> list N) (post_hit : frame -> query -> bool)
         (vec_rank : list (N * N) -> query -> nat -> list N) (cutoff : list N -> nat) (fuse : list N -> list N),
    (forall docs q i, In i (engine_search docs q) -> In i docs) ->
    (forall vx q n i, In i (vec_rank vx q n) -> In i (map fst vx)) ->
    (forall l i, In i (fuse l) -> In i l) ->
    forall rops,
      let r := fst (rrun rstore0 rops) in
      let xs := combine (sops rops) (souts rstore0 rops) in
      run_ok [] xs = true -> pending (base r) = [] -> tdirty r = false ->
      forall xs1 op o xs2 f,
        xs = xs1 ++ (op, o) :: xs2 -> acked o = true -> target_of op = Some f -> f < len (ref_run [] xs1) ->
        committed (base r) = ref_run [] xs /\
        NonActive (committed (base r)) (N.to_nat f) /\
        is_active (committed (base r)) f = false /\
        ~ returned_by_some_read query engine_search post_hit vec_rank cutoff fuse r f.
Proof.
  intros query es ph vr cu fu H1 H2 H3 rops r xs Hok Hp Htd xs1 op o xs2 f Exs Ha Ht Hf.
  pose proof (rrun_committed_ref rops Hok Hp) as HC. fold r xs in HC.
  assert (HN : NonActive (committed (base r)) (N.to_nat f)) by (rewrite HC, Exs; apply ref_marks_forever; assumption).
  pose proof (NonActive_inactive _ _ HN) as Hina.
  split; [exact HC|]. split; [exact HN|]. split; [exact Hina|].
  exact (no_read_path_returns_inactive query es ph vr cu fu H1 H2 H3 rops f Htd Hina).
Qed.
Print Assumptions C08_deleted_or_superseded_disappears_partial.

(* 4. One acknowledged delete / update on the reference table: f stops being Active; an update makes f
   Superseded with superseded_by = the new frame (whose id is the table length), the new frame is
   Active, supersedes f, carries the requested uri or else the old one, and frame_by_uri of that uri
   returns it; a delete makes f Deleted with no successor. *)
Theorem C08_status_and_successor :
  forall R op o f,
    acked o = true -> target_of op = Some f -> f < len R ->
    NonActive (ref_step R (op, o)) (N.to_nat f) /\
    (forall nt uk a, op = OUpdate f nt uk a ->
       exists old g n, get R f = Some old /\
         nth_error (ref_step R (op, o)) (N.to_nat f) = Some g /\ f_status g = 1 /\ f_superseded_by g = Some (len R) /\
         ref_step R (op, o) = update_nth (N.to_nat f) (fun g => set_status g 1 (Some (len R))) R ++ [n] /\
         f_id n = len R /\ f_status n = 0 /\ f_supersedes n = Some f /\
         f_uri n = match uk with Some k => UExp k | None => f_uri old end /\
         frame_by_uri (ref_step R (op, o)) (f_uri n) = Some n) /\
    (forall a, op = ODelete f a ->
       exists g, nth_error (ref_step R (op, o)) (N.to_nat f) = Some g /\ f_status g = 2 /\ f_superseded_by g = None).
Proof. exact ref_step_marks. Qed.
Print Assumptions C08_status_and_successor.

(* and it stays non-Active forever *)
Theorem C08_non_active_forever :
  forall xs R i, NonActive R i -> NonActive (ref_run R xs) i.
Proof. exact ref_run_keeps_NonActive. Qed.
Print Assumptions C08_non_active_forever.

(* in every reachable reference table every Superseded frame names a LATER frame that supersedes it,
   and an Active frame names none *)
Theorem C08_supersession_links :
  forall xs, Linked (ref_run [] xs).
Proof. intros xs. apply ref_run_linked, Linked_nil. Qed.
Print Assumptions C08_supersession_links.

(* 5. frame_by_uri, exactly: the LAST Active frame with that uri; if none is Active the last frame of
   any status with it; an error (None) iff no frame carries the uri. *)
Theorem C08_frame_by_uri_exact :
  forall frames u,
    match frame_by_uri frames u with
    | Some g =>
        exists l1 l2, frames = l1 ++ g :: l2 /\ f_uri g = u /\
          ((f_status g = 0 /\ forall y, In y l2 -> f_uri y = u -> f_status y <> 0) \/
           (f_status g <> 0 /\ (forall y, In y frames -> f_uri y = u -> f_status y <> 0) /\ forall y, In y l2 -> f_uri y <> u))
    | None => forall y, In y frames -> f_uri y <> u
    end.
Proof. exact frame_by_uri_spec. Qed.
Print Assumptions C08_frame_by_uri_exact.

(* 6. timeline names Active frames only (entries and child frames), whatever the time index holds *)
Theorem C08_timeline_active :
  forall frames tx keep reverse limit id kids,
    In (id, kids) (timeline frames tx keep reverse limit) ->
    (exists e f, get frames e = Some f /\ f_status f = 0 /\ f_id f = id) /\
    (forall k, In k kids -> exists c, In c frames /\ f_id c = k /\ f_status c = 0 /\ f_parent c = Some id).
Proof. exact timeline_active. Qed.
Print Assumptions C08_timeline_active.

(* 7. Inheritance: an acknowledged update queues for the new frame the ten option fields completed from
   the committed old version -- every field the update leaves unset equals the old value, every field
   it sets has the new value -- and the explicit embedding or else the one carried over from the vector
   index; what is recorded for a frame never changes afterwards. *)
Theorem C08_update_inherits_unset_fields :
  forall r t newtag auto opts text emb instant sq,
    fst (fst (snd (rstep r (RUpdate t newtag auto opts text emb instant)))) = Ok sq ->
    let old := a_fields (attr_of (attrs r) t) in
    exists nf,
      all_attrs (fst (rstep r (RUpdate t newtag auto opts text emb instant))) =
        all_attrs r ++ [mkAttr nf text match emb with Some e => Some e | None => if vec_on r then assocN (vec r) t else None end] /\
      (o_ts opts = None -> o_ts nf = o_ts old) /\ (o_track opts = None -> o_track nf = o_track old) /\
      (o_kind opts = None -> o_kind nf = o_kind old) /\ (o_uri opts = None -> o_uri nf = o_uri old) /\
      (o_title opts = None -> o_title nf = o_title old) /\ (o_meta opts = None -> o_meta nf = o_meta old) /\
      (o_stext opts = None -> o_stext nf = o_stext old) /\ (o_tags opts = [] -> o_tags nf = o_tags old) /\
      (o_labels opts = [] -> o_labels nf = o_labels old) /\ (o_extra opts = [] -> o_extra nf = o_extra old) /\
      (forall x, o_ts opts = Some x -> o_ts nf = Some x) /\ (forall x, o_track opts = Some x -> o_track nf = Some x) /\
      (forall x, o_kind opts = Some x -> o_kind nf = Some x) /\ (forall x, o_uri opts = Some x -> o_uri nf = Some x) /\
      (forall x, o_title opts = Some x -> o_title nf = Some x) /\ (forall x, o_meta opts = Some x -> o_meta nf = Some x) /\
      (forall x, o_stext opts = Some x -> o_stext nf = Some x) /\ (o_tags opts <> [] -> o_tags nf = o_tags opts) /\
      (o_labels opts <> [] -> o_labels nf = o_labels opts) /\ (o_extra opts <> [] -> o_extra nf = o_extra opts).
Proof.
  intros r t newtag auto opts text emb instant sq H old.
  exists (inherit opts old). split; [exact (update_inherits r t newtag auto opts text emb instant sq H)|].
  pose proof (inherit_unset opts old) as U. pose proof (inherit_set opts old) as S. tauto.
Qed.
Print Assumptions C08_update_inherits_unset_fields.

Theorem C08_attributes_append_only :
  forall r op, exists tail, all_attrs (fst (rstep r op)) = all_attrs r ++ tail.
Proof. exact all_attrs_append_only. Qed.
Print Assumptions C08_attributes_append_only.

(* 8. The chunked-document gap.  Intended reading of the property: a frame may be served only if it is
   LIVE = Active and, when it is a DocumentChunk, its document is Active too.  delete_frame /
   update_frame mark only the document frame: its chunk frames stay Active, stay in the engine, and are
   served.  Refuted by a four-step history; outside the class "chunk whose document is not Active"
   every member of every index set is live (and the time index never holds a chunk). *)
Definition chunk_gap_history : list rop :=
  [RPut None 1000 2 None empty_fields true None false; RCommit 1; RDelete 0 None; RCommit 1].

Theorem C08_chunks_outlive_their_document_refuted :
  exists rops,
    let r := fst (rrun rstore0 rops) in
    pending (base r) = [] /\ tdirty r = false /\
    is_active (committed (base r)) 0 = false /\
    exists i, In i (lex r) /\ live (committed (base r)) i = false /\ orphan_chunk (committed (base r)) i = true.
Proof. exists chunk_gap_history. vm_compute. repeat split. exists 1. repeat split. left. reflexivity. Qed.
Print Assumptions C08_chunks_outlive_their_document_refuted.

Theorem C08_index_members_live_outside_known :
  forall rops i,
    let r := fst (rrun rstore0 rops) in
    tdirty r = false ->
    (In i (tix r) -> live (committed (base r)) i = true) /\
    (In i (lex r) \/ In i (map fst (vec r)) -> orphan_chunk (committed (base r)) i = false -> live (committed (base r)) i = true).
Proof. intros rops i r Htd. apply index_members_live_outside_known; [apply rrun_inv, IxInv0|exact Htd]. Qed.
Print Assumptions C08_index_members_live_outside_known.

(* Non-vacuity: a history with a chunked embedded document, an instant-indexed put, updates with and without payload
   (one carrying the embedding over), a delete, a crash with replay, a reopen; the hypotheses of the
   end-to-end theorem hold for the update of frame 3 and for the delete of frame 4, and the index sets
   are the expected ones *)
Definition f1 : fields := mkFields (Some 100) (Some 1) None None (Some 7) None (Some 0) [1; 2] [] [].
Definition demo : list rop :=
  [RPut (Some 1) 1000 2 None f1 true (Some 11) false;
   RPut None 2000 0 None f1 true (Some 12) true;
   RCommit 1;
   RPut None 3000 0 None f1 true None false;
   RCrash 1;
   RUpdate 3 None None (mkFields None (Some 9) None (Some 5) None None None [] [3] []) true None false;
   RDelete 4 None;
   RUpdate 99 None None empty_fields true None false;
   RReopen 1;
   RUpdate 5 (Some 4000) None empty_fields true (Some 13) false;
   RCommit 1;
   RRead [1; 5]].

Example C08_nonvacuous :
  let r := fst (rrun rstore0 demo) in
  let xs := combine (sops demo) (souts rstore0 demo) in
  run_ok [] xs = true /\ pending (base r) = [] /\ tdirty r = false /\
  (exists xs1 op o xs2, xs = xs1 ++ (op, o) :: xs2 /\ acked o = true /\ target_of op = Some 3 /\ 3 < len (ref_run [] xs1)) /\
  (exists xs1 op o xs2, xs = xs1 ++ (op, o) :: xs2 /\ acked o = true /\ target_of op = Some 4 /\ 4 < len (ref_run [] xs1)) /\
  map (fun f => (f_id f, f_status f, f_superseded_by f)) (committed (base r)) =
    [(0, 0, None); (1, 0, None); (2, 0, None); (3, 1, Some 5); (4, 2, None); (5, 1, Some 6); (6, 0, None)] /\
  tix r = [0; 6] /\ map fst (vec r) = [0; 6] /\ lex r = [0; 1; 2; 6] /\
  option_map f_id (frame_by_uri (committed (base r)) (UExp 5)) = Some 6 /\
  a_fields (attr_of (attrs r) 6) = mkFields (Some 100) (Some 9) None (Some 5) (Some 7) None (Some 0) [1; 2] [3] [].
Proof.
  vm_compute. repeat split.
  - exists (firstn 5 (combine (sops demo) (souts rstore0 demo))).
    eexists _, _, (skipn 6 (combine (sops demo) (souts rstore0 demo))). vm_compute. repeat split.
  - exists (firstn 6 (combine (sops demo) (souts rstore0 demo))).
    eexists _, _, (skipn 7 (combine (sops demo) (souts rstore0 demo))). vm_compute. repeat split.
Qed.

(* the engine hypotheses are satisfiable: engines that return everything they hold *)
Example C08_engine_hypotheses_satisfiable :
  let engine_search := fun (docs : list N) (_ : unit) => docs in
  let vec_rank := fun (vx : list (N * N)) (_ : unit) (n : nat) => firstn n (map fst vx) in
  let fuse := fun l : list N => rev l in
  (forall docs q i, In i (engine_search docs q) -> In i docs) /\
  (forall vx q n i, In i (vec_rank vx q n) -> In i (map fst vx)) /\
  (forall l i, In i (fuse l) -> In i l) /\
  search unit engine_search (fun _ _ => true) (committed (base (fst (rrun rstore0 demo)))) (lex (fst (rrun rstore0 demo))) tt = [0; 1; 2; 6].
Proof.
  cbv zeta. split; [auto|]. split; [intros vx q n i H; eapply Base.Facts.In_firstn; eauto|]. split; [intros l i H; apply in_rev; exact H|].
  vm_compute. reflexivity.
Qed.
