(* C30 File-format codecs round-trip and reject malformed input.
   Short proofs stand under the statements; what they rest on is in
   Proofs/{Header,Footer,TimeIndex,Bincode,Toc}Proofs.v (the ties to the regenerated constants and the
   examples are by evaluation); the footer codec is Properties/C31.v (C31_footer_roundtrip) and is
   restated here from the same lemma. *)
From MV Require Import Base.Prelude Model.Header Model.Footer Model.TimeIndex Model.Bincode Model.Toc.
From MV Require Import Proofs.HeaderProofs Proofs.FooterProofs Proofs.TimeIndexProofs Proofs.BincodeProofs Proofs.TocProofs.
From Coq Require Import Permutation.
Require MV.Gen.Consts.
Local Open Scope N_scope.

(* header (src/io/header.rs) *)

(* (H1) for every header value of the Rust type (header_wf: array lengths, integer widths) that
   passes encode's four checks (header_valid), encode succeeds with a 4096-byte image and
   decode of that image is the same header. *)
Theorem C30_header_roundtrip :
  forall h, header_wf h = true -> header_valid h = true ->
    exists b, header_encode h = Ok b /\ length b = HEADER_SIZE /\ header_decode b = Ok h.
Proof.
  intros h Hwf Hv. exists (header_image h).
  destruct (header_encode_cases h) as [[_ E]|[E _]]; [|congruence].
  auto using header_image_length, header_decode_image.
Qed.
Print Assumptions C30_header_roundtrip.

(* (H2) encode rejects exactly the other headers (that it never panics is
   HeaderProofs.header_encode_no_panic). *)
Theorem C30_header_encode_rejects_iff :
  forall h, (exists k, header_encode h = Err k) <-> header_valid h = false.
Proof.
  intros h. destruct (header_encode_cases h) as [[-> ->]|[-> E]]; [|tauto].
  split; [intros [? ?]|]; discriminate.
Qed.
Print Assumptions C30_header_encode_rejects_iff.

(* (H3) decode accepts a buffer exactly when it has 4096 bytes and magic, version, both spec
   bytes, wal_offset >= 4096 and wal_size <> 0 check out, and then returns the fields read at
   their offsets; otherwise it answers Err (never a value, never a panic). *)
Theorem C30_header_decode_accepts_iff :
  forall b h, header_decode b = Ok h <->
    length b = HEADER_SIZE /\ header_checks b = true /\ h = header_fields b.
Proof. exact header_decode_ok_iff. Qed.
Print Assumptions C30_header_decode_accepts_iff.

Theorem C30_header_decode_rejects_iff :
  forall b, (exists k, header_decode b = Err k) <-> (length b <> HEADER_SIZE \/ header_checks b = false).
Proof. exact header_decode_err_iff. Qed.
Print Assumptions C30_header_decode_rejects_iff.

Theorem C30_header_decode_no_panic : forall b s, header_decode b <> Panic s.
Proof. exact header_decode_no_panic. Qed.
Print Assumptions C30_header_decode_no_panic.

(* (H4) decode does not return "a different value": an accepted image re-encodes to itself on
   bytes 0..80, so two accepted images of one header agree on every byte decode reads. *)
Theorem C30_header_decode_canonical :
  forall b h, bytes_ok b = true -> header_decode b = Ok h ->
    header_encode h = Ok (firstn TOC_CHECKSUM_END b ++ zeros (HEADER_SIZE - TOC_CHECKSUM_END)).
Proof. exact header_decode_canonical. Qed.
Print Assumptions C30_header_decode_canonical.

(* (H5) what bounds "rejects inconsistent images" for the header: it has no checksum of its own and
   bytes 80..4096 are never looked at. *)
Theorem C30_header_decode_ignores_padding :
  forall b b', length b = HEADER_SIZE -> length b' = HEADER_SIZE ->
    firstn TOC_CHECKSUM_END b = firstn TOC_CHECKSUM_END b' -> header_decode b = header_decode b'.
Proof. exact header_decode_ignores_padding. Qed.
Print Assumptions C30_header_decode_ignores_padding.

(* (H6) write then read on a file of any length gives the header back, touches only the first
   4096 bytes; read's legacy-lock scrub never changes the result. *)
Theorem C30_header_read_write :
  forall file h, header_wf h = true -> header_valid h = true ->
    exists file', header_write file h = Ok file' /\ header_read file' = (Ok h, file') /\
                  skipn HEADER_SIZE file' = skipn HEADER_SIZE file.
Proof.
  intros file h Hwf Hv. destruct (header_encode_cases h) as [[_ E]|[E _]]; [|congruence].
  destruct (header_image_decodes h Hwf) as (_ & _ & Hz). pose proof (header_image_length h Hwf) as HL.
  exists (write_at0 file (header_image h)). unfold header_write. rewrite E. split; [reflexivity|]. split.
  - rewrite (header_read_written file _ HL (legacy_clean _ Hz)), (header_decode_image h Hwf Hv). reflexivity.
  - rewrite <- HL. apply Facts.skipn_app_exact. reflexivity.
Qed.
Print Assumptions C30_header_read_write.

Theorem C30_header_read_is_decode :
  forall file, (HEADER_SIZE <= length file)%nat -> fst (header_read file) = header_decode (firstn HEADER_SIZE file).
Proof.
  intros file HL. rewrite header_read_eq.
  replace (Nat.ltb (length file) HEADER_SIZE) with false by lia. reflexivity.
Qed.
Print Assumptions C30_header_read_is_decode.

Definition sample_header : header :=
  mkHeader MAGIC 513 1048576 4096 4194304 0 42 (repeat 171 32).
Example C30_header_nonvacuous :
  header_wf sample_header = true /\ header_valid sample_header = true /\
  (exists b, header_encode sample_header = Ok b /\ header_decode b = Ok sample_header) /\
  header_valid (mkHeader MAGIC 513 0 4095 1 0 0 (repeat 0 32)) = false.
Proof. repeat split; try (vm_compute; reflexivity). eexists. split; vm_compute; reflexivity. Qed.

Theorem C30_header_consts_tied :
  MAGIC = MV.Gen.Consts.HEADER_MAGIC /\ N.of_nat HEADER_SIZE = MV.Gen.Consts.HEADER_SIZE /\
  SPEC_MAJOR = MV.Gen.Consts.SPEC_MAJOR /\ SPEC_MINOR = MV.Gen.Consts.SPEC_MINOR /\
  WAL_OFFSET = MV.Gen.Consts.WAL_OFFSET /\ EXPECTED_VERSION = MV.Gen.Consts.HDR_EXPECTED_VERSION /\
  N.of_nat VERSION_OFFSET = MV.Gen.Consts.HDR_VERSION_OFFSET /\
  N.of_nat SPEC_BYTES_OFFSET = MV.Gen.Consts.HDR_SPEC_BYTES_OFFSET /\
  N.of_nat FOOTER_OFFSET_POS = MV.Gen.Consts.HDR_FOOTER_OFFSET_POS /\
  N.of_nat WAL_OFFSET_POS = MV.Gen.Consts.HDR_WAL_OFFSET_POS /\
  N.of_nat WAL_SIZE_POS = MV.Gen.Consts.HDR_WAL_SIZE_POS /\
  N.of_nat WAL_CHECKPOINT_POS = MV.Gen.Consts.HDR_WAL_CHECKPOINT_POS /\
  N.of_nat WAL_SEQUENCE_POS = MV.Gen.Consts.HDR_WAL_SEQUENCE_POS /\
  N.of_nat TOC_CHECKSUM_POS = MV.Gen.Consts.HDR_TOC_CHECKSUM_POS /\
  N.of_nat TOC_CHECKSUM_END = MV.Gen.Consts.HDR_TOC_CHECKSUM_END.
Proof. repeat split; reflexivity. Qed.
Print Assumptions C30_header_consts_tied.

(* commit footer (src/footer.rs; model and proofs of C31) *)
Theorem C30_footer_roundtrip :
  forall f, (toc_len f < 2 ^ 64)%N -> (generation f < 2 ^ 64)%N -> length (toc_hash f) = 32%nat ->
            footer_decode (footer_encode f) = Some f.
Proof. exact footer_decode_encode. Qed.
Print Assumptions C30_footer_roundtrip.

Theorem C30_footer_decode_rejects :
  forall b f, footer_decode b = Some f -> length b = FOOTER_SIZE /\ firstn 8 b = FOOTER_MAGIC.
Proof. exact footer_decode_magic. Qed.
Print Assumptions C30_footer_decode_rejects.

(* time index (src/io/time_index.rs) *)

(* (T1) sort_by_key on (timestamp, frame_id): the model's sort is a sorted permutation and the only
   one, so it is what any correct sort returns on these keys. *)
Theorem C30_time_index_sort_spec :
  forall l, sortedb (sort_entries l) = true /\ Permutation l (sort_entries l) /\
            forall s, Permutation l s -> sortedb s = true -> s = sort_entries l.
Proof.
  intros l. split; [apply sort_entries_sorted|]. split; [apply sort_entries_perm|].
  intros s. apply sort_entries_unique.
Qed.
Print Assumptions C30_time_index_sort_spec.

(* (T2) read(append es) = sorted es: for every store content, every write position, every entry list
   with i64 / u64 fields and fewer than 2^59 entries, and any hash function. *)
Theorem C30_time_index_roundtrip :
  forall (H : bytes -> bytes) file pos es,
    forallb entry_wf es = true -> N.of_nat (length es) * 16 < 2 ^ 63 ->
    let '((off, len, cks), file', sorted) := append_track H file pos es in
    sorted = sort_entries es /\ read_track file' (N.to_nat off) len = Ok (sort_entries es) /\
    cks = calculate_checksum H es.
Proof.
  intros H file pos es Hwf Hn. unfold append_track.
  split; [reflexivity|]. split; [|reflexivity].
  rewrite Nat2N.id.
  pose proof (read_track_image (write_at file pos (track_image (sort_entries es))) pos (sort_entries es)
                               (skipn (pos + length (track_image (sort_entries es))) file)
                               (sort_entries_wf es Hwf)) as R.
  rewrite sort_entries_length in R. specialize (R Hn (write_at_skipn _ _ _)).
  rewrite sort_entries_sorted in R. exact R.
Qed.
Print Assumptions C30_time_index_roundtrip.

(* (T3) an Ok answer means: magic present, declared count = number of entries returned, length =
   12 + 16*count, entries in (timestamp, frame_id) order, and (for a store of bytes) the bytes in
   [offset, offset+length) are exactly the image of the returned list. *)
Theorem C30_time_index_accepts_only_consistent :
  forall file pos len es, read_track file pos len = Ok es ->
    firstn 4 (skipn pos file) = TIME_INDEX_MAGIC /\
    le_decode (slice (skipn pos file) 4 8) = N.of_nat (length es) /\
    len = 12 + 16 * N.of_nat (length es) /\
    sortedb es = true /\
    (bytes_ok file = true ->
     forallb entry_wf es = true /\ firstn (N.to_nat len) (skipn pos file) = track_image es).
Proof. exact read_track_ok_inv. Qed.
Print Assumptions C30_time_index_accepts_only_consistent.

(* (T4) the image of an out-of-order list is answered "entries not sorted"; the named rejections. *)
Theorem C30_time_index_rejects_unsorted :
  forall file pos es tail,
    forallb entry_wf es = true -> N.of_nat (length es) * 16 < 2 ^ 63 -> sortedb es = false ->
    skipn pos file = track_image es ++ tail ->
    read_track file pos (N.of_nat (length (track_image es))) = Err E_TI_UNSORTED.
Proof.
  intros file pos es tail Hwf Hn Hs Hsk. rewrite (read_track_image file pos es tail Hwf Hn Hsk), Hs. reflexivity.
Qed.
Print Assumptions C30_time_index_rejects_unsorted.

Theorem C30_time_index_rejects_magic :
  forall file pos len, firstn 4 (skipn pos file) <> TIME_INDEX_MAGIC -> exists k, read_track file pos len = Err k.
Proof.
  intros file pos len HM. apply read_track_rejects. unfold ti_header_ok.
  destruct (bytes_eqb _ _) eqn:E; [apply Facts.bytes_eqb_spec in E; contradiction|].
  rewrite andb_false_r. reflexivity.
Qed.
Print Assumptions C30_time_index_rejects_magic.

Theorem C30_time_index_rejects_short_length :
  forall file pos len, len < TI_HEADER_LEN -> exists k, read_track file pos len = Err k.
Proof.
  intros file pos len HL. apply read_track_rejects. unfold ti_header_ok. cbv zeta.
  replace (TI_HEADER_LEN <=? len) with false by lia. apply andb_false_r.
Qed.
Print Assumptions C30_time_index_rejects_short_length.

Theorem C30_time_index_rejects_count_mismatch :
  forall file pos len,
    len - TI_HEADER_LEN <> le_decode (slice (skipn pos file) 4 8) * TI_ENTRY_LEN ->
    exists k, read_track file pos len = Err k.
Proof.
  intros file pos len HL. apply read_track_rejects. unfold ti_header_ok. cbv zeta.
  apply N.eqb_neq in HL. rewrite HL, !andb_false_r. reflexivity.
Qed.
Print Assumptions C30_time_index_rejects_count_mismatch.

(* (T5) read_track answers Ok or Err on EVERY input: it never panics.  (Before the repair b6c8721 the
   class ti_capacity_class -- a count needing more than isize::MAX bytes with the matching length --
   panicked in Vec::with_capacity; the reader now reserves fallibly and answers "entry count too
   large" on exactly that class.) *)
Theorem C30_time_index_decode_no_panic :
  forall file pos len s, read_track file pos len <> Panic s.
Proof. exact read_track_no_panic. Qed.
Print Assumptions C30_time_index_decode_no_panic.

Theorem C30_time_index_too_large_iff :
  forall file pos len, read_track file pos len = Err E_TI_TOO_LARGE <-> ti_capacity_class file pos len = true.
Proof. exact read_track_too_large_iff. Qed.
Print Assumptions C30_time_index_too_large_iff.

Definition capacity_witness : bytes := TIME_INDEX_MAGIC ++ le_encode 8 (2 ^ 59).

Definition mkE (t : Z) (i : N) : entry := (t, i).
Definition sample_entries : list entry := [mkE 30 2; mkE 10 0; mkE (-5) 7; mkE 10 0; mkE 20 1].
Example C30_time_index_nonvacuous :
  forallb entry_wf sample_entries = true /\ sortedb sample_entries = false /\
  (let '((off, len, _), file', _) := append_track (fun _ => []) [1; 2; 3] 2 sample_entries in
   off = 2 /\ len = 92 /\ read_track file' 2 len = Ok [mkE (-5) 7; mkE 10 0; mkE 10 0; mkE 20 1; mkE 30 2]) /\
  ti_capacity_class capacity_witness 0 (12 + 16 * 2 ^ 59) = true /\
  read_track capacity_witness 0 (12 + 16 * 2 ^ 59) = Err E_TI_TOO_LARGE /\
  ti_capacity_class (track_image sample_entries) 0 92 = false.
Proof. vm_compute. repeat split; reflexivity. Qed.

(* TOC (src/toc.rs + the serde schema of types::Toc) *)

(* (B1) ONE theorem for every schema and value of the bincode model: a well-typed value, followed by
   anything, decodes back to itself and leaves exactly what followed.  schema_ok = every Vec element
   type occupies at least one byte (true of every type in Toc). *)
Theorem C30_bincode_roundtrip :
  forall s, schema_ok s = true -> forall v rest, wt s v = true -> dec s (enc s v ++ rest) = Ok (v, rest).
Proof. exact codec_roundtrip. Qed.
Print Assumptions C30_bincode_roundtrip.

(* (B2) Toc::decode (Toc::encode t) = Ok t for every well-typed t of the Toc schema (all fields; the
   memory binding only as None), answered by the current-layout branch, never by a legacy one. *)
Theorem C30_toc_roundtrip_partial :
  forall t, wt toc_schema t = true -> toc_decode (toc_encode t) = Ok t.
Proof.
  intros t Hwt. unfold toc_decode, toc_encode.
  rewrite (codec_roundtrip_nil toc_schema t toc_schema_ok Hwt). reflexivity.
Qed.
Print Assumptions C30_toc_roundtrip_partial.

(* (B3) trailing bytes after a valid image are an error, whatever they are. *)
Theorem C30_toc_rejects_trailing :
  forall t rest, wt toc_schema t = true -> rest <> [] -> toc_decode (toc_encode t ++ rest) = Err E_TRAILING.
Proof.
  intros t rest Hwt Hr. unfold toc_decode, toc_encode.
  rewrite (codec_roundtrip toc_schema toc_schema_ok t rest Hwt). destruct rest; [contradiction | reflexivity].
Qed.
Print Assumptions C30_toc_rejects_trailing.

Theorem C30_toc_rejects_leftover :
  forall b v r, dec toc_schema b = Ok (v, r) -> r <> [] -> toc_decode b = Err E_TRAILING.
Proof. intros b v r E Hr. unfold toc_decode. rewrite E. destruct r; [contradiction | reflexivity]. Qed.
Print Assumptions C30_toc_rejects_leftover.

(* (B4) the three-layout fallback as written: an Ok answer comes from the first layout that decodes
   without error, with nothing left over; a legacy layout is consulted only after a decode error. *)
Theorem C30_toc_decode_branches :
  forall b t, toc_decode b = Ok t ->
    dec toc_schema b = Ok (t, []) \/
    ((exists k, dec toc_schema b = Err k) /\ exists v, dec toc_v2_schema b = Ok (v, []) /\ t = from_v2 v) \/
    ((exists k, dec toc_schema b = Err k) /\ (exists k, dec toc_v2_schema b = Err k) /\
     exists v, dec toc_v1_schema b = Ok (v, []) /\ t = from_v1 v).
Proof.
  intros b t. unfold toc_decode.
  destruct (dec toc_schema b) as [[v r]|k|p] eqn:E0.
  - destruct r; [|discriminate]. intros E; inversion E; subst. left; reflexivity.
  - destruct (dec toc_v2_schema b) as [[v r]|k2|p] eqn:E2.
    + destruct r; [|discriminate]. intros E; inversion E; subst. right; left. split; [eexists; reflexivity|]. exists v. split; reflexivity.
    + destruct (dec toc_v1_schema b) as [[v r]|k1|p] eqn:E1; try discriminate.
      destruct r; [|discriminate]. intros E; inversion E; subst. right; right.
      split; [eexists; reflexivity|]. split; [eexists; reflexivity|]. exists v. split; reflexivity.
    + discriminate.
  - discriminate.
Qed.
Print Assumptions C30_toc_decode_branches.

(* (B5) checksum: a stamped TOC verifies; a TOC that verifies stores the digest of one of the three
   images of itself with the checksum field zeroed (so any other stored value is rejected). *)
Theorem C30_toc_checksum_stamp :
  forall (H : bytes -> bytes) l, length l = 16%nat -> verify_checksum H (stamp H (VList l)) = true.
Proof. exact verify_checksum_stamp. Qed.
Print Assumptions C30_toc_checksum_stamp.

Theorem C30_toc_checksum_sound :
  forall (H : bytes -> bytes) t, verify_checksum H t = true ->
    let z := set_checksum zero32 t in
    exists img, In img [enc toc_schema z; enc toc_v2_schema (to_v2 z); enc toc_v1_schema (to_v1 z)] /\
                field 15 t = VStr (H img).
Proof.
  intros H t. unfold verify_checksum. cbv zeta.
  (* whichever of the three comparisons succeeded names the image *)
  destruct (value_eqb _ _) eqn:E0.
  { intros _. eexists. split; [left; reflexivity | exact (value_eqb_str _ _ E0)]. }
  destruct (is_none _ && value_eqb _ _) eqn:E2.
  { intros _. apply andb_true_iff in E2 as [_ E2].
    eexists. split; [right; left; reflexivity | exact (value_eqb_str _ _ E2)]. }
  destruct (_ && _ && value_eqb _ _) eqn:E1; [|discriminate].
  intros _. apply andb_true_iff in E1 as [_ E1].
  eexists. split; [right; right; left; reflexivity | exact (value_eqb_str _ _ E1)].
Qed.
Print Assumptions C30_toc_checksum_sound.

Theorem C30_toc_consts_tied :
  MAX_TOC_SEGMENTS = MV.Gen.Consts.TOC_MAX_SEGMENTS /\ MAX_TOC_FRAMES = MV.Gen.Consts.TOC_MAX_FRAMES /\
  MAX_SEGMENT_CATALOG_ENTRIES = MV.Gen.Consts.TOC_MAX_CATALOG_ENTRIES /\ MAX_TAGS = MV.Gen.Consts.FRAME_MAX_TAGS /\
  MAX_LABELS = MV.Gen.Consts.FRAME_MAX_LABELS /\ MAX_CONTENT_DATES = MV.Gen.Consts.FRAME_MAX_CONTENT_DATES /\
  MAX_EXTRA_METADATA_ENTRIES = MV.Gen.Consts.FRAME_MAX_EXTRA_METADATA.
Proof. repeat split; reflexivity. Qed.
Print Assumptions C30_toc_consts_tied.

(* Non-vacuity: a TOC with one segment, one frame carrying metadata (audio tags map, f32/f64 bits,
   non-ASCII strings), every Option of the top level filled except the binding. *)
Definition d32 (x : N) : value := VStr (repeat x 32).
Definition sample_frame : value :=
  VList [VN 0; VZ (-5); VSome (VZ 7); VSome (VN 2); VSome (VStr [116; 120; 116]); VNone; VN 4096; VN 128; d32 34;
         VSome (VStr [109; 118; 50; 58; 47; 47; 195; 169]); VNone; VN 1; VSome (VN 128);
         VSome (VList [VSome (VStr [97]); VSome (VN 9); VNone; VNone; VSome (VN 600); VSome (VList [VStr [114; 101; 100]]); VNone;
                       VSome (VList [VNone; VNone; VNone; VNone; VSome (VList [VN 4632233691727265792; VN 0])]);
                       VSome (VList [VSome (VN 1069547520); VNone; VSome (VN 2); VNone; VNone;
                                     VList [VList [VN 0; VN 1065353216; VNone]];
                                     VList [VPair [97] (VStr [49]); VPair [97; 98] (VStr []); VPair [98] (VStr [50])]]);
                       VNone]);
         VNone; VList [VStr [116; 49]; VStr []]; VList []; VList [VPair [] (VStr [118]); VPair [107] (VStr [119])];
         VList []; VSome (VList [VN 1200; VList [VList [VN 0; VN 1200]]]); VN 1; VSome (VN 0); VSome (VN 3); VSome (VN 9);
         VN 2; VNone; VSome (VN 5); VSome (d32 7); VNone; VN 1].
Definition sample_toc : value :=
  VList [VN 1; VList [VList [VN 0; VList [VN 0; VN 2]; d32 17; VN 1; VN 4096; VN 512]]; VList [sample_frame];
         VList [VSome (VList [VN 2; VN 1; VN 10; VN 20; d32 1]); VList [VList [VStr [112]; VN 1; VN 2; d32 2]];
                VSome (VList [VN 3; VN 384; VN 5; VN 6; d32 3; VN 1; VSome (VStr [109])]); VNone];
         VSome (VList [VN 8192; VN 96; VN 2; d32 68]); VNone; VSome (VList [VN 1; VN 2; VN 3; VN 4; d32 5]); VNone;
         VSome (VList [VN 1; VN 2; VN 3; VN 64; VN 0; d32 6]);
         VList [VN 0; VN 1; VB true; VList []; VList []; VList []; VList []; VList []; VList []];
         VList [VStr [109; 101; 109; 118; 105; 100]; VZ 0; VN 3600; VN 0; VB false]; VNone;
         VSome (VList [VN 1; VN 2; VN 3; VN 4; VN 1]); VList [VList [VList [VN 0; VN 1; VN 2; VN 3]]; VN 9]; d32 85; d32 0].
Example C30_toc_nonvacuous :
  wt toc_schema sample_toc = true /\ schema_ok toc_schema = true /\
  toc_decode (toc_encode sample_toc) = Ok sample_toc /\
  toc_decode (toc_encode sample_toc ++ [0]) = Err E_TRAILING /\
  length (toc_encode sample_toc) = 1208%nat.
Proof. vm_compute. repeat split; reflexivity. Qed.
