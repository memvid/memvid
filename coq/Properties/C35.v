(* C35 Snippet slices are valid, ordered, bounded ranges.
   Short proofs stand under the statements; what they rest on is in Proofs/SnippetProofs.v.
   The model (Model/Snippet.v) follows compute_snippet_slices and its helpers in src/lex.rs line by line.

   Text = the UTF-8 bytes of the &str; `is_char_boundary` and `str_slice` are the std definitions
   (`&content[a..b]` panics unless a <= b and both are char boundaries).  The theorems hold for
   EVERY byte list, hence for every valid str.

   The property as stated (ANY occurrences, ANY window, ANY maximum) is refuted by the faithful
   model and by the implementation, in exactly three argument classes:
     max-zero     max_snippets = 0, text non-empty      -> one slice is returned anyway
     window-zero  window = 0, text non-empty            -> the fallback slice is the empty (0,0)
     end-overflow some end + window/2 >= 2^64           -> arithmetic overflow panic (debug build)
   Unsorted / duplicate / overlapping occurrences, start > end, offsets beyond the text or inside
   a multi-byte character break nothing (no hypothesis about them appears below). *)
From Coq Require Import Sorted.
From MV Require Import Base.Prelude Model.Snippet Proofs.SnippetProofs.
From MV Require Base.Facts.
Local Open Scope N_scope.

(* slices_ok t max r  :=  r = Ok sl, every slice (a,b) has a < b <= len t, a and b on char
   boundaries, &t[a..b] does not panic and is non-empty; for i < j: start_i < start_j and
   end_i <= start_j; length sl <= max. *)

(* (1) the property, for all inputs, under the guard
       guard := text empty \/ (max >= 1 /\ window >= 1 /\ every end + window/2 < 2^64) *)
Theorem C35_slices_ok_under_guard :
  forall (t : bytes) (occs : list (N * N)) (window max_snippets : N),
    guard t occs window max_snippets = true ->
    slices_ok t max_snippets (compute_snippet_slices t occs window max_snippets).
Proof. exact slices_ok_under_guard. Qed.
Print Assumptions C35_slices_ok_under_guard.

(* (2) what holds with NO guard at all (whenever the call returns): every slice is an in-bounds
       range on char boundaries whose slicing does not panic; slices are pairwise more than 20
       bytes apart and in order; at most max(max,1) of them; all non-empty as soon as window >= 1;
       a non-empty text always yields at least one slice. *)
Theorem C35_slices_always :
  forall (t : bytes) (occs : list (N * N)) (window max_snippets : N) (sl : list (N * N)),
    compute_snippet_slices t occs window max_snippets = Ok sl ->
    Forall (slice_sane t) sl /\ separated sl /\
    N.of_nat (length sl) <= N.max max_snippets 1 /\
    (1 <= window -> Forall (slice_valid t) sl) /\
    (t <> [] -> sl <> []) /\ (t = [] -> sl = []).
Proof. exact slices_always. Qed.
Print Assumptions C35_slices_always.

(* (3) the only panic is the end + window/2 overflow; no-overflow arguments always return *)
Theorem C35_panic_only_on_overflow :
  forall t occs window max_snippets s,
    compute_snippet_slices t occs window max_snippets = Panic s ->
    known_end_overflow t occs window max_snippets = true.
Proof.
  intros t occs window max_snippets s. exact (Facts.post_panic (compute_post t occs window max_snippets)).
Qed.
Print Assumptions C35_panic_only_on_overflow.

Theorem C35_total_without_overflow :
  forall t occs window max_snippets,
    forallb (fun o => negb (end_overflows window o)) occs = true ->
    exists sl, compute_snippet_slices t occs window max_snippets = Ok sl.
Proof. exact total_without_overflow. Qed.
Print Assumptions C35_total_without_overflow.

(* (4) the property as stated is refuted (arguments in machine range) *)
Theorem C35_slices_ok_refuted :
  exists t occs window max_snippets,
    usize_args occs window max_snippets /\
    ~ slices_ok t max_snippets (compute_snippet_slices t occs window max_snippets).
Proof.
  destruct max_zero_necessary as (t & occs & w & m & H1 & _ & H3). exists t, occs, w, m. split; assumption.
Qed.
Print Assumptions C35_slices_ok_refuted.

(* (5) outside the three known classes it holds; known_class = negb guard *)
Theorem C35_slices_ok_outside_known :
  forall t occs window max_snippets,
    known_class t occs window max_snippets = false ->
    slices_ok t max_snippets (compute_snippet_slices t occs window max_snippets).
Proof.
  intros t occs window max_snippets Hk. apply slices_ok_under_guard. rewrite guard_known, Hk. reflexivity.
Qed.
Print Assumptions C35_slices_ok_outside_known.

(* (6) each conjunct of the guard is necessary: a witness violating only that conjunct *)
Theorem C35_guard_max_necessary :
  exists t occs window max_snippets,
    usize_args occs window max_snippets /\ only_max_zero t occs window max_snippets = true /\
    ~ slices_ok t max_snippets (compute_snippet_slices t occs window max_snippets).
Proof. exact max_zero_necessary. Qed.
Print Assumptions C35_guard_max_necessary.

Theorem C35_guard_window_necessary :
  exists t occs window max_snippets,
    usize_args occs window max_snippets /\ only_window_zero t occs window max_snippets = true /\
    ~ slices_ok t max_snippets (compute_snippet_slices t occs window max_snippets).
Proof. exists [46; 32; 32], [(1, 2)], 0, 3. apply refutes_sound. vm_compute. reflexivity. Qed.
Print Assumptions C35_guard_window_necessary.

Theorem C35_guard_overflow_necessary :
  exists t occs window max_snippets,
    usize_args occs window max_snippets /\ only_end_overflow t occs window max_snippets = true /\
    ~ slices_ok t max_snippets (compute_snippet_slices t occs window max_snippets).
Proof. exists [97], [(0, 18446744073709551615)], 2, 1. apply refutes_sound. vm_compute. reflexivity. Qed.
Print Assumptions C35_guard_overflow_necessary.

(* the max-zero class fails on each of its members, not only on the witness *)
Theorem C35_max_zero_always_fails :
  forall t occs window, t <> [] -> ~ slices_ok t 0 (compute_snippet_slices t occs window 0).
Proof.
  intros t occs window Ht Hok.
  destruct (compute_snippet_slices t occs window 0) as [sl|k|p] eqn:E; cbn [slices_ok] in Hok; try contradiction.
  destruct Hok as (_ & _ & Hc).
  (* fifth clause of holds_always: a non-empty text gives at least one slice *)
  apply slices_always in E as (_ & _ & _ & _ & Hne & _).
  specialize (Hne Ht). destruct sl; [congruence | cbn [length] in Hc; lia].
Qed.
Print Assumptions C35_max_zero_always_fails.

(* (7) in-tree call sites (tantivy.rs, fallback.rs: window = snippet_chars.max(80), max = top_k.max(1);
       lex.rs: 160, 3) with occurrence ends that are offsets into a string (< 2^63): the property
       holds whatever the text and whatever the order/position of the occurrences *)
Theorem C35_call_sites :
  forall t occs snippet_chars top_k,
    snippet_chars < USIZE_LIMIT -> Forall (fun o => snd o < ISIZE_LIMIT) occs ->
    slices_ok t (N.max top_k 1) (compute_snippet_slices t occs (N.max snippet_chars 80) (N.max top_k 1)).
Proof. exact callsite_slices_ok. Qed.
Print Assumptions C35_call_sites.

Theorem C35_call_site_lex_search :
  forall t occs, Forall (fun o => snd o < ISIZE_LIMIT) occs ->
                 slices_ok t 3 (compute_snippet_slices t occs 160 3).
Proof.
  intros t occs He. exact (callsite_slices_ok t occs 160 3 ltac:(unfold USIZE_LIMIT; lia) He).
Qed.
Print Assumptions C35_call_site_lex_search.

(* occurrences produced by the `haystack[start..].find(needle)` loops (collect_token_occurrences,
   LexIndex::compute_matches), in any order and with any subset removed (sort, dedup).  The text `t`
   that is sliced and the haystack `hay` the occurrences were found in are independent, as in
   tantivy.rs (occurrences from the frame's search_text, slices of the chunk text): *)
Theorem C35_call_sites_collected :
  forall t hay tokens occs snippet_chars top_k,
    len hay < ISIZE_LIMIT -> snippet_chars < USIZE_LIMIT ->
    incl occs (collect_token_occurrences_unsorted hay tokens) ->
    slices_ok t (N.max top_k 1) (compute_snippet_slices t occs (N.max snippet_chars 80) (N.max top_k 1)).
Proof. exact callsite_with_collected_occurrences. Qed.
Print Assumptions C35_call_sites_collected.

(* (8) the boolean oracle used by the correspondence run is the property *)
Theorem C35_oracle_is_property :
  forall t max_snippets r, slices_okb t max_snippets r = true <-> slices_ok t max_snippets r.
Proof. exact slices_okb_spec. Qed.
Print Assumptions C35_oracle_is_property.

(* (9) the model's char_indices (lead-byte positions) is what a width-stepping UTF-8 decoder yields
       on every structurally well-formed byte string (lead byte + width-1 continuation bytes) *)
Theorem C35_char_indices_is_decoder :
  forall bs, utf8_shape (length bs) bs = true -> decode_indices (length bs) bs 0 = char_indices bs.
Proof. intros bs H. apply decode_indices_eq; [lia | exact H]. Qed.
Print Assumptions C35_char_indices_is_decoder.

(* for the hex literals; not at the head of the file, where it would make the bare `length` of (9) the
   one of String *)
From Coq Require Import String.

(* Non-vacuity.  "Zoe-diaeresis naive. <3 CJK chars> text! " ++ 30 x 'x' ++ ". " ++ 30 x 'x' ++ " end? tail"
   (101 bytes, multi-byte): three occurrences (the first starts inside the 2-byte char at 2..4, the
   last is out of order), window 7, max 3: the guard holds, two slices, the unsorted one is merged. *)
Definition sample_text : bytes :=
  hex "5a6fc3ab206e61c3af76652e20e697a5e69cace8aa9e207465787421" ++ [32] ++ repeat 120 30 ++ [46; 32] ++
  repeat 120 30 ++ hex "20656e643f207461696c".
Example C35_nonvacuous_guard :
  guard sample_text [(3, 5); (75, 78); (13, 22)] 7 3 = true /\
  compute_snippet_slices sample_text [(3, 5); (75, 78); (13, 22)] 7 3 = Ok [(0, 12); (61, 96)] /\
  is_char_boundary sample_text 3 = false.
Proof. vm_compute. repeat split. Qed.

Example C35_nonvacuous_decoder :
  utf8_shape (List.length sample_text) sample_text = true /\ List.length (char_indices sample_text) = 93%nat.
Proof. vm_compute. split; reflexivity. Qed.

(* call-site arguments: snippet_chars 0 -> window 80, top_k 0 -> max 1 *)
Example C35_nonvacuous_call_site :
  compute_snippet_slices sample_text [(13, 22); (70, 73)] (N.max 0 80) (N.max 0 1) = Ok [(0, 96)] /\
  Forall (fun o => snd o < ISIZE_LIMIT) [(13, 22); (70, 73)].
Proof. split; [vm_compute; reflexivity | repeat constructor]. Qed.

(* collected occurrences: needle "ab" in "xabab.ab" (and an empty token, skipped) *)
Example C35_nonvacuous_collected :
  collect_token_occurrences_unsorted (hex "78616261622e6162") [hex "6162"; []] = [(1, 3); (3, 5); (6, 8)].
Proof. vm_compute. reflexivity. Qed.
