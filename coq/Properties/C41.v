(* C41 Background enrichment is safe under any interleaving.
   "With an enrichment worker running on a shared handle, for any interleaving of its steps with
    foreground puts, searches and commits, no acknowledged frame is lost and only frames queued for
    enrichment change state.  Every queued frame ends Enriched exactly once, and the worker stops
    when asked."

   Model: Model/Enrich.v (run_worker_loop as a state machine, the four closures of
   start_enrichment_worker, next/process/complete_enrichment_task, mark_frame_enriched,
   process_all_enrichment, the queue push at the end of put_internal) on top of the frame-table
   model Model/Store.v (C01/C06).  Short proofs stand under the statements; what they rest on is in
   Proofs/Enrich*.v (the machine, the invariant `Inv`, progress).

   A schedule is ANY list of `SW extra` (the worker runs its next critical section) and `SF op`
   (the foreground runs put / update / delete / commit / search / process_all_enrichment / stop);
   `run iv sched` executes it from a fresh memory with checkpoint_interval = iv.  All theorems
   below quantify over every iv and every schedule: no bound on length, on the number of worker
   steps between two foreground calls, or on where checkpoints and automatic commits fall.

   Verdict.  Safety half: PROVED for all schedules (frame table, who changes state, queue
   discipline, worker stops).  "Every queued frame ends Enriched": REFUTED -- the worker may
   process a task before the put that queued it is committed; the task is then dropped with
   "Frame not found" and the frame stays Searchable for ever (finding F-C41-1, class
   enriched-before-commit); proved outside that class.  "exactly once": REFUTED -- `get` and
   `complete` are separate critical sections and Memvid::process_all_enrichment is public, so a
   foreground drain between them processes the same task a second time (finding F-C41-2, class
   drain-overlaps-worker); proved outside that class. *)
From MV Require Import Base.Prelude Model.Store Model.StoreSpec Proofs.StoreProofs Model.Derived Model.Enrich
  Proofs.EnrichProofs Proofs.EnrichQueueProofs Proofs.EnrichLiveProofs.
Local Open Scope N_scope.

(* (1) no acknowledged frame is lost *)
(* e_hist = the foreground's store calls with the results they returned, in order (2).  Whatever
   the worker did in between (its checkpoints are commits at arbitrary points, its complete/mark
   steps set `dirty`), the frames the memory exposes are exactly the reference table obtained by
   applying the acknowledged foreground calls one after the other -- the reference model of C01 --
   and once nothing is pending the committed table itself is that table.
   Partial in the sense of C01: side condition run_ok (no put asks for the internal DocumentChunk
   role -- FPut cannot -- and no acknowledged update targets a chunk frame). *)
Theorem C41_frame_table_is_foreground_reference_partial :
  forall (iv : N) (sched : list sitem),
    let e := fst (run iv sched) in
    run_ok [] (e_hist e) = true ->
    view (e_st e) = ref_run [] (e_hist e) /\ (pending (e_st e) = [] -> committed (e_st e) = ref_run [] (e_hist e)).
Proof. intros iv sched. exact (frame_table_any_entry_flag iv false sched). Qed.
Print Assumptions C41_frame_table_is_foreground_reference_partial.

(* (2) the history fed to the reference model is the foreground's calls alone: worker steps add nothing *)
Theorem C41_history_is_the_foreground_calls :
  forall (iv : N) (sched : list sitem), map fst (e_hist (fst (run iv sched))) = fore_calls sched.
Proof. intros iv sched. exact (hist_calls iv sched (e0, w0)). Qed.
Print Assumptions C41_history_is_the_foreground_calls.

(* (3) only frames queued for enrichment change state; queue discipline *)
(* In every reachable state: the queue holds only ids pushed by a put that asked for enrichment
   (e_queued = "ids queued so far") and holds each at most once; mark_frame_enriched has only ever
   hit such ids (e_marked); so has every process_enrichment_task call (e_plog); queued ids are ids
   of frames that exist (below next_frame_id); and the worker's in-flight task is still the FIRST
   task of the queue or is no longer in the queue at all. *)
Theorem C41_queue_discipline :
  forall (iv : N) (sched : list sitem),
    let e := fst (run iv sched) in let w := snd (run iv sched) in
    incl (e_queue e) (e_queued e) /\ incl (e_marked e) (e_queued e) /\ incl (e_plog e) (e_queued e) /\
    NoDup (e_queue e) /\ below (e_queued e) (next_frame_id (e_st e)) /\
    (forall t, (w_pc w = WHasTask t \/ w_pc w = WProcessed t) ->
               In t (e_queued e) /\ (~ In t (e_queue e) \/ exists r, e_queue e = t :: r)).
Proof.
  intros iv sched e w. destruct (Inv_run iv false sched) as [HI HW].
  exact (conj (E_queue _ HI) (conj (InvE_marked _ HI) (conj (E_plog _ HI) (conj (E_nodup _ HI) (conj (E_below _ HI) (InvW_flight HW)))))).
Qed.
Print Assumptions C41_queue_discipline.

(* hence a frame that was never queued has the state its put gave it (Enriched = 1) in every
   reachable state, whatever the interleaving *)
Theorem C41_unqueued_frame_never_changes_state :
  forall (iv : N) (sched : list sitem) (i : N),
    ~ In i (e_queued (fst (run iv sched))) -> state_of (fst (run iv sched)) i = 1.
Proof.
  intros iv sched i Hn. apply state_of_unqueued. exact Hn.
Qed.
Print Assumptions C41_unqueued_frame_never_changes_state.

(* (4) every queued frame ends Enriched *)
(* what IS true of every schedule: a queued id is still queued, or Enriched, or its task ran when
   the frame was not committed yet (e_early), or when it was committed but no longer Active --
   deleted or superseded by the foreground (e_gone) *)
Theorem C41_every_queued_frame_accounted :
  forall (iv : N) (sched : list sitem) (i : N),
    let e := fst (run iv sched) in
    In i (e_queued e) -> In i (e_queue e) \/ In i (e_marked e) \/ In i (e_early e) \/ In i (e_gone e).
Proof.
  intros iv sched i e Hi. pose proof (I_E _ (Inv_run iv false sched)) as HI.
  destruct (proj1 (E_cover _ HI i) Hi) as [H|H]; [left; exact H|right; exact (proj2 (E_done _ HI i) H)].
Qed.
Print Assumptions C41_every_queued_frame_accounted.

(* REFUTED as stated.  put(instant_index, enable_embedding) ; worker: get, process ("Frame not
   found": frame 0 is only in the log), complete ; commit.  Afterwards the queue is empty, nothing
   is pending, frame 0 is committed, Active and queued -- and Searchable after ANY number of
   further worker steps.  (Executed on the unchanged implementation: KNOWN_FINDINGS F-C41-1.) *)
Definition early_witness : list sitem :=
  [SF (FPut (Some 1) 1000 0 None true); SW 0; SW 0; SW 0; SF (FCommit 1)].

Theorem C41_every_queued_frame_enriched_refuted :
  exists (iv : N) (sched : list sitem) (i : N),
    let x := run iv sched in
    In i (e_queued (fst x)) /\ e_queue (fst x) = [] /\ pending (e_st (fst x)) = [] /\
    frame_found (e_st (fst x)) i = true /\ run_ok [] (e_hist (fst x)) = true /\
    forall n, state_of (fst (wsteps iv n x)) i = 0 /\ e_queue (fst (wsteps iv n x)) = [].
Proof.
  exists 100, early_witness, 0. cbv zeta.
  split; [vm_compute; left; reflexivity|]. split; [vm_compute; reflexivity|]. split; [vm_compute; reflexivity|].
  split; [vm_compute; reflexivity|]. split; [vm_compute; reflexivity|].
  intros n. rewrite (surjective_pairing (run 100 early_witness)).
  rewrite wsteps_idle by (vm_compute; reflexivity). split; vm_compute; reflexivity.
Qed.
Print Assumptions C41_every_queued_frame_enriched_refuted.

(* outside the known class (no task was processed before its frame was committed: e_early empty)
   every queued id is still in the queue, or Enriched, or belongs to a frame the foreground deleted
   or superseded before its task ran *)
Theorem C41_every_queued_frame_enriched_outside_known :
  forall (iv : N) (sched : list sitem),
    known_early iv sched = false ->
    let e := fst (run iv sched) in
    forall i, In i (e_queued e) -> In i (e_queue e) \/ state_of e i = 1 \/ In i (e_gone e).
Proof.
  intros iv sched Hk e i Hi. unfold known_early in Hk. fold e in Hk. apply negb_false_iff in Hk.
  destruct (C41_every_queued_frame_accounted iv sched i Hi) as [H|[H|[H|H]]]; fold e in H.
  - left. exact H.
  - right. left. exact (state_of_marked e i H).
  - destruct (e_early e); [destruct H|discriminate].
  - right. right. exact H.
Qed.
Print Assumptions C41_every_queued_frame_enriched_outside_known.

(* (5) exactly once *)
(* REFUTED as stated.  put+commit ; worker: get(0) ; foreground process_all_enrichment (processes
   and completes task 0) ; worker: process(0) again, complete(0).  process_enrichment_task ran
   twice on frame 0; frames_processed counts 1 for the worker plus the foreground's 1. *)
Definition overlap_witness : list sitem :=
  [SF (FPut (Some 1) 1000 0 None true); SF (FCommit 1); SW 0; SF FDrain; SW 0; SW 0].

Theorem C41_exactly_once_refuted :
  exists (iv : N) (sched : list sitem),
    ~ NoDup (e_plog (fst (run iv sched))) /\ state_of (fst (run iv sched)) 0 = 1.
Proof.
  exists 100, overlap_witness. split; [|vm_compute; reflexivity].
  assert (E : e_plog (fst (run 100 overlap_witness)) = [0; 0]) by (vm_compute; reflexivity).
  rewrite E. intros H. inversion H as [|a l Hn _]; subst. apply Hn. left. reflexivity.
Qed.
Print Assumptions C41_exactly_once_refuted.

(* outside the known class (no foreground drain ran on a non-empty queue while the worker was
   between its get and its complete) no task is ever processed twice, by anyone: the log of ALL
   process_enrichment_task calls has no duplicates.  With (4): each queued frame is processed
   exactly once by the time it has left the queue. *)
Theorem C41_exactly_once_outside_known :
  forall (iv : N) (sched : list sitem),
    known_overlap iv sched = false -> NoDup (e_plog (fst (run iv sched))).
Proof. intros iv sched Hk. exact (O_nodup (W_once (I_W _ (Inv_run iv false sched)) Hk)). Qed.
Print Assumptions C41_exactly_once_outside_known.

(* (6) the worker stops when asked *)
(* from ANY state in which the stop flag is set, under ANY continuation in which the worker gets
   at least four steps (fairness premise), whatever the foreground does in between: the loop has
   exited (final checkpoint done), and it has processed at most the one task it already held *)
Theorem C41_worker_stops :
  forall (iv : N) (sched : list sitem) (x : est * wst),
    e_stop (fst x) = true -> (4 <= countW sched)%nat ->
    w_pc (snd (run_from iv x sched)) = WStopped /\
    w_nproc (snd (run_from iv x sched)) <= w_nproc (snd x) + owed (w_pc (snd x)).
Proof.
  intros iv sched x Hs Hc. destruct (stop_bound iv sched x Hs) as (_ & B & C & _).
  pose proof (rank_le_4 (w_pc (snd x))). split; [apply rank_0|]; lia.
Qed.
Print Assumptions C41_worker_stops.

(* ... and never fetches a new task once the flag is set: at most the current loop iteration runs *)
Theorem C41_no_new_task_after_stop :
  forall (iv extra : N) (e : est) (w : wst) (t : N),
    e_stop e = true -> w_pc (snd (wstep iv extra (e, w))) <> WHasTask t.
Proof.
  (* holding a fresh task has rank 4, and no step taken under the flag ends above 3 *)
  intros iv extra e w t Hs E. destruct (wstep_stop iv extra e w Hs) as (_ & R & _). rewrite E in R.
  pose proof (rank_le_4 (w_pc w)). cbn [rank] in R. lia.
Qed.
Print Assumptions C41_no_new_task_after_stop.

(* run_pre iv b sched = the loop entered with the handle's flag = b (Model/Enrich.v `init`): entry
   does not touch the flag.  Nobody clears it afterwards: no worker step and no foreground call
   (the caller has no "un-stop"), from ANY state: *)
Theorem C41_stop_flag_is_never_cleared :
  forall (iv : N) (sched : list sitem) (x : est * wst),
    e_stop (fst x) = true -> e_stop (fst (run_from iv x sched)) = true.
Proof. intros iv sched x Hs. apply (stop_bound iv sched x Hs). Qed.
Print Assumptions C41_stop_flag_is_never_cleared.

(* stop requested BEFORE run_worker_loop is entered (handle.stop() before the thread is spawned, or
   before its first instruction): for EVERY schedule the worker processes nothing, reports no
   error, and its first step -- if it is given one -- is the exit *)
Theorem C41_prestopped_loop_does_nothing :
  forall (iv : N) (sched : list sitem),
    let x := run_pre iv true sched in
    w_nproc (snd x) = 0 /\ w_nerr (snd x) = 0 /\ ((1 <= countW sched)%nat -> w_pc (snd x) = WStopped).
Proof.
  (* the worker is at the top of the loop owing nothing, so its counters can only stand still *)
  intros iv sched x. destruct (stop_bound iv sched (init true) eq_refl) as (_ & _ & Hn & Hr).
  cbn [init snd w0 w_nproc w_nerr w_pc owed] in Hn, Hr. fold (run_pre iv true sched) in Hn, Hr. fold x in Hn, Hr.
  split; [lia|]. split; [lia|]. intros Hc.
  apply (idle_worker_exits_on_next_step iv sched (init true)); [reflexivity|reflexivity|exact Hc].
Qed.
Print Assumptions C41_prestopped_loop_does_nothing.

(* stop requested at ANY position of ANY schedule (pre = everything before the request, including
   nothing at all; post = everything after, including further puts, commits, drains and further
   stop requests), whatever flag the loop was entered with: the flag stays set; the worker
   processes at most the one task it was holding when the request came -- none if it was at the top
   of the loop, where its very next step is the exit; and in every case it has left the loop once
   it has been given four steps (the rest of the iteration in progress -- process, complete,
   checkpoint -- and the exit) *)
Theorem C41_stop_at_any_time :
  forall (iv : N) (b : bool) (pre post : list sitem),
    let x := run_pre iv b pre in
    let y := run_pre iv b (pre ++ SF FStop :: post) in
    e_stop (fst y) = true /\
    ((4 <= countW post)%nat -> w_pc (snd y) = WStopped) /\
    w_nproc (snd y) <= w_nproc (snd x) + owed (w_pc (snd x)) /\
    (w_pc (snd x) = WTop -> (1 <= countW post)%nat -> w_pc (snd y) = WStopped /\ w_nproc (snd y) <= w_nproc (snd x)).
Proof.
  intros iv b pre post x y. unfold y, run_pre. rewrite run_from_app. fold (run_pre iv b pre). fold x.
  change (run_from iv x (SF FStop :: post)) with (run_from iv (fstep FStop x) post).
  assert (Hs : e_stop (fst (fstep FStop x)) = true) by (destruct x as [e w]; reflexivity).
  assert (Hw : snd (fstep FStop x) = snd x) by (destruct x as [e w]; reflexivity).
  split; [exact (C41_stop_flag_is_never_cleared iv post _ Hs)|]. rewrite <- Hw. split; [|split].
  - intros Hc. apply (C41_worker_stops iv post _ Hs Hc).
  - destruct (stop_bound iv post _ Hs) as (_ & _ & C & _). lia.
  - intros Hp Hc. exact (idle_worker_exits_on_next_step iv post _ Hs Hp Hc).
Qed.
Print Assumptions C41_stop_at_any_time.

(* (1) holds from either entry flag *)
Theorem C41_frame_table_any_entry_flag_partial :
  forall (iv : N) (b : bool) (sched : list sitem),
    let e := fst (run_pre iv b sched) in
    run_ok [] (e_hist e) = true ->
    view (e_st e) = ref_run [] (e_hist e) /\ (pending (e_st e) = [] -> committed (e_st e) = ref_run [] (e_hist e)).
Proof. exact frame_table_any_entry_flag. Qed.
Print Assumptions C41_frame_table_any_entry_flag_partial.

(* non-vacuity: a pre-stopped loop facing two committed queued documents and as many steps as it
   likes; and a stop landing between get and process (one task still processed), followed by more
   queued puts that are never touched, and a second stop *)
Example C41_prestopped_nonvacuous :
  let x := run_pre 1 true [SF (FPut None 1000 0 None true); SF (FCommit 1); SW 0; SW 0; SF (FPut None 2000 0 None true); SF (FCommit 1); SW 0; SW 0] in
  e_queue (fst x) = [0; 1] /\ map (state_of (fst x)) [0; 1] = [0; 0] /\ w_nproc (snd x) = 0 /\ w_pc (snd x) = WStopped /\ e_plog (fst x) = [].
Proof. vm_compute. repeat split. Qed.
Example C41_stop_mid_iteration_nonvacuous :
  let pre := [SF (FPut None 1000 0 None true); SF (FPut None 2000 0 None true); SF (FCommit 1); SW 0] in
  let post := [SW 0; SF (FPut None 3000 0 None true); SF (FCommit 1); SW 0; SF FStop; SW 1; SW 0; SW 0] in
  w_pc (snd (run_pre 1 false pre)) = WHasTask 0 /\
  let y := run_pre 1 false (pre ++ SF FStop :: post) in
  w_pc (snd y) = WStopped /\ w_nproc (snd y) = 1 /\ e_queue (fst y) = [1; 2] /\ map (state_of (fst y)) [0; 1; 2] = [1; 0; 0].
Proof. vm_compute. repeat split. Qed.

(* (7) the queue drains: four worker steps per task *)
(* from ANY state with the worker running and not asked to stop, with k tasks queued and the
   foreground silent, 4k+3 worker steps (4 per task: get, process, complete, checkpoint; 3 for the
   iteration it may be in the middle of) empty the queue and leave the worker idle *)
Theorem C41_queue_drains_in_4k_plus_3_steps :
  forall (iv : N) (x : est * wst) (n : nat),
    e_stop (fst x) = false -> w_pc (snd x) <> WStopped ->
    (4 * length (e_queue (fst x)) + 3 <= n)%nat ->
    e_queue (fst (wsteps iv n x)) = [] /\ w_pc (snd (wsteps iv n x)) = WTop.
Proof.
  intros iv x n Hs Hp Hn. destruct (wsteps_towards_drain iv n x (conj Hs Hp)) as [G M].
  pose proof (steps_to_drain_bound x). apply steps_to_drain_zero; [exact G|lia].
Qed.
Print Assumptions C41_queue_drains_in_4k_plus_3_steps.

(* ... and if the foreground went silent after a commit (nothing pending), every queued task whose
   frame is committed and Active, and which the worker has not already processed, ends Enriched *)
Theorem C41_quiet_foreground_every_live_task_enriched :
  forall (iv : N) (x : est * wst) (n : nat) (t : N),
    e_stop (fst x) = false -> w_pc (snd x) <> WStopped -> pending (e_st (fst x)) = [] ->
    In t (e_queue (fst x)) -> frame_found (e_st (fst x)) t = true -> w_pc (snd x) <> WProcessed t ->
    (4 * length (e_queue (fst x)) + 3 <= n)%nat ->
    state_of (fst (wsteps iv n x)) t = 1 /\ e_queue (fst (wsteps iv n x)) = [].
Proof.
  intros iv x n t Hs Hp Hpend Hq Hf Hnp Hn.
  destruct (C41_queue_drains_in_4k_plus_3_steps iv x n Hs Hp Hn) as [Hnil _].
  destruct (wsteps_Live iv t n x (conj Hpend (conj Hf (or_introl (conj Hq Hnp))))) as (_ & _ & Hd).
  split; [|exact Hnil]. destruct Hd as [[Hin _]|Hm]; [rewrite Hnil in Hin; destruct Hin|exact (state_of_marked _ t Hm)].
Qed.
Print Assumptions C41_quiet_foreground_every_live_task_enriched.

(* a schedule with a chunked document, queued and unqueued puts, an update, a delete, worker steps
   spread between them with checkpoint_interval 2, a stop and the final steps: the side condition
   of (1) holds, both known classes are avoided, queued frames 0 and 4 end Enriched, frame 1 (not
   queued) never changed, the deleted queued frame 5 is accounted for as `gone`, the worker
   processed 3 tasks with 1 error and stopped. *)
Definition demo : list sitem :=
  [SF (FPut (Some 1) 1000 0 None true); SF (FPut None 2000 2 None false); SF (FCommit 1); SW 0; SF FSearch; SW 0;
   SF (FPut (Some 2) 3000 0 None true); SF (FPut (Some 3) 4000 0 None true); SW 0; SF (FCommit 1); SF (FDelete 5 None); SF (FCommit 1);
   SW 0; SW 0; SW 0; SF (FUpdate 1 (Some 5000) None None); SW 1; SW 0; SW 0; SW 0; SF FStop; SW 0; SW 0; SW 0; SW 0; SF (FCommit 1)].

Example C41_nonvacuous :
  let x := run 2 demo in
  run_ok [] (e_hist (fst x)) = true /\ known_early 2 demo = false /\ known_overlap 2 demo = false /\
  e_queued (fst x) = [0; 4; 5] /\ e_queue (fst x) = [] /\ e_gone (fst x) = [5] /\
  map (state_of (fst x)) [0; 1; 2; 3; 4; 5; 6] = [1; 1; 1; 1; 1; 0; 1] /\
  map (fun f => (f_id f, f_status f, f_tag f)) (view (e_st (fst x))) =
    [(0, 0, 1000); (1, 1, 2000); (2, 0, 2001); (3, 0, 2002); (4, 0, 3000); (5, 2, 4000); (6, 0, 5000)] /\
  e_plog (fst x) = [0; 4; 5] /\ w_nproc (snd x) = 3 /\ w_nerr (snd x) = 1 /\ w_pc (snd x) = WStopped.
Proof. vm_compute. repeat split. Qed.

(* the hypotheses of (6) and (7) are met by reachable states *)
Example C41_stop_hypotheses_satisfiable :
  let x := run 2 [SF (FPut None 1000 0 None true); SF (FCommit 1); SW 0; SF FStop] in
  e_stop (fst x) = true /\ w_pc (snd x) = WHasTask 0 /\
  w_pc (snd (run_from 2 x [SW 0; SF (FPut None 2000 0 None true); SW 0; SW 0; SW 0])) = WStopped /\
  w_nproc (snd (run_from 2 x [SW 0; SF (FPut None 2000 0 None true); SW 0; SW 0; SW 0])) = 1.
Proof. vm_compute. repeat split. Qed.

Example C41_drain_hypotheses_satisfiable :
  let x := run 100 [SF (FPut None 1000 0 None true); SF (FPut None 2000 0 None true); SF (FCommit 1); SW 0] in
  e_stop (fst x) = false /\ w_pc (snd x) = WHasTask 0 /\ pending (e_st (fst x)) = [] /\ e_queue (fst x) = [0; 1] /\
  frame_found (e_st (fst x)) 1 = true /\
  map (state_of (fst (wsteps 100 11 x))) [0; 1] = [1; 1] /\ e_queue (fst (wsteps 100 11 x)) = [].
Proof. vm_compute. repeat split. Qed.

(* final state of both witnesses.  F-C41-1: the task ran early, the error is counted, the frame
   stays Searchable.  F-C41-2: the worker counts one task.  Both known-class tests fire. *)
Example C41_early_witness_trace :
  let x := run 100 early_witness in
  e_early (fst x) = [0] /\ w_nproc (snd x) = 1 /\ w_nerr (snd x) = 1 /\ state_of (fst x) 0 = 0 /\
  known_early 100 early_witness = true /\ known_overlap 100 overlap_witness = true /\
  w_nproc (snd (run 100 overlap_witness)) = 1.
Proof. vm_compute. repeat split. Qed.
