(* C34 Chunk planning partitions the document text.
   Short proofs stand under the statements; what they rest on is in Proofs/ChunksProofs.v
   (unstructured planner) and Proofs/StructChunkProofs.v (structured chunker).
   A text is the list of its characters; the three character tests of the code
   (`== '\n'`, is_sentence_terminal, char::is_whitespace) are arbitrary functions:
   every theorem of the unstructured half holds for ALL texts over ANY character type
   and ANY three tests. *)
From MV Require Import Base.Prelude Model.Chunks Proofs.ChunksProofs.
From MV Require Import Model.StructChunk Proofs.StructChunkProofs.
From MV Require Gen.Consts.

(* (1) build_chunk_manifest, every text, every chunk size 0 < chunk_chars < length:
       terminates with a result (no panic, fuel never runs out); the ranges are
       contiguous from 0 to the character count, each non-empty; the chunk texts
       (slice_text_range) concatenate to the text and none is empty; every range is at
       most chunk_chars + max(chunk_chars/5, 32) characters long. *)
Theorem C34_manifest_partitions_text :
  forall (A : Type) (is_nl is_term is_ws : A -> bool) (text : list A) (chunk_chars : nat),
    0 < chunk_chars -> chunk_chars < length text ->
    exists rs,
      build_chunk_manifest is_nl is_term is_ws text chunk_chars = Ok (Some rs) /\
      is_partition rs (length text) /\
      concat (map (slice_text_range text) rs) = text /\
      (forall c, In c (map (slice_text_range text) rs) -> c <> []) /\
      Forall (fun r => snd r - fst r <= chunk_chars + chunk_slack chunk_chars) rs.
Proof.
  intros A is_nl is_term is_ws text cc H0 H1.
  destruct (build_partition is_nl is_term is_ws text cc H0 H1) as (rs & E & _ & P & C & N & S).
  exists rs; auto.
Qed.
Print Assumptions C34_manifest_partitions_text.

(* (2) it returns None exactly for chunk_chars = 0 or a text of at most chunk_chars
       characters, and is total (some Ok result for every input). *)
Theorem C34_manifest_none_iff :
  forall (A : Type) (is_nl is_term is_ws : A -> bool) (text : list A) (chunk_chars : nat),
    build_chunk_manifest is_nl is_term is_ws text chunk_chars = Ok None <->
    chunk_chars = 0 \/ length text <= chunk_chars.
Proof. intros A. exact build_none_iff. Qed.
Print Assumptions C34_manifest_none_iff.

Theorem C34_manifest_total :
  forall (A : Type) (is_nl is_term is_ws : A -> bool) (text : list A) (chunk_chars : nat),
    exists r, build_chunk_manifest is_nl is_term is_ws text chunk_chars = Ok r.
Proof.
  intros A is_nl is_term is_ws text cc. pose proof (build_post is_nl is_term is_ws text cc) as H.
  destruct (build_chunk_manifest _ _ _ text cc) as [r|k|s]; [eexists; reflexivity | destruct H..].
Qed.
Print Assumptions C34_manifest_total.

(* (3) the property as stated, unstructured half: plan_text_chunks on a normalized text
       of at least CHUNK_MIN_CHARS (2400) characters without tables/code blocks returns
       a plan with chunk_chars = 1200 and at least two chunks whose ranges are
       contiguous, start at 0, end at the character count, are each non-empty, and
       whose chunk texts are non-empty and concatenate to the normalized text. *)
Theorem C34_unstructured_plan_partitions_text :
  forall (A : Type) (is_nl is_term is_ws : A -> bool) (normalized : list A) structural,
    CHUNK_MIN_CHARS <= length normalized ->
    exists rs,
      plan_text_chunks is_nl is_term is_ws (Some normalized) false structural
        = Ok (Some (DEFAULT_CHUNK_CHARS, rs, map (slice_text_range normalized) rs)) /\
      2 <= length rs /\
      is_partition rs (length normalized) /\
      concat (map (slice_text_range normalized) rs) = normalized /\
      (forall c, In c (map (slice_text_range normalized) rs) -> c <> []) /\
      Forall (fun r => snd r - fst r <= 1440) rs.
Proof. intros A. exact plan_text_unstructured. Qed.
Print Assumptions C34_unstructured_plan_partitions_text.

(* (4) below the threshold nothing is planned. *)
Theorem C34_below_threshold_no_plan :
  forall (A : Type) (is_nl is_term is_ws : A -> bool) (normalized : list A) hs structural,
    length normalized < CHUNK_MIN_CHARS ->
    plan_text_chunks is_nl is_term is_ws (Some normalized) hs structural = Ok None.
Proof.
  intros A is_nl is_term is_ws normalized hs structural Hlen.
  unfold plan_text_chunks. rewrite (proj2 (Nat.ltb_lt _ _) Hlen). reflexivity.
Qed.
Print Assumptions C34_below_threshold_no_plan.

(* (5) the model's chunk size is the one in src/memvid/chunks.rs (Gen/Consts.v is regenerated from
       the source at each run). *)
Theorem C34_consts_tied :
  N.of_nat DEFAULT_CHUNK_CHARS = MV.Gen.Consts.DEFAULT_CHUNK_CHARS /\
  CHUNK_MIN_CHARS = DEFAULT_CHUNK_CHARS * 2.
Proof. split; reflexivity. Qed.
Print Assumptions C34_consts_tied.

(* Non-vacuity: "ab. cd\nefgh ij! klm" with chunk_chars 4 (slack 32): the newline in the
   forward window wins, then the first forward terminal, then the end of the text;
   without the newline the terminal BEHIND the target wins (key 0). *)
Definition sample : list N := [97; 98; 46; 32; 99; 100; 10; 101; 102; 103; 104; 32; 105; 106; 33; 32; 107; 108; 109]%N.
Definition sample2 : list N := [97; 98; 46; 32; 99; 100; 32; 101; 102; 103; 104; 32; 105; 106; 33; 32; 107; 108; 109]%N.
Example C34_manifest_nonvacuous :
  cp_build_chunk_manifest sample 4 = Ok (Some [(0, 7); (7, 15); (15, 19)]) /\
  cp_build_chunk_manifest (sample ++ sample ++ sample ++ sample) 3
    = Ok (Some [(0, 7); (7, 26); (26, 45); (45, 64); (64, 72); (72, 73); (73, 76)]) /\
  cp_build_chunk_manifest (sample2 ++ sample2 ++ sample2) 4
    = Ok (Some [(0, 3); (3, 15); (15, 22); (22, 34); (34, 41); (41, 53); (53, 57)]) /\
  0 < 4 /\ 4 < length sample.
Proof. vm_compute. repeat split; repeat constructor. Qed.

(* a 2400-character text (100 x "abcdefgh ijklmnop qrstu. ") meets (3)'s hypothesis *)
Definition para : list N := [97;98;99;100;101;102;103;104;32;105;106;107;108;109;110;111;112;32;113;114;115;116;117;46]%N.
Definition long_text : list N := concat (repeat para 100).
Example C34_plan_nonvacuous :
  CHUNK_MIN_CHARS <= length long_text /\
  match cp_plan_text_chunks (Some long_text) false (Err 77%N) with
  | Ok (Some (cc, rs, chunks)) => cc = 1200 /\ rs = [(0, 1200); (1200, 2400)] /\ length chunks = 2
  | _ => False
  end.
Proof. vm_compute. repeat split; repeat constructor. Qed.

(* structured half (tables, code): PARTIAL
   Modelled: StructuralChunker::chunk (options of plan_structural_chunks) over the
   element list that detect_structure returns, each element with its rendered strings
   (format(), format_header(), format_row(), raw_text).  NOT modelled: detect_structure
   itself (regex heuristics) and the renderers -- they are inputs.  Missing for a full
   proof of the coverage clause: a model of the detector relating the lines of the
   normalized text to the elements.  "No chunk is empty" is checked by the oracle on
   the implementation only. *)

(* (6) for ANY whitespace test, ANY max_chars, ANY element list: every non-blank string
       the chunker is handed (paragraph text, rendered heading / list / code block,
       table raw text or -- for a split table -- the header and every rendered row) is,
       trimmed, inside some chunk; splitting a table terminates and loses no row. *)
Theorem C34_structured_chunker_keeps_rendered_partial :
  forall (is_ws : N -> bool) (max_chars : nat) (doc : list elem) (e : elem) (R : str),
    In e doc -> In R (kept max_chars e) -> blank is_ws R = false ->
    covered (chunk_doc is_ws max_chars doc) (trim is_ws R).
Proof. exact chunk_doc_keeps. Qed.
Print Assumptions C34_structured_chunker_keeps_rendered_partial.

(* (7) the coverage clause as stated fails: a horizontal rule between a paragraph and a
       code block is detected as a Separator element, for which the chunker emits
       nothing; the line "***" is in no chunk. *)
Definition rule_doc : list selem :=
  [ (EPara [97; 98]%N, [[97; 98]%N]);
    (ESep, [[42; 42; 42]%N]);
    (ECode [96; 96; 96; 10; 120; 10; 96; 96; 96]%N, [[96; 96; 96]%N; [120]%N]) ].
Theorem C34_structured_coverage_refuted :
  exists (doc : list selem) (l : str),
    l <> [] /\ (exists se, In se doc /\ In l (snd se)) /\
    2 <= length (chunk_doc cp_is_ws DEFAULT_CHUNK_CHARS (map fst doc)) /\
    ~ covered (chunk_doc cp_is_ws DEFAULT_CHUNK_CHARS (map fst doc)) l.
Proof.
  exists rule_doc, [42; 42; 42]%N. split; [discriminate|]. split.
  { exists (ESep, [[42; 42; 42]%N]). split; [right; left; reflexivity | left; reflexivity]. }
  split; [vm_compute; repeat constructor|].
  apply not_covered_b. vm_compute. reflexivity.
Qed.
Print Assumptions C34_structured_coverage_refuted.

(* (8) outside the known class -- no line skipped by the detector, and every element's
       source lines are inside the strings the chunker keeps for it (known_class is a
       boolean function of the input; Corr.C34 evaluates it on every generated case and
       the harness files a lost line under a known finding only when it is true) --
       every non-empty line of the normalized text is inside some chunk. *)
Theorem C34_structured_coverage_outside_known :
  forall (is_ws : N -> bool) (max_chars : nat) (doc : list selem) (skipped : list str),
    known_class is_ws max_chars doc skipped = false ->
    forall l, l <> [] ->
      (In l skipped \/ exists se, In se doc /\ In l (snd se)) ->
      covered (chunk_doc is_ws max_chars (map fst doc)) l.
Proof. exact coverage_outside_known. Qed.
Print Assumptions C34_structured_coverage_outside_known.

(* Non-vacuity of (8): heading, paragraph, a table split in three parts (max_chars 20),
   a list and a code block; known_class is false and six chunks come out. *)
Definition A (s : list N) := s.
Definition clean_doc : list selem :=
  let row1 := [124;32;49;32;124]%N in let row2 := [124;32;50;32;124]%N in let row3 := [124;32;51;32;124]%N in
  let hdr := [124;32;97;32;124;10;124;45;45;45;124]%N in
  let raw := hdr ++ [10]%N ++ row1 ++ [10]%N ++ row2 ++ [10]%N ++ row3 in
  [ (EHeading [35;32;72]%N, [[35;32;72]%N]);
    (EPara [80;97;114;97;46]%N, [[80;97;114;97;46]%N]);
    (ETable raw hdr [(row1, 4); (row2, 4); (row3, 4)], [[124;32;97;32;124]%N; [124;45;45;45;124]%N; row1; row2; row3]);
    (EList [45;32;120;10;45;32;121]%N, [[45;32;120]%N; [45;32;121]%N]);
    (ECode [96;96;96;10;122;10;96;96;96]%N, [[96;96;96]%N; [122]%N]) ].
Example C34_structured_nonvacuous :
  known_class cp_is_ws 20 clean_doc [] = false /\
  length (chunk_doc cp_is_ws 20 (map fst clean_doc)) = 6 /\
  known_class cp_is_ws DEFAULT_CHUNK_CHARS rule_doc [] = true.
Proof. vm_compute. repeat split. Qed.
