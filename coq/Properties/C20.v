(* C20 Corruption is detected, never served silently.
   Short proofs stand under the statements; what they rest on is in Proofs/DetectProofs.v ((2) and (9)
   also call one lemma each of Proofs/FooterProofs.v and Proofs/TocProofs.v).
   H = BLAKE3, unzstd = zstd::decode_all, lex_ok / vec_ok = "the lexical / vector index image
   decodes" are arbitrary functions.

   The property as stated is REFUTED by the faithful model: several region classes of a committed,
   closed file are read and used but compared with nothing (known_class below).  What is proved:
   - for the classes guarded by a hash (TOC bytes + commit footer on the read_toc path, memory-card /
     mesh tracks, frame payloads): every change is detected, given collision-freeness on the two byte strings involved;
   - frame payloads (plain and zstd): guarded by frame.checksum since /repo 55d5bb8 -- every change of the
     stored bytes is an error on read, and verify(deep) = Passed implies every active payload reads as
     committed (the theorems about the code before the fix are kept under `_unchecked_` names);
   - for the remaining unguarded classes: `_refuted` witnesses;
   - the detection table (Model/Detect.v `table`) predicts a silent difference in no class outside
     known_class (`_outside_known`);
   Partial: Tantivy / vector-index / sketch decoders and serde's behaviour on damaged input are observed
   by the correspondence run, not modelled. *)
From MV Require Import Base.Prelude Model.Footer Model.TimeIndex Model.Wal Model.Bincode Model.Toc Model.Detect Proofs.DetectProofs.
From MV Require Proofs.FooterProofs Proofs.TocProofs.
Local Open Scope N_scope.

(* (1) a content/digest pair checked by `H content == digest`: a fault that touches only one of the
       two fields (every single-byte flip; zeroing or truncation inside one field) and passes the
       check changed nothing. *)
Theorem C20_hash_guard_single_field :
  forall (H : bytes -> bytes) c d c' d',
    guard_check H c d = true -> guard_check H c' d' = true ->
    (c' = c \/ d' = d) -> (H c' = H c -> c' = c) -> c' = c /\ d' = d.
Proof.
  intros H c d c' d' Hc Hc' Hone Hcf. apply guard_check_true in Hc, Hc'.
  destruct Hone as [-> | ->].
  - split; [reflexivity | congruence].
  - split; [apply Hcf; congruence | reflexivity].
Qed.
Print Assumptions C20_hash_guard_single_field.

(* (1') any fault on both fields, if the damaged digest field is not the digest of the damaged content *)
Theorem C20_hash_guard_general :
  forall (H : bytes -> bytes) c d c' d',
    guard_check H c d = true -> guard_check H c' d' = true ->
    (H c' = H c -> c' = c) -> (d' <> d -> H c' <> d') -> c' = c /\ d' = d.
Proof.
  intros H c d c' d' Hc Hc' Hcf Hnf. apply guard_check_true in Hc, Hc'.
  destruct (list_eq_dec N.eq_dec d' d) as [-> | Hne].
  - split; [apply Hcf; congruence | reflexivity].
  - exfalso. exact (Hnf Hne Hc').
Qed.
Print Assumptions C20_hash_guard_general.

(* (2) TOC bytes and commit footer (classes toc, footer-magic, footer-toc-len, footer-toc-hash) on the
       read_toc path: the clean file is pre ++ toc ++ footer(f) with f.toc_hash = H toc; in a faulted file
       of the same layout where the TOC bytes or the footer (not both) changed, read_toc answers Ok only
       with the original TOC bytes, and then the TOC bytes are unchanged. *)
Theorem C20_toc_footer_hash_detects :
  forall (H : bytes -> bytes) pre' toc toc' f foot' off t,
    (toc_len f < 2 ^ 64) -> (generation f < 2 ^ 64) -> length (toc_hash f) = 32%nat ->
    toc_hash f = H toc ->
    N.of_nat (length pre') = off -> length foot' = FOOTER_SIZE ->
    (toc' = toc \/ foot' = footer_encode f) ->
    (H toc' = H toc -> toc' = toc) ->
    read_toc H (pre' ++ toc' ++ foot') off = Ok t ->
    t = toc /\ toc' = toc.
Proof.
  intros H pre' toc toc' f foot' off t Hl Hg Hh Hsum Hoff Hfoot Hone Hcf Hr.
  destruct (read_toc_layout H pre' toc' foot' off t Hoff Hfoot Hr) as [-> [f' [Hdec [Hhash _]]]].
  destruct Hone as [-> | ->]; [split; reflexivity|].
  rewrite (FooterProofs.footer_decode_encode f Hl Hg Hh) in Hdec. inversion Hdec; subst f'.
  assert (toc' = toc) by (apply Hcf; congruence). subst. split; reflexivity.
Qed.
Print Assumptions C20_toc_footer_hash_detects.

Theorem C20_toc_footer_hash_detects_general :
  forall (H : bytes -> bytes) pre' toc toc' f foot' off t,
    toc_hash f = H toc ->
    N.of_nat (length pre') = off -> length foot' = FOOTER_SIZE ->
    (H toc' = H toc -> toc' = toc) ->
    (forall f', footer_decode foot' = Some f' -> toc_hash f' <> toc_hash f -> H toc' <> toc_hash f') ->
    read_toc H (pre' ++ toc' ++ foot') off = Ok t -> t = toc.
Proof.
  intros H pre' toc toc' f foot' off t Hsum Hoff Hfoot Hcf Hnf Hr.
  destruct (read_toc_layout H pre' toc' foot' off t Hoff Hfoot Hr) as [-> [f' [Hdec [Hhash _]]]].
  destruct (list_eq_dec N.eq_dec (toc_hash f') (toc_hash f)) as [E | Hne].
  - apply Hcf. congruence.
  - exfalso. exact (Hnf f' Hdec Hne Hhash).
Qed.
Print Assumptions C20_toc_footer_hash_detects_general.

(* (3) memory-card and mesh tracks: loaded only if BLAKE3 of the bytes equals the manifest checksum *)
Theorem C20_track_checksum_detects :
  forall (H : bytes -> bytes) file file' off len sum b b',
    load_track H file off len sum = Ok b -> load_track H file' off len sum = Ok b' ->
    (H b' = H b -> b' = b) -> b' = b.
Proof.
  intros H file file' off len sum b b' H1 H2 Hcf. apply load_track_ok_inv in H1, H2.
  destruct H1 as [_ H1], H2 as [_ H2]. apply Hcf. congruence.
Qed.
Print Assumptions C20_track_checksum_detects.

(* frame payloads (classes payload-plain, payload-zstd, payload-inactive): guarded by
   frame.checksum since 55d5bb8 *)

(* (4) THE property for payloads: the stored bytes of a frame that read without error on the clean and on
       the faulted file are equal (for zstd frames too: the stored, compressed bytes are what is hashed),
       and then the canonical payload served is the committed one. *)
Theorem C20_payload_read_detects :
  forall (H : bytes -> bytes) ctx file file' fr raw raw',
    read_frame_payload_bytes H ctx file fr = Ok raw ->
    read_frame_payload_bytes H ctx file' fr = Ok raw' ->
    (H raw' = H raw -> raw' = raw) -> raw' = raw.
Proof. exact payload_read_detects. Qed.
Print Assumptions C20_payload_read_detects.

Theorem C20_payload_detects :
  forall (H : bytes -> bytes) (unzstd : bytes -> option bytes) ctx file file' fr raw raw' d',
    read_frame_payload_bytes H ctx file fr = Ok raw ->
    read_frame_payload_bytes H ctx file' fr = Ok raw' ->
    (H raw' = H raw -> raw' = raw) ->
    frame_canonical_bytes H unzstd ctx file' fr = Ok d' ->
    frame_canonical_bytes H unzstd ctx file fr = Ok d'.
Proof.
  intros H unzstd ctx file file' fr raw raw' d' H1 H2 Hcf Hd.
  pose proof (payload_read_detects H ctx file file' fr raw raw' H1 H2 Hcf) as E. subst raw'.
  unfold frame_canonical_bytes in *. rewrite H1. rewrite H2 in Hd. exact Hd.
Qed.
Print Assumptions C20_payload_detects.

(* (4') a changed stored payload is answered with an error, never with data *)
Theorem C20_payload_change_is_error :
  forall (H : bytes -> bytes) (unzstd : bytes -> option bytes) ctx file file' fr raw,
    read_frame_payload_bytes H ctx file fr = Ok raw ->
    slice file' (N.to_nat (f_off fr)) (N.to_nat (f_len fr)) <> raw ->
    (H (slice file' (N.to_nat (f_off fr)) (N.to_nat (f_len fr))) = H raw ->
     slice file' (N.to_nat (f_off fr)) (N.to_nat (f_len fr)) = raw) ->
    forall d, frame_canonical_bytes H unzstd ctx file' fr <> Ok d.
Proof.
  intros H unzstd ctx file file' fr raw H1 Hne Hcf d Hd. unfold frame_canonical_bytes, decode_and_check in Hd.
  destruct (read_frame_payload_bytes H ctx file' fr) as [raw'| |] eqn:H2; try discriminate.
  pose proof (read_payload_ok_inv H ctx file' fr raw' H2) as [_ [E2 _]].
  assert (raw' = raw) by (apply (payload_read_detects H ctx file file' fr raw raw' H1 H2); subst raw'; exact Hcf).
  subst. congruence.
Qed.
Print Assumptions C20_payload_change_is_error.

(* (4'') the checked read has no memory: its answer depends only on the file length, the bytes in the frame's
        window and the frame's TOC entry -- never on which frames were read (and found clean) through the same
        handle before.  Two frames with the same checksum at different offsets are therefore hashed separately,
        and any two read schedules give every frame the same answer. *)
Theorem C20_read_depends_on_window :
  forall (H : bytes -> bytes) ctx (file file' : bytes) fr,
    length file' = length file ->
    slice file' (N.to_nat (f_off fr)) (N.to_nat (f_len fr)) = slice file (N.to_nat (f_off fr)) (N.to_nat (f_len fr)) ->
    read_frame_payload_bytes H ctx file' fr = read_frame_payload_bytes H ctx file fr.
Proof. exact read_depends_on_window. Qed.
Print Assumptions C20_read_depends_on_window.

Theorem C20_read_history_independent :
  forall (H : bytes -> bytes) ctx file h1 h2 fr,
    snd (handle_read H ctx file h1 fr) = snd (handle_read H ctx file h2 fr) /\
    snd (handle_read H ctx file h1 fr) = read_frame_payload_bytes H ctx file fr.
Proof. intros H ctx file h1 h2 fr. split; reflexivity. Qed.
Print Assumptions C20_read_history_independent.

Theorem C20_read_schedules_agree :
  forall (H : bytes -> bytes) ctx file hist1 hist2 s1 s2 i j fr,
    nth_error s1 i = Some fr -> nth_error s2 j = Some fr ->
    nth_error (run_reads H ctx file hist1 s1) i = nth_error (run_reads H ctx file hist2 s2) j.
Proof.
  intros H ctx file hist1 hist2 s1 s2 i j fr H1 H2. rewrite !run_reads_pointwise.
  rewrite (map_nth_error (read_frame_payload_bytes H ctx file) i s1 H1).
  rewrite (map_nth_error (read_frame_payload_bytes H ctx file) j s2 H2). reflexivity.
Qed.
Print Assumptions C20_read_schedules_agree.

(* (5) verify(deep) = Passed on a file implies that every ACTIVE frame with a non-empty payload reads there
       exactly as on the clean file (FramePayloadChecksums): "verify Passed but a payload read differs" is
       impossible for active frames. *)
Theorem C20_verify_detects :
  forall (H : bytes -> bytes) (unzstd : bytes -> option bytes) (lex_ok vec_ok : bytes -> bool) file file' l fr raw,
    verify_overall true (vstate_of H lex_ok vec_ok file' l) = Passed ->
    In fr (l_frame_list l) -> f_active fr = true -> f_len fr <> 0 ->
    read_frame_payload_bytes H (l_ctx l) file fr = Ok raw ->
    (forall x, H x = H raw -> x = raw) ->
    read_frame_payload_bytes H (l_ctx l) file' fr = Ok raw /\
    frame_canonical_bytes H unzstd (l_ctx l) file' fr = frame_canonical_bytes H unzstd (l_ctx l) file fr.
Proof.
  intros H unzstd lex_ok vec_ok file file' l fr raw Hp Hin Ha Hl H1 Hcf.
  destruct (verify_deep_passed_reads H lex_ok vec_ok file' l fr Hp Hin Ha Hl) as [raw' H2].
  rewrite (payload_read_detects H (l_ctx l) file file' fr raw raw' H1 H2 (Hcf raw')) in H2.
  split; [exact H2|]. unfold frame_canonical_bytes. rewrite H1, H2. reflexivity.
Qed.
Print Assumptions C20_verify_detects.

(* (5') what verify(deep) still cannot see: a change confined to a range outside the log region, the
       indexes and the payloads of the active frames (payload of a deleted / superseded frame, unreferenced
       bytes, log slack) gives verify the same input.  For an inactive frame's payload that is consistent
       with the property: a read of that frame goes through read_frame_payload_bytes and fails ((4')). *)
Theorem C20_verify_blind_outside_layout :
  forall (H : bytes -> bytes) (lex_ok vec_ok : bytes -> bool) (pre mid mid' post : bytes) l deep,
    length mid' = length mid ->
    layout_outside l (N.of_nat (length pre)) (N.of_nat (length pre + length mid)) = true ->
    verify_overall deep (vstate_of H lex_ok vec_ok (pre ++ mid' ++ post) l) =
    verify_overall deep (vstate_of H lex_ok vec_ok (pre ++ mid ++ post) l).
Proof.
  intros H lex_ok vec_ok pre mid mid' post l deep Hl Ho.
  rewrite (vstate_blind H lex_ok vec_ok pre mid mid' post l Hl Ho). reflexivity.
Qed.
Print Assumptions C20_verify_blind_outside_layout.

Theorem C20_verify_passed_iff :
  forall deep s, verify_overall deep s = Passed <-> forall c, In c (verify_checks deep s) -> c <> Failed.
Proof. exact verify_passed_iff. Qed.
Print Assumptions C20_verify_passed_iff.

(* (5'') the checked read serves nothing the code before 55d5bb8 would not have served *)
Theorem C20_checked_refines :
  forall (H : bytes -> bytes) (unzstd : bytes -> option bytes) ctx file fr d,
    frame_canonical_bytes H unzstd ctx file fr = Ok d -> frame_canonical_bytes_unchecked unzstd ctx file fr = Ok d.
Proof.
  intros H unzstd ctx file fr d.
  unfold frame_canonical_bytes, frame_canonical_bytes_unchecked, read_frame_payload_bytes, read_frame_payload_bytes_unchecked.
  destruct (validate_frame_bounds ctx (N.of_nat (length file)) fr); [|auto|auto].
  destruct (negb (Nat.eqb _ 0) && negb (guard_check H _ (f_checksum fr))); [discriminate|]. auto.
Qed.
Print Assumptions C20_checked_refines.

(* a concrete committed file: 48-byte log region (empty), one plain frame of 4 bytes, a time index
   with one entry (timestamp 100, frame 0).  toyH is a stand-in hash (the theorems hold for every H). *)
Definition toyH (x : bytes) : bytes := repeat (fold_left N.add x 0 mod 256) 32.
Definition no_zstd (_ : bytes) : option bytes := None.
Definition yes (_ : bytes) : bool := true.
Definition sample_file : bytes := repeat 0 48 ++ [255; 254; 7; 8] ++ track_image [(100%Z, 0)].
Definition sample_frame : frame := mkFrame 48 4 false (Some 4) (toyH [255; 254; 7; 8]) true.
Definition sample_ctx : N * N * N := (0, 48, 80).
Definition sample_layout : layout := mkLayout 0 48 0 (Some (52, 28, 1)) None None sample_ctx [sample_frame].
Definition verify_sample (file : bytes) := verify_overall true (vstate_of toyH yes yes file sample_layout).

(* (6) what 55d5bb8 closed (finding F-C20-1/2, fixed): before it, on ANY file of the same length the bytes
       found in a plain frame's range were returned, and verify(deep) had no payload check; on the sample
       file one changed payload byte was served with verify = Passed.  With the fix the same read is
       E_FR_SUM and verify(deep) is Failed. *)
Theorem C20_unchecked_payload_plain_served :
  forall (unzstd : bytes -> option bytes) ctx (file file' : bytes) fr,
    length file' = length file ->
    validate_frame_bounds ctx (N.of_nat (length file)) fr = Ok tt ->
    f_zstd fr = false -> (f_canon_len fr = Some (f_len fr) \/ f_canon_len fr = None) ->
    frame_canonical_bytes_unchecked unzstd ctx file' fr = Ok (slice file' (N.to_nat (f_off fr)) (N.to_nat (f_len fr))).
Proof.
  intros unzstd ctx file file' fr Hlen Hv Hz Hc.
  unfold frame_canonical_bytes_unchecked, read_frame_payload_bytes_unchecked. rewrite Hlen, Hv.
  unfold decode_and_check, decode_canonical. rewrite Hz. unfold check_canon_len.
  destruct Hc as [-> | ->]; [|reflexivity].
  rewrite raw_slice_length; [rewrite N.eqb_refl; reflexivity|].
  rewrite Hlen. apply (validate_ok_range ctx (N.of_nat (length file)) fr Hv).
Qed.
Print Assumptions C20_unchecked_payload_plain_served.

Theorem C20_unchecked_payload_refuted_now_detected :
  let file := sample_file in let file' := patch_at sample_file 49 [9] in
  (* before the fix *)
  frame_canonical_bytes_unchecked no_zstd sample_ctx file sample_frame = Ok [255; 254; 7; 8] /\
  frame_canonical_bytes_unchecked no_zstd sample_ctx file' sample_frame = Ok [255; 9; 7; 8] /\
  verify_overall_unchecked true (vstate_of toyH yes yes file' sample_layout) = Passed /\
  (* with the fix *)
  frame_canonical_bytes toyH no_zstd sample_ctx file sample_frame = Ok [255; 254; 7; 8] /\
  frame_canonical_bytes toyH no_zstd sample_ctx file' sample_frame = Err E_FR_SUM /\
  verify_sample file = Passed /\ verify_sample file' = Failed.
Proof. cbv zeta. repeat split; vm_compute; reflexivity. Qed.
Print Assumptions C20_unchecked_payload_refuted_now_detected.

(* (7) REFUTED, class time-index: the frame id of an entry changes; read_track's checks (magic, length,
       order) pass, the manifest checksum is never compared, verify(deep) = Passed. *)
Theorem C20_time_index_refuted :
  exists file file',
    length file' = length file /\
    read_track file 52 28 = Ok [(100%Z, 0)] /\ read_track file' 52 28 = Ok [(100%Z, 1)] /\
    verify_sample file = Passed /\ verify_sample file' = Passed.
Proof.
  exists sample_file, (patch_at sample_file 72 [1]). repeat split; vm_compute; reflexivity.
Qed.
Print Assumptions C20_time_index_refuted.

(* (8) REFUTED, class log-record-seq (and hdr-wal-sequence): the record digest covers the payload only.
       A committed record (sequence 1 = header.wal_sequence) whose sequence field becomes 5 still scans
       and is now pending: the next open replays it. *)
Definition sample_log : bytes := image toyH 1 [10; 20; 30] ++ repeat 0 48.
Theorem C20_log_sequence_refuted :
  exists region region',
    length region' = length region /\
    pending_of toyH region 99 1 = Ok [] /\
    pending_of toyH region' 99 1 = Ok [mkRec 5 [10; 20; 30]] /\
    pending_of toyH region 99 0 = Ok [mkRec 1 [10; 20; 30]].      (* same effect: header.wal_sequence 1 -> 0 *)
Proof. exists sample_log, (patch_at sample_log 0 [5]). repeat split; vm_compute; reflexivity. Qed.
Print Assumptions C20_log_sequence_refuted.

(* (8') the other bytes of a record: payload, length and digest changes stop the scan (Example, toy hash) *)
Example C20_log_payload_example :
  pending_of toyH (patch_at sample_log 49 [21]) 99 0 = Err 5 /\
  pending_of toyH (patch_at sample_log 20 [1]) 99 0 = Err 5 /\
  pending_of toyH (patch_at sample_log 8 [2]) 99 0 = Err 5.
Proof. repeat split; vm_compute; reflexivity. Qed.

(* (9) REFUTED, class toc on the recovery path: when read_toc rejects the TOC, recover_toc's hinted branch
       decodes the bytes without any hash; the deferred Toc::verify_checksum at the end of open_locked is
       the only check left, and it is applied to memvid.toc AFTER recover_wal may have re-stamped it
       (flush of a rebuilt lexical index).  With a re-stamp the final check accepts every TOC;
       without, it is exactly verify_checksum of the decoded TOC. *)
Theorem C20_toc_final_check_defeated_by_restamp :
  forall (H : bytes -> bytes) t l2, length l2 = 16%nat -> open_final_check H t (Some (VList l2)) = true.
Proof.
  intros H t l2 Hl. unfold open_final_check. destruct (verify_checksum H t); [reflexivity|].
  apply TocProofs.verify_checksum_stamp. exact Hl.
Qed.
Print Assumptions C20_toc_final_check_defeated_by_restamp.

Theorem C20_toc_final_check_without_restamp :
  forall (H : bytes -> bytes) t, open_final_check H t None = verify_checksum H t.
Proof. intros H t. unfold open_final_check. destruct (verify_checksum H t); reflexivity. Qed.
Print Assumptions C20_toc_final_check_without_restamp.

(* (10) outside the known classes the table predicts no observation in which a read returned different data *)
Theorem C20_table_outside_known :
  forall c k o, known_class c = false -> In o (table c k) -> silent o = false.
Proof.
  intros c k o Hk Hin. destruct (silent o) eqn:Hs; [|reflexivity].
  assert (E : existsb silent (table c k) = true) by (apply existsb_exists; exists o; split; assumption).
  rewrite table_silent, Hk in E. destruct k; discriminate E.
Qed.
Print Assumptions C20_table_outside_known.

(* (10') every known class does contain such an observation (the classes are not padded) *)
Theorem C20_table_known_refuted :
  forall c, known_class c = true -> exists o, In o (table c Flip) /\ silent o = true.
Proof. intros c Hk. apply existsb_exists. rewrite (table_silent c Flip). exact Hk. Qed.
Print Assumptions C20_table_known_refuted.

Theorem C20_table_not_read :
  forall c, guard_of c = GNotRead -> table c Flip = [S3] /\ table c Zero = [S3].
Proof. intros c. destruct c; cbn [guard_of]; try discriminate; intros _; split; reflexivity. Qed.
Print Assumptions C20_table_not_read.

Theorem C20_table_truncation_detected :
  forall c o, c <> PastFooter -> In o (table c Trunc) -> snd (fst o) = VError.
Proof.
  intros c o Hc. destruct c; try congruence; cbn [table In]; intros Hin;
    repeat (destruct Hin as [<- | Hin]; [reflexivity|]); destruct Hin.
Qed.
Print Assumptions C20_table_truncation_detected.

(* (10'') a changed payload of an active frame: the only predicted observation is "reads fail, verify Failed" *)
Theorem C20_table_active_payload_detected :
  forall c k o, (c = PayPlain \/ c = PayZstd) -> (k = Flip \/ k = Zero) -> In o (table c k) -> o = (VError, VError, 1).
Proof. intros c k o [-> | ->] [-> | ->]; cbn [table In]; intros [<- | []]; reflexivity. Qed.
Print Assumptions C20_table_active_payload_detected.

(* (10''') REFUTED at the table level, class payload-chunk (known): the stored bytes of a chunk are guarded as
   in (4)-(5) and verify(deep) is never Passed, but search's resolve_chunk_context does
   `if let Ok(payloads) = self.document_chunk_payloads(&parent)` and on the checksum error falls back to
   frame.search_text: hits on that document's chunks carry a different text / range, without an error. *)
Theorem C20_table_chunk_payload_verify_fails :
  forall k o, (k = Flip \/ k = Zero) -> In o (table PayChunk k) -> snd o = 1%N.
Proof. intros k o [-> | ->]; cbn [table In]; intros [<- | [<- | []]]; reflexivity. Qed.
Print Assumptions C20_table_chunk_payload_verify_fails.

(* two copies of one payload (same checksum) at offsets 48 and 52; the second copy is damaged: it is rejected
   whether or not the clean first copy was read before it *)
Definition dup_file : bytes := repeat 0 48 ++ [255; 254; 7; 8] ++ [255; 254; 7; 9].
Definition dup_a : frame := mkFrame 48 4 false (Some 4) (toyH [255; 254; 7; 8]) true.
Definition dup_b : frame := mkFrame 52 4 false (Some 4) (toyH [255; 254; 7; 8]) true.
Example C20_duplicate_nonvacuous :
  run_reads toyH (0, 48, 56) dup_file [] [dup_a; dup_b; dup_b; dup_a] = [Ok [255; 254; 7; 8]; Err E_FR_SUM; Err E_FR_SUM; Ok [255; 254; 7; 8]] /\
  run_reads toyH (0, 48, 56) dup_file [] [dup_b; dup_a] = [Err E_FR_SUM; Ok [255; 254; 7; 8]] /\
  verify_overall true (vstate_of toyH yes yes dup_file (mkLayout 0 48 0 None None None (0, 48, 56) [dup_a; dup_b])) = Failed.
Proof. repeat split; vm_compute; reflexivity. Qed.

(* the clean file passes read_toc; a flipped TOC byte, a flipped hash byte and a flipped length byte do not;
   the frame read accepts the clean sample file; an inactive frame's changed payload fails on read but is
   outside verify's loop (verify Passed, by (5') with the payload range outside the layout) *)
Definition s_toc : bytes := [1; 2; 3; 4; 5].
Definition s_footer : footer := mkFooter 5 (toyH s_toc) 7.
Definition s_pre : bytes := repeat 9 20.
Definition s_file : bytes := s_pre ++ s_toc ++ footer_encode s_footer.
Definition inactive_frame : frame := mkFrame 48 4 false (Some 4) (toyH [255; 254; 7; 8]) false.
Definition inactive_layout : layout := mkLayout 0 48 0 (Some (52, 28, 1)) None None sample_ctx [inactive_frame].
Example C20_nonvacuous :
  read_toc toyH s_file 20 = Ok s_toc /\
  read_toc toyH (patch_at s_file 21 [3]) 20 = Err E_TOC_HASH /\
  read_toc toyH (patch_at s_file 42 [0]) 20 = Err E_TOC_HASH /\
  read_toc toyH (patch_at s_file 33 [6]) 20 = Err E_TOC_LEN /\
  load_track toyH s_file 20 5 (toyH s_toc) = Ok s_toc /\
  load_track toyH (patch_at s_file 21 [3]) 20 5 (toyH s_toc) = Err E_TRACK_SUM /\
  read_frame_payload_bytes toyH sample_ctx sample_file sample_frame = Ok [255; 254; 7; 8] /\
  layout_outside sample_layout 48 52 = false /\
  layout_outside inactive_layout 48 52 = true /\
  frame_canonical_bytes toyH no_zstd sample_ctx (patch_at sample_file 49 [9]) inactive_frame = Err E_FR_SUM /\
  verify_overall true (vstate_of toyH yes yes (patch_at sample_file 49 [9]) inactive_layout) = Passed.
Proof. repeat split; vm_compute; reflexivity. Qed.
