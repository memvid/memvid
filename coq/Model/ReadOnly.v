(* C18 Read-only access.  Model of
     src/memvid/lifecycle.rs : open_read_only / open_read_only_with_options / open_read_only_snapshot /
                               load_tail_snapshot / locate_footer_window
     src/io/wal.rs           : EmbeddedWal::open_read_only (open_internal with read_only = true),
                               pending_records on a read-only log
     src/io/header.rs        : HeaderCodec::read_without_repair (legacy lock bytes 80..140 scrubbed in memory
                               only; since ced2099).  HeaderCodec::read (Model/Header.v: header_read, which
                               CLEARS them in place) is what the read-only open called before: kept as
                               header_read_repair for the historical `_unfixed` lemmas
     src/memvid/search/api.rs: init_tantivy -> materialize_tantivy_segments
     src/memvid/mutation.rs  : align_footer_with_catalog (returns Ok(false) at once on a read-only handle since
                               e2af843) -> rewrite_toc_footer + persist_header
     src/memvid/maintenance.rs: Memvid::verify
   and of the read APIs of the resulting handle, at the level "which bytes of the memory file does the
   call write".  Every function threads the file (its bytes and the trace of write / truncate / fsync
   calls issued on it so far).  Files that are not the memory file (the scratch directory Tantivy
   segments are copied into) are outside the model.

   External things are Section variables: BLAKE3 (H), Toc::decode followed by verify_checksum
   (toc_decode; the result is the part of the TOC this model looks at), prepare_toc_bytes
   (toc_reencode: image and checksum), MAX_SEARCH_SIZE (maxw, instantiated with 16 MiB). *)
From MV Require Import Base.Prelude Model.Footer Model.Header Model.Wal Model.Store Model.FsProto.
Local Open Scope N_scope.

(* ---------------------------------------------------------------- write trace on the memory file *)
Inductive wev :=
| WWrite (off : N) (data : bytes)      (* seek(off); write_all(data) *)
| WSetLen (n : N)                      (* File::set_len *)
| WSync.                               (* sync_all / flush *)

(* write_all at an offset: overwrites, extends, leaves a zero hole when off is past the end *)
Definition pwrite (f : bytes) (off : nat) (d : bytes) : bytes :=
  firstn off (f ++ repeat 0 (off - length f)) ++ d ++ skipn (off + length d) f.
Definition set_len (f : bytes) (n : nat) : bytes := firstn n (f ++ repeat 0 (n - length f)).

Definition apply_wev (f : bytes) (e : wev) : bytes :=
  match e with
  | WWrite off d => pwrite f (N.to_nat off) d
  | WSetLen n => set_len f (N.to_nat n)
  | WSync => f
  end.
Definition apply_trace (f : bytes) (t : list wev) : bytes := fold_left apply_wev t f.

(* the same trace in the alphabet of Model/FsProto.v (in-place operations on the live memory file) *)
Definition to_fsop (i : N) (e : wev) : fsop :=
  match e with WWrite _ _ => WriteMem (W i) | WSetLen _ => WriteMem (W i) | WSync => FsyncMem end.
Fixpoint to_fsops (i : N) (t : list wev) : list fsop :=
  match t with [] => [] | e :: r => to_fsop i e :: to_fsops (i + 1) r end.

Record fstate := mkFS { fs_bytes : bytes; fs_trace : list wev }.
Definition emit (s : fstate) (e : wev) : fstate := mkFS (apply_wev (fs_bytes s) e) (fs_trace s ++ [e]).

(* ---------------------------------------------------------------- the part of a decoded TOC that matters here *)
Record rtoc := mkRToc {
  rt_frames : list frame;            (* toc.frames, as the frame table of Model/Store.v *)
  rt_lex : bool;                     (* has_lex_index(toc) *)
  rt_segs : list (N * N);            (* the segments init_tantivy materializes: (bytes_offset, bytes_length) *)
  rt_catalog : list (N * N);         (* every (bytes_offset, bytes_length) catalog_data_end() looks at *)
  rt_checksum : bytes }.             (* toc.toc_checksum *)

Definition E_NOFOOTER : N := 1.      (* InvalidToc "no valid commit footer found" *)
Definition E_TOC : N := 2.           (* Toc::decode / verify_checksum failed *)
Definition E_LOCK : N := 8.          (* shared lock not obtained *)
Definition E_HDR : N := 10.          (* + the InvalidHeader kind of Model/Header.v *)
Definition E_WAL : N := 20.          (* + the scan error of Model/Wal.v (4 length invalid, 5 checksum mismatch) *)
Definition E_SEG_OVERFLOW : N := 30.
Definition E_SEG_BOUNDS : N := 31.

Definition MAX_SEARCH_SIZE : N := 16777216.   (* 16 * 1024 * 1024 *)

Record tail := mkTail { t_toc : rtoc; t_toc_bytes : bytes; t_footer_offset : N; t_generation : N }.

(* EmbeddedWal fields a read-only handle reports *)
Record rowal := mkRoWal { rw_head : N; rw_pending : N; rw_seq : N; rw_ckpt_seq : N }.

Record handle := mkHandle {
  hd_header : header;                (* the in-memory header *)
  hd_toc : rtoc;
  hd_data_end : N;
  hd_generation : N;
  hd_wal : rowal;
  hd_lex : bool;                     (* lex_enabled *)
  hd_tantivy : bool;                 (* self.tantivy.is_some() *)
  hd_read_only : bool }.             (* self.read_only *)

Definition set_header (hd : handle) (h : header) : handle :=
  mkHandle h (hd_toc hd) (hd_data_end hd) (hd_generation hd) (hd_wal hd) (hd_lex hd) (hd_tantivy hd) (hd_read_only hd).
Definition set_tantivy (hd : handle) (b : bool) : handle :=
  mkHandle (hd_header hd) (hd_toc hd) (hd_data_end hd) (hd_generation hd) (hd_wal hd) (hd_lex hd) b (hd_read_only hd).
Definition with_footer (h : header) (fo : N) (ck : bytes) : header :=
  mkHeader (h_magic h) (h_version h) fo (h_wal_offset h) (h_wal_size h) (h_wal_checkpoint_pos h) (h_wal_sequence h) ck.

(* catalog_data_end: entries of length 0 are skipped *)
Definition ends_max (base : N) (l : list (N * N)) : N :=
  fold_left (fun m e => if snd e =? 0 then m else N.max m (fst e + snd e)) l base.

Section RO.
  Variable H : bytes -> bytes.
  Variable toc_decode : bytes -> option rtoc.
  Variable toc_reencode : rtoc -> bytes * bytes.
  Variable maxw : N.

  (* locate_footer_window: the C31 scan on the last `window` bytes, the window doubling until it is the
     whole file.  (The loop ends because the window at least doubles; fuel = length + 1 is enough when
     maxw > 0, see ReadOnlyProofs.locate_loop_spec.) *)
  Fixpoint locate_loop (fuel : nat) (b : bytes) (window : N) : option (footer_slice * nat) :=
    match fuel with
    | O => None
    | S k =>
        let len := N.of_nat (length b) in
        let start := N.to_nat (len - window) in
        match find_last_valid_footer H (skipn start b) with
        | Some s => Some (s, start)
        | None => if window =? len then None else locate_loop k b (N.min (window * 2) len)
        end
    end.

  Definition locate_footer_window (b : bytes) : option (footer_slice * nat) :=
    match b with
    | [] => None
    | _ => locate_loop (S (length b)) b (N.min maxw (N.of_nat (length b)))
    end.

  (* load_tail_snapshot (an empty file maps to an empty slice: "no valid commit footer found") *)
  Definition load_tail_snapshot (b : bytes) : outcome tail :=
    match locate_footer_window b with
    | None => Err E_NOFOOTER
    | Some (s, adj) =>
        match toc_decode (fs_toc_bytes s) with
        | None => Err E_TOC
        | Some t => Ok (mkTail t (fs_toc_bytes s) (N.of_nat (fs_footer_offset s + adj)) (generation (fs_footer s)))
        end
    end.

  (* HeaderCodec::read_without_repair: read_exact of 4096 bytes, scrub of the legacy lock bytes in the
     buffer only, decode.  No write. *)
  Definition ro_header_read (s : fstate) : outcome header * fstate :=
    let file := fs_bytes s in
    if Nat.ltb (length file) HEADER_SIZE then (Err E_IO, s)
    else
      let buf := firstn HEADER_SIZE file in
      (header_decode (if legacy_dirty buf then clear_legacy buf else buf), s).

  (* HeaderCodec::read on the memory file, with the write it may issue made explicit: what the
     read-only open called before ced2099 (and what the writable open still calls) *)
  Definition header_read_repair (s : fstate) : outcome header * fstate :=
    let file := fs_bytes s in
    if Nat.ltb (length file) HEADER_SIZE then (Err E_IO, s)
    else
      let buf := firstn HEADER_SIZE file in
      if legacy_dirty buf then
        (header_decode (clear_legacy buf), emit s (WWrite 0 (clear_legacy buf)))   (* flush() on a File issues no syscall *)
      else (header_decode buf, s).

  (* EmbeddedWal::open_read_only: scan, derive the counters, and -- read_only -- no sentinel.
     The scan is Model/Wal.v's on the region bytes; a region reaching past the end of the file is
     answered with the I/O error read_exact gives (generated files keep the region inside the file). *)
  Definition ro_wal_open (file : bytes) (h : header) : outcome rowal :=
    if h_wal_size h =? 0 then Err (E_HDR + E_WAL_SIZE)
    else if N.of_nat (length file) <? h_wal_offset h + h_wal_size h then Err E_IO
    else
      match scan_records H (slice file (N.to_nat (h_wal_offset h)) (N.to_nat (h_wal_size h))) (h_wal_size h) with
      | Err e => Err (E_WAL + e)
      | Panic p => Panic p
      | Ok (entries, next_head) =>
          Ok (mkRoWal (N.min next_head (h_wal_size h)) (pending_sum (h_wal_sequence h) entries)
                      (last_seq entries (h_wal_sequence h)) (h_wal_sequence h))
      end.

  (* number of records a read-only log reports pending (pending_records, no sentinel write) *)
  Definition ro_pending_count (file : bytes) (h : header) : outcome N :=
    if N.of_nat (length file) <? h_wal_offset h + h_wal_size h then Err E_IO
    else
      match scan_records H (slice file (N.to_nat (h_wal_offset h)) (N.to_nat (h_wal_size h))) (h_wal_size h) with
      | Err e => Err (E_WAL + e)
      | Panic p => Panic p
      | Ok (entries, _) => Ok (N.of_nat (length (filter (fun e => h_wal_sequence h <? r_seq e) entries)))
      end.

  Definition catalog_data_end (h : header) (t : rtoc) : N :=
    ends_max (h_wal_offset h + h_wal_size h) (rt_catalog t).

  (* align_footer_with_catalog: rewrite_toc_footer (TOC image + footer at the new offset, set_len,
     sync_all) then persist_header *)
  Definition align_footer (hd : handle) (s : fstate) : bool * handle * fstate :=
    let h := hd_header hd in
    let ce := catalog_data_end h (hd_toc hd) in
    if hd_read_only hd then (false, hd, s)
    else if ce <=? h_footer_offset h then (false, hd, s)
    else
      let '(tb, ck) := toc_reencode (hd_toc hd) in
      let foot := footer_encode (mkFooter (N.of_nat (length tb)) (H tb) (hd_generation hd)) in
      let new_len := ce + N.of_nat (length tb) + N.of_nat FOOTER_SIZE in
      let min_len := h_wal_offset h + h_wal_size h in
      let s1 := emit s (WWrite ce (tb ++ foot)) in
      let s2 := emit s1 (WSetLen (N.max new_len min_len)) in
      let s3 := emit s2 WSync in
      let h' := with_footer h ce ck in
      let s4 := match header_encode h' with
                | Ok hb => emit s3 (WWrite 0 hb)
                | _ => s3
                end in
      (true, set_header hd h', s4).

  (* materialize_tantivy_segments: the bounds check per segment and the repair it triggers; copying
     the segment bytes into the scratch directory reads the memory file only *)
  Fixpoint materialize (segs : list (N * N)) (file_len data_limit : N) (hd : handle) (s : fstate)
    : outcome unit * handle * fstate :=
    match segs with
    | [] => (Ok tt, hd, s)
    | (off, len) :: r =>
        if len =? 0 then materialize r file_len data_limit hd s
        else if 2 ^ 64 <=? off + len then (Err E_SEG_OVERFLOW, hd, s)
        else
          let e := off + len in
          if (file_len <? e) || (data_limit <? e) then
            let '(aligned, hd1, s1) := align_footer hd s in
            let file_len1 := if aligned then N.of_nat (length (fs_bytes s1)) else file_len in
            let data_limit1 := if aligned then h_footer_offset (hd_header hd1) else data_limit in
            if (file_len1 <? e) || (data_limit1 <? e) then (Err E_SEG_BOUNDS, hd1, s1)
            else materialize r file_len1 data_limit1 hd1 s1
          else materialize r file_len data_limit hd s
    end.

  (* init_tantivy: an error of materialize / open_from_dir is swallowed (a fresh engine is created
     and rebuilt from the frames: reads only) *)
  Definition init_tantivy (hd : handle) (s : fstate) : handle * fstate :=
    if negb (hd_lex hd) then (set_tantivy hd false, s)
    else
      let '(_, hd1, s1) := materialize (rt_segs (hd_toc hd)) (N.of_nat (length (fs_bytes s)))
                                       (h_footer_offset (hd_header hd)) hd s in
      (set_tantivy hd1 true, s1).

  (* open_read_only_snapshot.  `lock_free` = no other open file description holds the exclusive lock.
     Order as in the code: tail snapshot, header read, shared lock, log.  The header reader and the
     read_only flag the handle carries are parameters so that the code before the two repairs can
     still be stated (open_ro_unfixed below); the current code is open_ro_on. *)
  Definition open_ro_gen (hread : fstate -> outcome header * fstate) (ro_flag : bool)
                         (lock_free : bool) (s0 : fstate) : outcome handle * fstate :=
    match load_tail_snapshot (fs_bytes s0) with
    | Err e => (Err e, s0)
    | Panic p => (Panic p, s0)
    | Ok t =>
        let '(rh, s1) := hread s0 in
        match rh with
        | Err e => (Err (if e =? E_IO then E_IO else E_HDR + e), s1)
        | Panic p => (Panic p, s1)
        | Ok h0 =>
            let h := with_footer h0 (t_footer_offset t) (rt_checksum (t_toc t)) in
            if negb lock_free then (Err E_LOCK, s1)
            else
              match ro_wal_open (fs_bytes s1) h with
              | Err e => (Err e, s1)
              | Panic p => (Panic p, s1)
              | Ok w =>
                  let hd := mkHandle h (t_toc t) (t_footer_offset t) (t_generation t) w (rt_lex (t_toc t)) false ro_flag in
                  let '(hd1, s2) := init_tantivy hd s1 in
                  (Ok hd1, s2)
              end
        end
    end.

  Definition open_ro_on (lock_free : bool) (s0 : fstate) : outcome handle * fstate :=
    open_ro_gen ro_header_read true lock_free s0.

  (* the read-only open as it was before ced2099 / e2af843: header read with in-place repair, and an
     align_footer_with_catalog that did not look at read_only *)
  Definition open_ro_unfixed (lock_free : bool) (file : bytes) : outcome handle * fstate :=
    open_ro_gen header_read_repair false lock_free (mkFS file []).

  Definition open_ro (lock_free : bool) (file : bytes) : outcome handle * fstate :=
    open_ro_on lock_free (mkFS file []).

  (* what a read-only handle shows *)
  Definition ro_view (hd : handle) : list frame := rt_frames (hd_toc hd).

  (* ---------------------------------------------------------------- read APIs of the handle *)
  Inductive rop :=
  | RFrameCount
  | RFrameById (id : N)
  | RPayload (id : N)             (* frame_canonical_payload: read_range on the payload window *)
  | RStats
  | RTimeline
  | RSearch
  | RVerify.                      (* Memvid::verify(path): a second read-only open + checks *)

  Inductive rout :=
  | OCount (n : N)
  | OFrame (f : option frame)
  | OUnit
  | OSearch (lex : bool)          (* false: Err(LexNotEnabled) *)
  | OVerify (r : outcome N).      (* Ok n: opened, n records reported pending by WalPendingRecords *)

  Definition ro_step (lock_free : bool) (st : handle * fstate) (op : rop) : (handle * fstate) * rout :=
    let '(hd, s) := st in
    match op with
    | RFrameCount => (st, OCount (N.of_nat (length (ro_view hd))))
    | RFrameById id => (st, OFrame (nth_error (ro_view hd) (N.to_nat id)))
    | RPayload _ => (st, OUnit)
    | RStats => (st, OUnit)
    | RTimeline => (st, OUnit)
    | RSearch =>
        if negb (hd_lex hd) then (st, OSearch false)
        else if hd_tantivy hd then (st, OSearch true)
        else let '(hd1, s1) := init_tantivy hd s in ((hd1, s1), OSearch true)
    | RVerify =>
        match open_ro_on lock_free s with
        | (Ok hv, s1) =>
            let r := ro_pending_count (fs_bytes s1) (hd_header hv) in
            ((hd, s1), OVerify r)
        | (Err e, s1) => ((hd, s1), OVerify (Err e))
        | (Panic p, s1) => ((hd, s1), OVerify (Panic p))
        end
    end.

  Fixpoint ro_run (lock_free : bool) (st : handle * fstate) (ops : list rop) : (handle * fstate) * list rout :=
    match ops with
    | [] => (st, [])
    | op :: r => let '(st1, o) := ro_step lock_free st op in
                 let '(st2, os) := ro_run lock_free st1 r in (st2, o :: os)
    end.

  (* a whole read-only session: open, then the calls; the final file and everything written to it *)
  Definition ro_session (lock_free : bool) (file : bytes) (ops : list rop) : outcome (list rout) * fstate :=
    match open_ro lock_free file with
    | (Ok hd, s) => let '((_, s1), outs) := ro_run lock_free (hd, s) ops in (Ok outs, s1)
    | (Err e, s) => (Err e, s)
    | (Panic p, s) => (Panic p, s)
    end.

  (* ---------------------------------------------------------------- the two write triggers of the code BEFORE the repairs, as predicates on the file
     (regression inputs of the harness; the current code writes in neither class) *)
  Definition legacy_trigger (file : bytes) : bool :=
    Nat.leb HEADER_SIZE (length file) && legacy_dirty (firstn HEADER_SIZE file).

  (* the TOC of the last valid footer names catalog bytes ending beyond that footer's offset *)
  Definition catalog_trigger (file : bytes) : bool :=
    match load_tail_snapshot file with
    | Ok t =>
        match header_decode (firstn HEADER_SIZE file) with
        | Ok h0 => t_footer_offset t <? catalog_data_end (with_footer h0 (t_footer_offset t) (rt_checksum (t_toc t))) (t_toc t)
        | _ => false
        end
    | _ => false
    end.

  Definition known_class (file : bytes) : bool := legacy_trigger file || catalog_trigger file.

  (* the image a commit leaves (rewrite_toc_footer: ... TOC, footer, set_len to the footer's end) *)
  Definition commit_image (pre tb : bytes) (g : N) : bytes :=
    pre ++ tb ++ footer_encode (mkFooter (N.of_nat (length tb)) (H tb) g).
End RO.
