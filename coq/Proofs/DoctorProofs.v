(* Proofs about Model/Doctor.v (C21), part 1.  `wf`: the files the property is about.  On them the probe
   finds the file's own TOC (`toc_found`), so the plan is `plan_of o f`, and outside the known class
   the open returns `handle_of f`, given in closed form.  `time_fine` and `healthy` are what part 2
   (DoctorRun.v) proves of the result of a run. *)
From MV Require Import Base.Prelude Model.Doctor.
Local Open Scope N_scope.

Lemma succ_neq (n : N) : (n + 1 =? n) = false.
Proof. apply N.eqb_neq. lia. Qed.
Lemma succ_neq' (n : N) : (n =? n + 1) = false.
Proof. apply N.eqb_neq. lia. Qed.
Lemma and_or_absorb (a b : bool) : a && b || b = b.
Proof. destruct a, b; reflexivity. Qed.
Lemma if_eqb_same (x y : N) : (if x =? y then x else y) = y.
Proof. destruct (N.eqb_spec x y); congruence. Qed.

Lemma preserves_refl : forall t, preserves t t = true.
Proof.
  induction t as [|[st tg] t IH]; [reflexivity|].
  cbn [preserves fst snd]. unfold active. cbn [fst]. rewrite IH, N.eqb_refl.
  destruct (st =? 0); reflexivity.
Qed.

Definition log_ok (f : afile) : Prop := match f_wal f with WCorrupt _ => False | _ => True end.

(* a LISTED file: one that the damages of the property's list can leave, alone or combined (pointer and
   footer not BOTH lost: one of them still locates the TOC) *)
Definition wf (f : afile) : Prop :=
  f_tocdec f = true /\ f_older f = None /\ log_ok f /\
  ((f_footer f = true /\ f_tocbytes f = true) \/ f_ptr f = f_toc f).

Definition replayed (f : afile) : bool := wal_pending (f_wal f).
Definition moved (f : afile) : bool := match f_wal f with WPending ps => existsb is_insert ps | _ => false end.

Definition time_fine (m : afile) : Prop := f_time m = IxOk \/ (f_time m = IxNone /\ f_rows m = []).

Definition healthy (m : afile) : Prop :=
  f_ptr m = f_toc m /\ f_H m = f_S m /\ f_S m = f_C m /\ f_footer m = true /\ f_tocbytes m = true /\
  f_tocdec m = true /\ f_wal m = WClean /\ time_fine m /\ f_vec m <> IxBad.

Lemma read_toc_true f :
  read_toc f = true <->
  f_ptr f = f_toc f /\ f_footer f = true /\ f_tocbytes f = true /\ f_tocdec f = true.
Proof. unfold read_toc. rewrite !andb_true_iff, N.eqb_eq. tauto. Qed.

Lemma existsb_insert_nil_false : forall ps, existsb is_insert ps = true -> nonempty ps = true.
Proof. destruct ps; cbn; congruence. Qed.

Lemma replayed_true f : replayed f = true -> exists p ps, f_wal f = WPending (p :: ps).
Proof. unfold replayed. destruct (f_wal f) as [|[|p ps]|ps]; try discriminate. eauto. Qed.

Lemma replayed_false f : log_ok f -> replayed f = false -> f_wal f = WClean \/ f_wal f = WPending [].
Proof.
  unfold log_ok, replayed. destruct (f_wal f) as [|[|p ps]|ps]; [auto|auto|discriminate|intros []].
Qed.

Lemma view_not_replayed f : log_ok f -> replayed f = false -> view f = f_rows f.
Proof. intros Hl Hr. unfold view. destruct (replayed_false f Hl Hr) as [->| ->]; reflexivity. Qed.

(* the class of F-C21-2: the stored TOC checksum is wrong and no replay will re-stamp it *)
Lemma known_toc_cksum_eq f : known_toc_cksum f = negb (f_S f =? f_C f) && negb (replayed f).
Proof. unfold known_toc_cksum, replayed. destruct (f_wal f); reflexivity. Qed.

Lemma recover_toc_wf f : wf f -> recover_toc f = Some (f_rows f, f_S f, f_S f =? f_C f, f_toc f).
Proof.
  intros (Hdec & Hold & _ & Hloc). unfold recover_toc. rewrite Hdec, Hold.
  destruct Hloc as [[-> ->]| ->]; [reflexivity|].
  rewrite N.eqb_refl. destruct (f_footer f && f_tocbytes f); reflexivity.
Qed.

Definition toc_found (f : afile) : Prop :=
  find_toc f = Some (f_rows f, f_S f, f_S f =? f_C f, f_toc f, negb (read_toc f)).

Lemma wf_toc_found f : wf f -> toc_found f.
Proof.
  intros Hwf. unfold toc_found, find_toc. rewrite (recover_toc_wf f Hwf).
  destruct (read_toc f) eqn:E; [|reflexivity].
  apply read_toc_true in E as (-> & _). reflexivity.
Qed.

Definition needs_time_of (f : afile) : bool := needs_time (f_rows f) (f_time f).

Lemma needs_vec_or (o : opts) (v : ixst) : needs_vec o v || o_vec o = vec_bad v || o_vec o.
Proof. destruct v; cbn; destruct (o_vec o); reflexivity. Qed.

Definition plan_of (o : opts) (f : afile) (fnd : list N) (wb : bool) : plan_t :=
  mkPlan (if f_ptr f =? f_toc f then None else Some (f_toc f))
         (if f_H f =? f_S f then None else Some (f_S f))
         (replayed f) (o_vac o) (needs_time_of f || o_time o) (o_lex o) (vec_bad (f_vec f) || o_vec o)
         (negb (read_toc f) ||
          (negb (f_ptr f =? f_toc f) || negb (f_H f =? f_S f) || replayed f || o_vac o
           || (needs_time_of f || o_time o) || o_lex o || (vec_bad (f_vec f) || o_vec o)))
         fnd wb.

Lemma compute_found o f :
  toc_found f -> compute o f = plan_of o f (pl_findings (compute o f)) (wal_bad (f_wal f)).
Proof.
  intros Hf. unfold compute, probe, plan_of. rewrite Hf.
  cbn [p_found p_off p_S p_recovered p_pending p_walbad p_needs_time p_needs_lex p_needs_vec andb pl_findings].
  (* the probe's lexical request is absorbed by the option; a healing action is planned exactly when its comparison fails *)
  rewrite and_or_absorb, needs_vec_or, !negb_if.
  destruct (f_ptr f =? f_toc f), (f_H f =? f_S f); reflexivity.
Qed.

Lemma compute_wf o f : wf f -> compute o f = plan_of o f (pl_findings (compute o f)) false.
Proof.
  intros Hwf. rewrite (compute_found o f (wf_toc_found f Hwf)) at 1. f_equal.
  destruct Hwf as (_ & _ & Hlog & _). unfold log_ok in Hlog. destruct (f_wal f); [reflexivity|reflexivity|destruct Hlog].
Qed.

Lemma plan_idle o f fnd wb :
  pl_finalize (plan_of o f fnd wb) = false <->
  (read_toc f = true /\ f_H f = f_S f /\ replayed f = false /\ needs_time_of f = false /\ vec_bad (f_vec f) = false /\ forces o = false).
Proof.
  unfold forces. cbn [plan_of pl_finalize].
  rewrite !orb_false_iff, !negb_false_iff, !N.eqb_eq.
  (* the pointer conjunct on the left is part of read_toc f = true *)
  pose proof (read_toc_true f). tauto.
Qed.

Lemma is_noop_wf : forall o f, wf f ->
  is_noop (compute o f) = true <->
  (read_toc f = true /\ f_H f = f_S f /\ replayed f = false /\ needs_time_of f = false /\ vec_bad (f_vec f) = false /\ forces o = false).
Proof.
  intros o f Hwf. unfold is_noop. rewrite negb_true_iff, (compute_wf o f Hwf). apply plan_idle.
Qed.

(* pending records: the replay's commit rewrites everything the recovery would have fixed up *)
Lemma try_open_replay f p ps :
  wf f -> f_wal f = WPending (p :: ps) -> try_open f = (commit_replay f (p :: ps), 0).
Proof.
  intros Hwf Hw. unfold try_open. rewrite (recover_toc_wf f Hwf).
  destruct (read_toc f); cbn [f_wal with_hdr]; rewrite Hw; cbn [nonempty]; [reflexivity|].
  unfold commit_replay.
  cbn [f_toc f_foot f_C f_seq f_lex f_vec f_nvec f_rows]. rewrite if_eqb_same. reflexivity.
Qed.

(* what the replay's commit wrote if there are records to replay; else f with its header put right *)
Definition handle_of (f : afile) : afile :=
  mkFile (if moved f then f_toc f + 1 else f_toc f) (if moved f then f_toc f + 1 else f_toc f)
         (if moved f then f_foot f + 1 else f_foot f)
         (if replayed f then f_C f + 1 else if read_toc f then f_H f else f_S f)
         (if replayed f then f_C f + 1 else f_C f) (if replayed f then f_C f + 1 else f_C f)
         (replayed f || f_footer f) (replayed f || f_tocbytes f) true None
         (if replayed f then WClean else f_wal f)
         (match f_wal f with WPending (p :: ps) => f_seq f + N.of_nat (length (p :: ps)) | _ => f_seq f end)
         (if replayed f then IxOk else f_time f) (f_lex f)
         (if replayed f then vec_after_replay (f_vec f) else f_vec f) (f_nvec f) (view f).

Lemma try_open_wf : forall f, wf f -> known_toc_cksum f = false -> try_open f = (handle_of f, 0).
Proof.
  intros f Hwf Hk. unfold handle_of. destruct (replayed f) eqn:Er.
  - destruct (replayed_true f Er) as (p & ps & Hw).
    rewrite (try_open_replay f p ps Hwf Hw). unfold moved, view. rewrite Hw. reflexivity.
  - (* outside the class the stored checksum is the real one *)
    rewrite known_toc_cksum_eq, Er, andb_true_r in Hk. apply negb_false_iff in Hk.
    unfold try_open. rewrite (recover_toc_wf f Hwf), Hk. apply N.eqb_eq in Hk.
    destruct Hwf as (_ & Hold & Hlog & _). unfold moved, view.
    destruct (read_toc f) eqn:Ert; [apply read_toc_true in Ert as (Hp & _ & _ & Hdec)|];
      destruct (replayed_false f Hlog Er) as [Hw|Hw]; destruct f; cbn in *; subst; rewrite ?N.eqb_refl; reflexivity.
Qed.
