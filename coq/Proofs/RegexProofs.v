(* Proofs about Model/Regex.v.  The declarative semantics rm only consumes a prefix of the
   rest and looks past it at one code point only (framed); the backtracking matcher, written with
   continuations, is sound and complete for rm (sound_M, complete_M: one statement per matcher body,
   whatever the continuation); the scan im finds a match exactly when some substring has one
   (im_sound, im_complete: the two halves of C36_is_match_sound_complete). *)
From MV Require Import Base.Prelude Model.Regex.

Lemma lasto_cons {A} (d : option A) x l : lasto d (x :: l) = lasto (Some x) l.
Proof. reflexivity. Qed.

Lemma lasto_app {A} (d : option A) a b : lasto d (a ++ b) = lasto (lasto d a) b.
Proof. unfold lasto. apply fold_left_app. Qed.

Lemma lasto_snoc {A} (d : option A) a y : lasto d (a ++ [y]) = Some y.
Proof. rewrite lasto_app. reflexivity. Qed.

Lemma lasto_none_inv {A} (l : list A) : lasto None l = None -> l = [].
Proof.
  destruct l as [|x l] using rev_ind; [reflexivity|].
  rewrite lasto_snoc. discriminate.
Qed.

Lemma lasto_some_snoc {A} (l : list A) y : lasto None l = Some y -> exists l0, l = l0 ++ [y].
Proof.
  destruct l as [|x l] using rev_ind; [discriminate|].
  rewrite lasto_snoc. intros [= ->]. eauto.
Qed.

Lemma lasto_map {A B} (f : A -> B) l : lasto None (map f l) = option_map f (lasto None l).
Proof.
  destruct l as [|x l _] using rev_ind; [reflexivity|].
  rewrite map_app. cbn [map]. rewrite !lasto_snoc. reflexivity.
Qed.

Lemma hd_error_app_same {A} (w t t' : list A) : hd_error t = hd_error t' -> hd_error (w ++ t) = hd_error (w ++ t').
Proof. destruct w; auto. Qed.

Lemma map_fst_mark j t : map fst (mark j t) = t.
Proof. unfold mark. rewrite map_map. apply map_id. Qed.

Lemma mark_ne j t : t <> [] -> mark j t <> [].
Proof. destruct t; [congruence|discriminate]. Qed.

Lemma mark_snd j t y : In y (mark j t) -> snd y = j.
Proof. unfold mark. intros H. apply in_map_iff in H. destruct H as (x & <- & _). reflexivity. Qed.

(* the model keeps two names for one function: the bound of rep_opt is the count the
   pattern allows, that of rep_star the fuel *)
Lemma rep_star_is_rep_opt : rep_star = rep_opt.
Proof. reflexivity. Qed.

Section Unicode.
  Variables is_digit is_space is_word : N -> bool.
  Notation mt := (mt is_digit is_space is_word).
  Notation rm := (rm is_digit is_space is_word).
  Notation match_at := (match_at is_digit is_space is_word).
  Notation im := (im is_digit is_space is_word).
  Notation is_match := (is_match is_digit is_space is_word).
  Notation has_match := (has_match is_digit is_space is_word).
  Notation ra := (ra is_digit is_space is_word).
  Notation ra_m := (ra_m is_digit is_space is_word).
  Notation replace_all := (replace_all is_digit is_space is_word).
  Notation replace_all_m := (replace_all_m is_digit is_space is_word).
  Notation is_boundary := (is_boundary is_word).
  Notation cls_mem := (cls_mem is_digit is_space is_word).

  (* the last clause (R looks past w at one code point only) is needed once, by PiiProofs.residual_touches_token:
     a match found in the masked text is a match in the text before the pass, where the same code point follows *)
  Definition framed (R : st -> st -> Prop) : Prop :=
    forall p s p' s', R (p, s) (p', s') ->
      exists w, s = w ++ s' /\ p' = lasto p w /\
                forall t, hd_error t = hd_error s' -> R (p, w ++ t) (lasto p w, t).

  Lemma framed_eq : framed eq.
  Proof. intros p s p' s' [= -> ->]. exists []. repeat split. Qed.

  Lemma framed_comp R1 R2 : framed R1 -> framed R2 -> framed (fun a b => exists c, R1 a c /\ R2 c b).
  Proof.
    intros F1 F2 p s p' s' ([pc sc] & H1 & H2).
    apply F1 in H1 as (w1 & -> & -> & L1). apply F2 in H2 as (w2 & -> & -> & L2).
    exists (w1 ++ w2). rewrite lasto_app, app_assoc. split; [reflexivity|]. split; [reflexivity|].
    intros t Ht. exists (lasto p w1, w2 ++ t). rewrite <- app_assoc. split.
    - apply L1. apply hd_error_app_same. exact Ht.
    - apply L2. exact Ht.
  Qed.

  Lemma iter_framed R m : framed R -> framed (iter_rel R m).
  Proof. intros HR. induction m as [|m IH]; [exact framed_eq|exact (framed_comp _ _ HR IH)]. Qed.

  Lemma rm_framed r : framed (rm r).
  Proof.
    induction r as [|c| |r1 IH1 r2 IH2|r1 IH1 r2 IH2|r1 IH1 lo ext].
    - exact framed_eq.
    - intros p s p' s' (x & s0 & E & Hc & [= -> ->]). cbn in E. subst s.
      exists [x]. split; [reflexivity|]. split; [reflexivity|]. intros t _. exists x, t. repeat split. exact Hc.
    - intros p s p' s' [[= -> ->] H]. exists []. split; [reflexivity|]. split; [reflexivity|].
      intros t Ht. split; [reflexivity|]. cbn in *. unfold Regex.is_boundary in *. rewrite Ht. exact H.
    - exact (framed_comp _ _ IH1 IH2).
    - intros p s p' s' [H|H].
      + apply IH1 in H as (w & E & L & F). exists w. split; [exact E|]. split; [exact L|].
        intros t Ht. left. exact (F t Ht).
      + apply IH2 in H as (w & E & L & F). exists w. split; [exact E|]. split; [exact L|].
        intros t Ht. right. exact (F t Ht).
    - intros p s p' s' (m & Hlo & Hhi & H). apply (iter_framed _ m IH1) in H as (w & E & L & F).
      exists w. split; [exact E|]. split; [exact L|]. intros t Ht. exists m. split; [exact Hlo|]. split; [exact Hhi|exact (F t Ht)].
  Qed.

  Lemma framed_len {R} : framed R -> forall {p s p' s'}, R (p, s) (p', s') -> length s' <= length s.
  Proof.
    intros HF p s p' s' H. apply HF in H as (w & -> & _). rewrite app_length. lia.
  Qed.

  Lemma rm_len r p s p' s' : rm r (p, s) (p', s') -> length s' <= length s.
  Proof. apply framed_len, rm_framed. Qed.

  Definition sound_M (body : M) (R : st -> st -> Prop) : Prop :=
    forall p s k x, body p s k = Some x -> exists p' s', R (p, s) (p', s') /\ k p' s' = Some x.

  Lemma rep_opt_sound {body R} e :
    sound_M body R -> sound_M (rep_opt body e) (fun a b => exists m, m <= e /\ iter_rel R m a b).
  Proof.
    intros HB. induction e as [|e IH]; intros p s k x H; cbn in H.
    - exists p, s. split; [|exact H]. exists 0. split; [lia|reflexivity].
    - destruct (body p s (fun p' s' => rep_opt body e p' s' k)) as [y|] eqn:Eb.
      + injection H as ->. apply HB in Eb as (p1 & s1 & HR1 & H1).
        apply IH in H1 as (p' & s' & (m & Hm & Hit) & Hk).
        exists p', s'. split; [|exact Hk]. exists (S m). split; [lia|].
        exists (p1, s1). split; assumption.
      + exists p, s. split; [|exact H]. exists 0. split; [lia|reflexivity].
  Qed.

  Lemma rep_sound {body R e} : sound_M body R -> forall lo,
    sound_M (rep_min body lo (rep_opt body e))
            (fun a b => exists m, lo <= m /\ m <= lo + e /\ iter_rel R m a b).
  Proof.
    intros HB. induction lo as [|lo IH]; intros p s k x H; cbn in H.
    - apply (rep_opt_sound e HB) in H as (p' & s' & (m & Hm & Hit) & Hk).
      exists p', s'. split; [|exact Hk]. exists m. split; [lia|]. split; [exact Hm|exact Hit].
    - apply HB in H as (p1 & s1 & HR1 & H1).
      apply IH in H1 as (p' & s' & (m & Hlo & Hhi & Hit) & Hk).
      exists p', s'. split; [|exact Hk]. exists (S m). split; [lia|]. split; [lia|].
      exists (p1, s1). split; assumption.
  Qed.

  Lemma mt_sound n r : sound_M (mt n r) (rm r).
  Proof.
    induction r as [|c| |r1 IH1 r2 IH2|r1 IH1 r2 IH2|r1 IH1 lo ext]; intros p s k x H; cbn in H.
    - exists p, s. split; [reflexivity|exact H].
    - destruct s as [|y s]; [discriminate|]. destruct (cls_mem c y) eqn:Ec; [|discriminate].
      exists (Some y), s. split; [|exact H]. exists y, s. repeat split; assumption.
    - destruct (is_boundary p s) eqn:Eb; [|discriminate].
      exists p, s. split; [|exact H]. split; [reflexivity|exact Eb].
    - apply IH1 in H as (p1 & s1 & HR1 & H1).
      apply IH2 in H1 as (p' & s' & HR2 & Hk).
      exists p', s'. split; [|exact Hk]. exists (p1, s1). split; assumption.
    - destruct (mt n r1 p s k) as [y|] eqn:E1.
      + injection H as ->. apply IH1 in E1 as (p' & s' & HR & Hk).
        exists p', s'. split; [left; exact HR|exact Hk].
      + apply IH2 in H as (p' & s' & HR & Hk).
        exists p', s'. split; [right; exact HR|exact Hk].
    - destruct ext as [e|].
      + apply (rep_sound IH1 lo) in H as (p' & s' & (m & Hlo & Hhi & Hit) & Hk).
        exists p', s'. split; [|exact Hk]. exists m. auto.
      + rewrite rep_star_is_rep_opt in H.
        apply (rep_sound IH1 lo) in H as (p' & s' & (m & Hlo & _ & Hit) & Hk).
        exists p', s'. split; [|exact Hk]. exists m. auto.
  Qed.

  (* the matcher succeeds, possibly by another way than R's: which match leftmost-first picks is stated nowhere.
     n bounds the star fuel: it must exceed the length of the rest *)
  Definition complete_M (n : nat) (body : M) (R : st -> st -> Prop) : Prop :=
    forall p s p' s' k, R (p, s) (p', s') -> length s < n -> k p' s' <> None -> body p s k <> None.

  (* m <= e: the pattern allows m iterations; length s < e: e is star fuel.  An iteration that consumed
     nothing can be dropped, and every other one shortens the rest *)
  Lemma rep_opt_complete n body (R : st -> st -> Prop) :
    framed R -> complete_M n body R ->
    forall m e p s p' s' k,
      iter_rel R m (p, s) (p', s') -> m <= e \/ length s < e -> length s < n -> k p' s' <> None ->
      rep_opt body e p s k <> None.
  Proof.
    intros HS HB. induction m as [|m IH]; intros e p s p' s' k Hit He Hn Hk; cbn in Hit.
    - injection Hit as -> ->. destruct e as [|e]; cbn; [exact Hk|].
      destruct (body p' s' (fun p'0 s'0 => rep_opt body e p'0 s'0 k)); [discriminate|exact Hk].
    - destruct Hit as ([p1 s1] & HR1 & Hit).
      destruct (HS p s p1 s1 HR1) as (w & E & L & _).
      destruct w as [|y w].
      + cbn in E, L. subst s p1. apply (IH e p s1 p' s' k Hit); [lia|exact Hn|exact Hk].
      + destruct e as [|e]; [lia|]. cbn.
        assert (Hlen : length s1 < length s) by (rewrite E; cbn; rewrite app_length; lia).
        assert (Hb : body p s (fun p'0 s'0 => rep_opt body e p'0 s'0 k) <> None).
        { eapply HB; [exact HR1|exact Hn|]. apply (IH e p1 s1 p' s' k Hit); [lia|lia|exact Hk]. }
        destruct (body p s (fun p'0 s'0 => rep_opt body e p'0 s'0 k)); [discriminate|congruence].
  Qed.

  (* n <= e is the case of star fuel *)
  Lemma rep_complete n {body} {R : st -> st -> Prop} {e} : framed R -> complete_M n body R -> forall lo,
    complete_M n (rep_min body lo (rep_opt body e))
               (fun a b => exists m, lo <= m /\ (m <= lo + e \/ n <= e) /\ iter_rel R m a b).
  Proof.
    intros HS HB. induction lo as [|lo IH]; intros p s p' s' k (m & Hlo & Hhi & Hit) Hn Hk; cbn.
    - apply (rep_opt_complete n _ _ HS HB m e p s p' s' k Hit); [lia|exact Hn|exact Hk].
    - destruct m as [|m]; [lia|]. destruct Hit as ([p1 s1] & HR1 & Hit).
      eapply HB; [exact HR1|exact Hn|]. pose proof (framed_len HS HR1).
      eapply IH; [exists m; split; [lia|split; [lia|exact Hit]]|lia|exact Hk].
  Qed.

  Lemma mt_complete n r : complete_M n (mt n r) (rm r).
  Proof.
    induction r as [|c| |r1 IH1 r2 IH2|r1 IH1 r2 IH2|r1 IH1 lo ext]; intros p s p' s' k H Hn Hk; cbn in H |- *.
    - injection H as -> ->. exact Hk.
    - destruct H as (x & s0 & E & Hc & Hb). cbn in E. subst s. injection Hb as -> ->.
      rewrite Hc. exact Hk.
    - destruct H as [Hb H]. injection Hb as -> ->. cbn in H. rewrite H. exact Hk.
    - destruct H as ([p1 s1] & H1 & H2).
      eapply IH1; [exact H1|exact Hn|]. eapply IH2; [exact H2| |exact Hk].
      apply rm_len in H1. lia.
    - destruct H as [H|H].
      + specialize (IH1 p s p' s' k H Hn Hk). destruct (mt n r1 p s k); [discriminate|congruence].
      + destruct (mt n r1 p s k); [discriminate|]. eapply IH2; eassumption.
    - (* a{lo,} is a{lo,lo+e} with the star fuel n for e *)
      destruct H as (m & Hlo & Hhi & Hit).
      destruct ext as [e|]; [|rewrite rep_star_is_rep_opt];
        (eapply (rep_complete n (rm_framed r1) IH1 lo); [exists m; split; [exact Hlo|split; [|exact Hit]]|exact Hn|exact Hk]).
      + left. exact Hhi.
      + right. apply le_n.
  Qed.

  Lemma match_at_sound {n r p s rest} :
    match_at n r p s = Some rest -> exists w, s = w ++ rest /\ rm r (p, s) (lasto p w, rest).
  Proof.
    intros H. apply (mt_sound n r) in H as (p' & s' & HR & Hk).
    injection Hk as ->. destruct (rm_framed r p s p' rest HR) as (w & E & -> & _).
    exists w. split; assumption.
  Qed.

  Lemma match_at_complete n r {p s p' s'} :
    rm r (p, s) (p', s') -> length s < n -> match_at n r p s <> None.
  Proof. intros H Hn. eapply mt_complete; [exact H|exact Hn|discriminate]. Qed.

  Lemma im_eq n r p s :
    im n r p s = match match_at n r p s with
                 | Some _ => true
                 | None => match s with [] => false | x :: s' => im n r (Some x) s' end
                 end.
  Proof. destruct s; reflexivity. Qed.

  Lemma match_at_has_match {n r p s rest} : match_at n r p s = Some rest ->
    exists u w v, s = u ++ w ++ v /\ rm r (lasto p u, w ++ v) (lasto p (u ++ w), v).
  Proof.
    intros E. destruct (match_at_sound E) as (w & -> & HR).
    exists [], w, rest. split; [reflexivity|exact HR].
  Qed.

  Lemma im_sound n r : forall s p,
    im n r p s = true ->
    exists u w v, s = u ++ w ++ v /\ rm r (lasto p u, w ++ v) (lasto p (u ++ w), v).
  Proof.
    induction s as [|x s IH]; intros p H; rewrite im_eq in H.
    - destruct (match_at n r p []) eqn:E; [|discriminate]. exact (match_at_has_match E).
    - destruct (match_at n r p (x :: s)) eqn:E; [exact (match_at_has_match E)|].
      destruct (IH _ H) as (u & w & v & -> & HR). exists (x :: u), w, v. split; [reflexivity|exact HR].
  Qed.

  Lemma im_complete n r : forall u p w v q,
    rm r (lasto p u, w ++ v) (q, v) -> length (u ++ w ++ v) < n -> im n r p (u ++ w ++ v) = true.
  Proof.
    induction u as [|x u IH]; intros p w v q H Hn; rewrite im_eq.
    - pose proof (match_at_complete n r H Hn) as Hm. cbn [app lasto fold_left] in *.
      destruct (match_at n r p (w ++ v)); [reflexivity|congruence].
    - cbn [app] in *. destruct (match_at n r p _); [reflexivity|].
      apply (IH (Some x) w v q); [exact H|]. cbn in Hn. lia.
  Qed.

  Lemma is_match_map_fst r (ms : mtext) : is_match r (map fst ms) = im (S (length ms)) r None (map fst ms).
  Proof. unfold Regex.is_match. rewrite map_length. reflexivity. Qed.

  Lemma ra_no_match n r tok : forall s p after, im n r p s = false -> ra n r tok p s 0 after = s.
  Proof.
    induction s as [|x s IH]; intros p after H; rewrite im_eq in H; cbn [ra].
    - destruct (match_at n r p []); [discriminate|]. destruct after; reflexivity.
    - destruct (match_at n r p (x :: s)); [discriminate|]. rewrite (IH _ _ H). reflexivity.
  Qed.

  Theorem replace_all_no_match r tok s : is_match r s = false -> replace_all r tok s = s.
  Proof. apply ra_no_match. Qed.

  Lemma ra_m_erase n r tok j : forall ms p skip after,
    map fst (ra_m n r (mark j tok) p (map fst ms) ms skip after) = ra n r tok p (map fst ms) skip after.
  Proof.
    pose proof (map_fst_mark j tok) as Ht.
    induction ms as [|[x mk] ms IH]; intros p skip after; cbn [map fst ra ra_m tl].
    - destruct skip; [|reflexivity]. destruct after; [reflexivity|].
      destruct (match_at n r p []); [exact Ht|reflexivity].
    - destruct skip as [|k]; [|apply IH].
      destruct (match_at n r p (x :: map fst ms)) as [rest|]; [|cbn [map fst]; rewrite IH; reflexivity].
      destruct (length (x :: map fst ms) - length rest) as [|l].
      + destruct after; [cbn [map fst]; rewrite IH; reflexivity|].
        rewrite map_app, Ht. cbn [map fst]. rewrite IH. reflexivity.
      + rewrite map_app, Ht, IH. reflexivity.
  Qed.

  Lemma replace_all_m_erase r tok j ms :
    map fst (replace_all_m r tok j ms) = replace_all r tok (map fst ms).
  Proof. unfold Regex.replace_all_m, Regex.replace_all. rewrite ra_m_erase, map_length. reflexivity. Qed.
End Unicode.
