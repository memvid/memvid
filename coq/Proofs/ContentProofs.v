(* Proofs for M-Content (C07).  The batch loop of apply_records is followed through [linv], the loop
   invariant (every frame's stored window lies between the log region and the cursor, inside the file),
   [core], the fields of a frame that nothing in a batch changes once the frame exists, and [keeps],
   the relation between an earlier and a later loop state.  Every record moves the state as
   [loop_advance] describes, and so does the commit that ends the batch: the committed store is one
   more loop state, [init_l st'].  Write side and read side meet in [stores st c b]: a fresh insert
   establishes it (fresh_insert_stores), and the three readers read b from it. *)
From MV Require Import Base.Prelude Base.Facts Model.Content.
From MV Require Base.SortFacts.
Local Open Scope N_scope.

Lemma blen_app {A} (a b : list A) : blen (a ++ b) = blen a + blen b.
Proof. unfold blen. rewrite app_length. lia. Qed.

Lemma blen_nil {A} : blen (@nil A) = 0.
Proof. reflexivity. Qed.

Lemma nth_error_app_l {A} (l1 l2 : list A) k x : nth_error l1 k = Some x -> nth_error (l1 ++ l2) k = Some x.
Proof. intros Hk. rewrite nth_error_app1; [exact Hk|]. apply nth_error_Some. congruence. Qed.

Lemma Forall_nth_error {A} (P : A -> Prop) l k x : Forall P l -> nth_error l k = Some x -> P x.
Proof. intros HF Hk. rewrite Forall_forall in HF. apply HF. eapply nth_error_In; exact Hk. Qed.

Lemma nth_error_length_snoc {A} (l : list A) x : nth_error (l ++ [x]) (length l) = Some x.
Proof. rewrite nth_error_app2, Nat.sub_diag by apply le_n. reflexivity. Qed.

Lemma map_eq_length {A B} (g : A -> B) l l' : map g l' = map g l -> length l' = length l.
Proof. intros E. rewrite <- (map_length g l'), E. apply map_length. Qed.

Lemma Forall_map_eq {A B} (g : A -> B) (P : A -> Prop) :
  (forall a b, g b = g a -> P a -> P b) ->
  forall l l', map g l' = map g l -> Forall P l -> Forall P l'.
Proof.
  intros HP l. induction l as [|a l IH]; intros [|b l'] E HF; try discriminate; [constructor|].
  injection E as Eb El. inversion HF; subst. constructor; [apply (HP a); assumption|apply IH; assumption].
Qed.

Lemma Forall2_length {A B} (R : A -> B -> Prop) l l' : Forall2 R l l' -> length l = length l'.
Proof. induction 1; simpl; congruence. Qed.

Lemma upd_map {A B} (g : A -> B) l n x y :
  nth_error l n = Some y -> g x = g y -> map g (firstn n l ++ x :: skipn (S n) l) = map g l.
Proof.
  revert n; induction l as [|a l IH]; intros [|n] Hn Hg; simpl in *; try discriminate.
  - inversion Hn; subst. rewrite Hg. reflexivity.
  - f_equal. apply IH; auto.
Qed.

Lemma write_at_length file off p :
  p <> [] -> length (write_at file off p) = Nat.max (length file) (off + length p).
Proof.
  intros Hp. unfold write_at. destruct p as [|x p']; [congruence|].
  rewrite !app_length, firstn_length, skipn_length, app_length, repeat_length. lia.
Qed.

Lemma write_at_slice_new file off p : slice (write_at file off p) off (length p) = p.
Proof.
  destruct p as [|x p']; [reflexivity|]. unfold write_at.
  set (padded := file ++ repeat 0 (off - length file)).
  assert (Hl : length (firstn off padded) = off).
  { unfold padded. rewrite firstn_length, app_length, repeat_length. lia. }
  pose proof (slice_app_exact (firstn off padded) (x :: p') (skipn (off + length (x :: p')) padded)) as E.
  rewrite Hl in E. exact E.
Qed.

Lemma write_at_slice_old file off p a n :
  (a + n <= off)%nat -> (a + n <= length file)%nat ->
  slice (write_at file off p) a n = slice file a n.
Proof.
  intros H1 H2. destruct p as [|x p']; [reflexivity|]. unfold write_at.
  rewrite slice_app_l by (rewrite firstn_length, app_length; lia).
  rewrite slice_firstn by exact H1. apply slice_app_l. exact H2.
Qed.

Section Sorting.
  Context {A : Type} (key : A -> N * N).
  Fixpoint sorted (l : list A) : Prop :=
    match l with
    | [] => True
    | x :: r => (forall y, In y r -> key_le (key x) (key y) = true) /\ sorted r
    end.
  Definition kleb (a b : A) : bool := key_le (key a) (key b).
  Lemma kleb_total a b : kleb a b = true \/ kleb b a = true.
  Proof. unfold kleb, key_le. lia. Qed.
  Lemma kleb_trans a b c : kleb a b = true -> kleb b c = true -> kleb a c = true.
  Proof. unfold kleb, key_le. lia. Qed.
  Lemma sort_by_isort l : sort_by key l = SortFacts.isort kleb l.
  Proof.
    apply SortFacts.isort_fold. intros x r.
    induction r as [|y r IH]; cbn [insert_by SortFacts.insert]; [|rewrite IH]; reflexivity.
  Qed.
  Lemma sort_sorted l : sorted l -> sort_by key l = l.
  Proof. rewrite sort_by_isort. apply SortFacts.sorted_isort_id; [exact kleb_total|exact kleb_trans]. Qed.
  Lemma sort_by_idem l : sort_by key (sort_by key l) = sort_by key l.
  Proof. rewrite !sort_by_isort. apply SortFacts.isort_idem; [exact kleb_total|exact kleb_trans]. Qed.
End Sorting.

Definition wal_end (st : store) : N := s_wal_off st + s_wal_size st.

Definition win_ok (wend dend flen : N) (f : frame) : Prop :=
  f_len f = 0 \/
  (f_len f <= MAX_FRAME_BYTES /\ wend <= f_off f /\ f_off f + f_len f <= dend /\ f_off f + f_len f <= flen).

Lemma win_ok_same_window wend dend flen f g :
  f_off g = f_off f -> f_len g = f_len f -> win_ok wend dend flen f -> win_ok wend dend flen g.
Proof. unfold win_ok. intros -> ->. exact (fun Hf => Hf). Qed.

Lemma window_length file off len :
  off + len <= blen file -> blen (window file off len) = len.
Proof.
  intros Hle. unfold window, blen in *. rewrite slice_length; lia.
Qed.

Lemma window_zero file off : window file off 0 = [].
Proof. reflexivity. Qed.

Lemma window_write_new file off p :
  window (write_at file (N.to_nat off) p) off (blen p) = p.
Proof.
  unfold window, blen. rewrite Nat2N.id. apply write_at_slice_new.
Qed.

Lemma window_write_old file off p a n :
  a + n <= off -> a + n <= blen file ->
  window (write_at file (N.to_nat off) p) a n = window file a n.
Proof.
  intros H1 H2. unfold window, blen in *. apply write_at_slice_old; lia.
Qed.

Lemma blen_write_at_ge file off p : blen file <= blen (write_at file (N.to_nat off) p).
Proof.
  destruct p as [|x p']; [apply N.le_refl|]. unfold blen. rewrite write_at_length by discriminate. lia.
Qed.

Lemma blen_write_at_end file off p :
  p <> [] -> off + blen p <= blen (write_at file (N.to_nat off) p).
Proof. intros Hp. unfold blen. rewrite write_at_length by exact Hp. lia. Qed.

Lemma win_ok_written wend file cur p fr :
  wend <= cur -> blen p <= MAX_FRAME_BYTES -> f_off fr = cur -> f_len fr = blen p ->
  win_ok wend (cur + blen p) (blen (write_at file (N.to_nat cur) p)) fr.
Proof.
  intros Hw Hp Ho Hl. unfold win_ok. rewrite Ho, Hl.
  destruct p as [|x p']; [left; reflexivity|right].
  pose proof (blen_write_at_end file cur (x :: p') ltac:(discriminate)). lia.
Qed.

Lemma validate_ok st f :
  s_data_end st <= U64_MAX ->
  win_ok (wal_end st) (s_data_end st) (blen (s_file st)) f ->
  validate_frame_bounds st f = Ok tt.
Proof.
  intros Hd Hwin. unfold validate_frame_bounds, wal_end in *.
  destruct (f_len f =? 0) eqn:E0; [reflexivity|].
  destruct Hwin as [Hz|(Ha & Hb & Hc & He)]; [lia|].
  rewrite !(proj2 (N.ltb_ge _ _)) by lia. reflexivity.
Qed.

Lemma read_payload_ok st f :
  s_data_end st <= U64_MAX ->
  win_ok (wal_end st) (s_data_end st) (blen (s_file st)) f ->
  read_payload st f = Ok (window (s_file st) (f_off f) (f_len f)).
Proof.
  intros Hd Hwin. unfold read_payload. rewrite validate_ok by assumption.
  destruct Hwin as [Hz|(Ha & Hb & Hc & He)].
  - rewrite Hz, window_zero. reflexivity.
  - rewrite window_length by lia. rewrite N.eqb_refl. reflexivity.
Qed.

Lemma no_manifest_not_chunked f : f_manifest f = None -> is_chunked_doc f = false.
Proof. intros E. unfold is_chunked_doc. rewrite E. apply andb_false_r. Qed.

(* later records and the orphan pass change only status, superseded_by, parent *)
Definition core (f : frame) :=
  (f_id f, f_off f, f_len f, f_sum f, f_enc f, f_clen f, f_role f, f_manifest f, f_cidx f).

Lemma win_ok_core wend dend flen f g :
  core g = core f -> win_ok wend dend flen f -> win_ok wend dend flen g.
Proof. intros [= _ Ho Hl _ _ _ _ _ _]. apply win_ok_same_window; assumption. Qed.

Lemma set_status_core frames i s b fr :
  set_status frames i s b = Some fr -> map core fr = map core frames.
Proof.
  unfold set_status, get. destruct (nth_error frames (N.to_nat i)) as [f|] eqn:E; [|discriminate].
  intros [= <-]. eapply upd_map; [exact E|reflexivity].
Qed.

(* the supersede step of an insert (status 1 is Superseded) *)
Definition mark_superseded (frames : list frame) (sup : option N) (by_ : N) : option (list frame) :=
  match sup with
  | None => Some frames
  | Some p => set_status frames p 1 (Some by_)
  end.

Lemma mark_superseded_core frames sup by_ fr :
  mark_superseded frames sup by_ = Some fr -> map core fr = map core frames.
Proof. destruct sup as [p|]; cbn; [apply set_status_core|intros [= <-]; reflexivity]. Qed.

Lemma resolve_orphan_core orig ins f : core (resolve_orphan orig ins f) = core f.
Proof.
  unfold resolve_orphan. destruct (_ && _ && _); [destruct (find_candidate _ _)|]; reflexivity.
Qed.

Record linv (st0 : store) (l : lstate) : Prop := {
  li_wal : wal_end st0 <= l_cursor l;
  li_dend : l_dend l = l_cursor l;
  li_frames : Forall (win_ok (wal_end st0) (l_cursor l) (blen (l_file l))) (l_frames l)
}.

Definition entry_ok (e : entry) : Prop := blen (e_payload e) <= MAX_FRAME_BYTES.
Definition rec_ok (r : record) : Prop :=
  match r with RInsert _ e => entry_ok e | _ => True end.

Definition count_ins (rs : list record) : nat :=
  length (filter (fun r => match r with RInsert _ _ => true | _ => false end) rs).

Lemma count_ins_cons r rs : count_ins (r :: rs) = (count_ins [r] + count_ins rs)%nat.
Proof. unfold count_ins. cbn [filter]. destruct r; simpl; lia. Qed.

Record keeps (l l1 : lstate) : Prop := {
  k_cursor : l_cursor l <= l_cursor l1;
  k_frames : exists ext, map core (l_frames l1) = map core (l_frames l) ++ ext;
  k_window : forall a n, a + n <= l_cursor l -> a + n <= blen (l_file l) ->
               window (l_file l1) a n = window (l_file l) a n /\ a + n <= blen (l_file l1)
}.

Lemma keeps_trans a b c : keeps a b -> keeps b c -> keeps a c.
Proof.
  intros [A1 [x Hx] A3] [B1 [y Hy] B3]. constructor.
  - lia.
  - exists (x ++ y). rewrite Hy, Hx, app_assoc. reflexivity.
  - intros o n Ho Hn. destruct (A3 o n Ho Hn) as [E1 L1]. destruct (B3 o n ltac:(lia) L1) as [E2 L2].
    split; [congruence|exact L2].
Qed.

Lemma keeps_nth l l1 k g :
  keeps l l1 -> nth_error (l_frames l) k = Some g ->
  exists g', nth_error (l_frames l1) k = Some g' /\ core g' = core g.
Proof.
  intros [_ [ext Hext] _] Hk.
  pose proof (nth_error_app_l _ ext _ _ (map_nth_error core _ _ Hk)) as Hc.
  rewrite <- Hext, nth_error_map in Hc.
  destruct (nth_error (l_frames l1) k) as [g'|]; [|discriminate].
  exists g'. split; [reflexivity|]. cbn in Hc. congruence.
Qed.

Lemma written_window_kept l1 l' file cur p :
  l_file l1 = write_at file (N.to_nat cur) p -> l_cursor l1 = cur + blen p -> keeps l1 l' ->
  window (l_file l') cur (blen p) = p.
Proof.
  intros Hf Hc K. destruct p as [|x p']; [reflexivity|].
  destruct (k_window _ _ K cur (blen (x :: p'))) as [E _];
    [lia|rewrite Hf; apply blen_write_at_end; discriminate|].
  rewrite E, Hf. apply window_write_new.
Qed.

Record store_ok (st : store) : Prop := {
  so_wal : wal_end st <= s_data_end st;
  so_frames : Forall (win_ok (wal_end st) (s_data_end st) (blen (s_file st))) (s_frames st)
}.

Definition init_l (st : store) : lstate := mkL (s_file st) (s_frames st) (s_data_end st) (s_data_end st) [] [].

Lemma init_linv st : store_ok st -> linv st (init_l st).
Proof. intros [A B]. constructor; cbn; auto. Qed.

(* the index text of an entry without search text is read back through frame_content while the batch is
   still being applied; data_end is advanced right after the write, so the read is accepted *)
Theorem read_during_apply_ok st0 l e fr :
  linv st0 l -> entry_ok e -> l_cursor l + blen (e_payload e) <= U64_MAX ->
  f_off fr = l_cursor l -> f_len fr = blen (e_payload e) ->
  let file' := write_at (l_file l) (N.to_nat (l_cursor l)) (e_payload e) in
  let dend' := N.max (l_dend l) (l_cursor l + blen (e_payload e)) in
  validate_frame_bounds (view st0 file' dend' (l_frames l)) fr = Ok tt /\
  read_payload (view st0 file' dend' (l_frames l)) fr = Ok (e_payload e).
Proof.
  intros [Hw Hd _] Hok Hu Ho Hl file' dend'.
  set (v := view st0 file' dend' (l_frames l)).
  assert (Hde : s_data_end v = l_cursor l + blen (e_payload e)) by (cbn; lia).
  assert (Hwin : win_ok (wal_end v) (s_data_end v) (blen (s_file v)) fr).
  { rewrite Hde. apply win_ok_written; assumption. }
  assert (B : s_data_end v <= U64_MAX) by lia.
  split; [apply validate_ok; assumption|].
  rewrite read_payload_ok by assumption. cbn [v view s_file]. rewrite Ho, Hl. f_equal. apply window_write_new.
Qed.

Section Reads.
  Variable zdec : bytes -> option bytes.

  Notation decode_canonical := (decode_canonical zdec).
  Notation frame_canonical_bytes := (frame_canonical_bytes zdec).
  Notation read_children := (read_children zdec).
  Notation document_chunk_payloads := (document_chunk_payloads zdec).
  Notation blob_reader := (blob_reader zdec).

  Definition stores (st : store) (c : frame) (b : bytes) : Prop :=
    win_ok (wal_end st) (s_data_end st) (blen (s_file st)) c /\
    decode_canonical (f_enc c) (window (s_file st) (f_off c) (f_len c)) = Ok b /\
    f_clen c = Some (blen b).

  Lemma stores_canonical st f p :
    s_data_end st <= U64_MAX ->
    stores st f p -> is_chunked_doc f = false -> frame_canonical_bytes st f = Ok p.
  Proof.
    intros Hd (Hwin & Hdec & Hcl) Hc. unfold Content.frame_canonical_bytes. rewrite Hc.
    rewrite read_payload_ok by assumption. unfold decode_checked. rewrite Hdec, Hcl, N.eqb_refl. reflexivity.
  Qed.

  Lemma stores_blob st f p :
    s_data_end st <= U64_MAX ->
    stores st f p -> is_chunked_doc f = false ->
    exists b, blob_reader st f = Ok b /\ blob_read_to_end st b = p /\ blob_len b = blen p.
  Proof.
    intros Hd Hst Hc. unfold Content.blob_reader. destruct (f_enc f) eqn:Ee.
    - (* Plain: the reader is the file window *)
      destruct Hst as (Hwin & Hdec & _). rewrite Ee in Hdec. injection Hdec as <-.
      eexists. split; [reflexivity|]. split; [reflexivity|]. cbn [blob_len].
      destruct Hwin as [Hz|(_ & _ & _ & He)]; [rewrite Hz; reflexivity|symmetry; apply window_length; exact He].
    - (* Zstd: the reader holds the canonical bytes *)
      rewrite (stores_canonical st f p Hd Hst Hc). exists (BMem p). split; [reflexivity|]. split; reflexivity.
  Qed.

  Lemma canonical_same_fields st f g :
    f_off f = f_off g -> f_len f = f_len g -> f_enc f = f_enc g -> f_clen f = f_clen g ->
    is_chunked_doc f = false -> is_chunked_doc g = false ->
    frame_canonical_bytes st f = frame_canonical_bytes st g.
  Proof.
    intros Ho Hl He Hc Hf Hg. unfold Content.frame_canonical_bytes. rewrite Hf, Hg.
    unfold read_payload, validate_frame_bounds, decode_checked. rewrite Ho, Hl, He, Hc. reflexivity.
  Qed.

  Lemma read_children_ok st cs chunks :
    s_data_end st <= U64_MAX ->
    Forall2 (stores st) cs chunks ->
    read_children st cs = Ok (combine cs chunks).
  Proof.
    intros Hd HF. induction HF as [|c ch cs' chs (Hwin & Hdec & Hcl) _ IH]; [reflexivity|].
    cbn [Content.read_children combine]. rewrite read_payload_ok by assumption.
    unfold decode_checked. rewrite Hdec, Hcl, N.eqb_refl, IH. reflexivity.
  Qed.

  (* the children as the code takes them: sorted, whatever their order in the table *)
  Theorem chunked_document_reads st f chunks n :
    s_data_end st <= U64_MAX ->
    is_chunked_doc f = true -> f_manifest f = Some n ->
    let cs := document_chunk_frames st (f_id f) in
    cs <> [] -> blen cs = n ->
    Forall2 (stores st) cs chunks ->
    document_chunk_payloads st f = Ok (combine cs chunks) /\
    frame_canonical_bytes st f = Ok (concat chunks) /\
    Forall2 (fun c ch => frame_canonical_bytes st c = Ok ch \/ is_chunked_doc c = true) cs chunks.
  Proof.
    intros Hd Hcd Hman cs Hne Hn HF.
    assert (Hdcp : document_chunk_payloads st f = Ok (combine cs chunks)).
    { unfold Content.document_chunk_payloads. rewrite Hman. fold cs.
      (* the second sort finds the list sorted *)
      replace (sort_by child_key cs) with cs by (symmetry; apply sort_by_idem).
      destruct cs; [congruence|]. cbn [null]. rewrite Hn, N.eqb_refl.
      exact (read_children_ok st _ chunks Hd HF). }
    split; [exact Hdcp|]. split.
    - unfold Content.frame_canonical_bytes. rewrite Hcd, Hdcp. rewrite combine_map_snd; [reflexivity|].
      exact (Forall2_length _ _ _ HF).
    - clear Hdcp Hn Hne. induction HF as [|c ch cs' chs (Hwin & Hdec & Hcl) _ IH]; constructor; [|exact IH].
      destruct (is_chunked_doc c) eqn:Ec; [right; reflexivity|left].
      exact (stores_canonical st c ch Hd (conj Hwin (conj Hdec Hcl)) Ec).
  Qed.
End Reads.

(* the parent of an insert: what parent_sequence maps to, else (DocumentChunk) the batch's latest manifest document *)
Definition insert_parent (l : lstate) (e : entry) : option N :=
  match e_parent_seq e with
  | None => None
  | Some ps => match lookup ps (l_seqmap l) with
               | Some pid => Some pid
               | None => if e_role e =? 1
                         then find (is_manifest_doc (l_frames l)) (rev (l_inserted l))
                         else None
               end
  end.

Definition inserted_frame (l : lstate) (e : entry) (off len : N) (sum : bytes) (cl : N) : frame :=
  mkFrame (blen (l_frames l)) off len sum (e_enc e) (Some cl) (e_role e) (e_manifest e)
          (insert_parent l e) (e_cidx e) 0 (e_supersedes e) None (e_stext e) (e_mime e).

Section Proofs.
  Variable zenc : Z -> bytes -> bytes.
  Variable zdec : bytes -> option bytes.
  Variable H : bytes -> bytes.
  Variable is_utf8 : bytes -> bool.
  Variable summary : N -> bytes.
  (* all that is assumed of zstd *)
  Hypothesis zstd_rt : forall level x, zdec (zenc level x) = Some x.

  Notation prepare := (prepare zenc is_utf8).
  Notation decode_canonical := (decode_canonical zdec).
  Notation frame_canonical_bytes := (frame_canonical_bytes zdec).
  Notation blob_reader := (blob_reader zdec).
  Notation apply_insert := (apply_insert zdec H is_utf8 summary).
  Notation apply_one := (apply_one zdec H is_utf8 summary).
  Notation apply_loop := (apply_loop zdec H is_utf8 summary).
  Notation apply_records := (apply_records zdec H is_utf8 summary).
  Notation whole_entry := (whole_entry zenc is_utf8).

  Lemma prepare_roundtrip level p :
    let '(stored, e, cl) := prepare level p in
    decode_canonical e stored = Ok p /\ cl = Some (blen p).
  Proof.
    unfold Content.prepare. destruct (level =? 0)%Z; [split; reflexivity|].
    destruct (is_utf8 p); [|split; reflexivity].
    split; [|reflexivity]. unfold Content.decode_canonical. rewrite zstd_rt. reflexivity.
  Qed.

  (* mentions no oracle, but its closed statement takes all of this section's (and zstd_rt): lia reverts the
     whole context; so does read_during_apply_rejected_before_fix *)
  Lemma win_ok_mono wend d1 d2 l1 l2 f :
    d1 <= d2 -> l1 <= l2 -> win_ok wend d1 l1 f -> win_ok wend d2 l2 f.
  Proof. intros Hd Hl [Hz|(Ha & Hb & Hc & He)]; [left; exact Hz|right; repeat split; lia]. Qed.

  Lemma apply_insert_fresh st0 l seq e l1 :
    e_reuse e = None -> apply_insert st0 l seq e = Ok l1 ->
    exists cl fr1,
      (forall n, e_clen e = Some n -> cl = n) /\
      mark_superseded (l_frames l) (e_supersedes e) (blen (l_frames l)) = Some fr1 /\
      l1 = mkL (write_at (l_file l) (N.to_nat (l_cursor l)) (e_payload e))
               (fr1 ++ [inserted_frame l e (l_cursor l) (blen (e_payload e)) (H (e_payload e)) cl])
               (l_cursor l + blen (e_payload e))
               (N.max (l_dend l) (l_cursor l + blen (e_payload e)))
               ((seq, blen (l_frames l)) :: l_seqmap l) (l_inserted l ++ [blen (l_frames l)]).
  Proof.
    intros Hre. unfold Content.apply_insert. rewrite Hre.
    (* the canonical length (the scrutinee that yields the placement tuple) and the index read are taken apart
       where they stand; `progress` makes the folds fail if the model's text ever differs from the definitions *)
    match goal with |- context [match ?c with Ok _ => Ok (_, _, _, _, _, _, _) | Err k => _ | Panic s => _ end] =>
      destruct c as [cl|k|s] eqn:Ecl; [|discriminate|discriminate] end.
    cbv zeta.
    match goal with |- context [if s_lex st0 then ?a else ?b] =>
      destruct (if s_lex st0 then a else b) as [u|k|s]; [|discriminate|discriminate] end.
    progress fold (insert_parent l e).
    progress fold (mark_superseded (l_frames l) (e_supersedes e) (blen (l_frames l))).
    destruct (mark_superseded _ _ _) as [fr1|] eqn:Esup; [|discriminate].
    intros [= <-]. exists cl, fr1. split; [|split; reflexivity].
    intros n Hn. rewrite Hn in Ecl. destruct (e_enc e); injection Ecl; auto.
  Qed.

  Lemma apply_insert_reuse st0 l seq e src l1 :
    e_reuse e = Some src -> apply_insert st0 l seq e = Ok l1 ->
    exists s fr1,
      nth_error (l_frames l) (N.to_nat src) = Some s /\
      mark_superseded (l_frames l) (e_supersedes e) (blen (l_frames l)) = Some fr1 /\
      l1 = mkL (l_file l)
               (fr1 ++ [inserted_frame l e (f_off s) (f_len s) (f_sum s)
                          (match or_else (e_clen e) (f_clen s) with Some n => n | None => f_len s end)])
               (l_cursor l) (l_dend l)
               ((seq, blen (l_frames l)) :: l_seqmap l) (l_inserted l ++ [blen (l_frames l)]).
  Proof.
    intros Hre. unfold Content.apply_insert. rewrite Hre.
    destruct (negb (null (e_payload e))); [discriminate|].
    unfold get. destruct (nth_error (l_frames l) (N.to_nat src)) as [s|] eqn:Es; [|discriminate].
    cbv zeta.
    match goal with |- context [if s_lex st0 then ?a else ?b] =>
      destruct (if s_lex st0 then a else b) as [u|k|s']; [|discriminate|discriminate] end.
    progress fold (insert_parent l e).
    progress fold (mark_superseded (l_frames l) (e_supersedes e) (blen (l_frames l))).
    destruct (mark_superseded _ _ _) as [fr1|] eqn:Esup; [|discriminate].
    intros [= <-]. exists s, fr1. repeat split; reflexivity.
  Qed.

  (* every record, and the commit at the end, moves the loop state this way; p = [] writes nothing *)
  Lemma loop_advance st0 l l1 p fr1 new :
    linv st0 l ->
    l_file l1 = write_at (l_file l) (N.to_nat (l_cursor l)) p ->
    l_cursor l <= l_cursor l1 -> l_dend l1 = l_cursor l1 ->
    l_frames l1 = fr1 ++ new -> map core fr1 = map core (l_frames l) ->
    Forall (win_ok (wal_end st0) (l_cursor l1) (blen (l_file l1))) new ->
    linv st0 l1 /\ keeps l l1 /\ length (l_frames l1) = (length (l_frames l) + length new)%nat.
  Proof.
    intros [Hw Hd Hfr] Hf Hc Hd1 Hfr1 Hcore Hnew.
    assert (Hge : blen (l_file l) <= blen (l_file l1)) by (rewrite Hf; apply blen_write_at_ge).
    split; [|split].
    - constructor; [lia|exact Hd1|]. rewrite Hfr1. apply Forall_app. split; [|exact Hnew].
      apply (Forall_map_eq core _ (win_ok_core _ _ _) _ _ Hcore).
      revert Hfr. apply Forall_impl. intros f. apply win_ok_mono; assumption.
    - constructor; [exact Hc| |].
      + exists (map core new). rewrite Hfr1, map_app, Hcore. reflexivity.
      + intros a n Ha Hn. split; [|lia]. rewrite Hf. apply window_write_old; assumption.
    - rewrite Hfr1, app_length, (map_eq_length _ _ _ Hcore). reflexivity.
  Qed.

  (* loop_advance's premises on file, cursor, data_end and frame list hold by computation once data_end is the
     cursor (li_dend) and a trailing `++ []` is dropped; `lia` for the cursor and the maximum after a fresh insert *)
  Ltac placed Hinv :=
    cbn [l_file l_cursor l_dend l_frames]; rewrite ?(li_dend _ _ Hinv), ?app_nil_r; (reflexivity || lia).

  Lemma apply_one_step st0 l r l1 :
    linv st0 l -> rec_ok r -> apply_one st0 l r = Ok l1 ->
    linv st0 l1 /\ keeps l l1 /\ length (l_frames l1) = (length (l_frames l) + count_ins [r])%nat.
  Proof.
    intros Hinv Hok. destruct r as [seq e|[t|]|]; cbn [Content.apply_one].
    - destruct (e_reuse e) as [src|] eqn:Ere; intros Hap.
      + destruct (apply_insert_reuse _ _ _ _ _ _ Ere Hap) as (s & fr1 & Hs & Hsup & ->).
        eapply (loop_advance st0 l _ [] fr1 [_] Hinv);
          [placed Hinv..|apply (mark_superseded_core _ _ _ _ Hsup)|].
        constructor; [|constructor]. apply (win_ok_same_window _ _ _ s); [reflexivity..|].
        exact (Forall_nth_error _ _ _ _ (li_frames _ _ Hinv) Hs).
      + destruct (apply_insert_fresh _ _ _ _ _ Ere Hap) as (cl & fr1 & _ & Hsup & ->).
        eapply (loop_advance st0 l _ (e_payload e) fr1 [_] Hinv);
          [placed Hinv..|apply (mark_superseded_core _ _ _ _ Hsup)|].
        constructor; [|constructor]. apply win_ok_written; [apply (li_wal _ _ Hinv)|exact Hok|reflexivity..].
    - destruct (set_status (l_frames l) t 2 None) as [fr|] eqn:Es; [|discriminate].
      intros [= <-]. apply (loop_advance st0 l _ [] fr [] Hinv);
        [placed Hinv..|apply (set_status_core _ _ _ _ _ Es)|constructor].
    - discriminate.
    - intros [= <-]. apply (loop_advance st0 l l [] (l_frames l) [] Hinv);
        [placed Hinv..|reflexivity|constructor].
  Qed.

  Lemma apply_loop_steps st0 rs : forall l l1,
    linv st0 l -> Forall rec_ok rs -> apply_loop st0 l rs = Ok l1 ->
    linv st0 l1 /\ keeps l l1 /\ length (l_frames l1) = (length (l_frames l) + count_ins rs)%nat.
  Proof.
    induction rs as [|r rs IH]; intros l l1 Hinv Hok; cbn [Content.apply_loop].
    - (* no record: the same as one RLex record *)
      intros [= <-]. exact (apply_one_step st0 l RLex l Hinv I eq_refl).
    - inversion Hok as [|? ? Hr Hrs]; subst.
      destruct (apply_one st0 l r) as [l'|k|s] eqn:E1; [|discriminate|discriminate].
      intros E2. destruct (apply_one_step _ _ _ _ Hinv Hr E1) as (I1 & K1 & L1).
      destruct (IH _ _ I1 Hrs E2) as (I2 & K2 & L2).
      split; [exact I2|]. split; [exact (keeps_trans _ _ _ K1 K2)|].
      rewrite L2, L1, (count_ins_cons r rs). lia.
  Qed.

  Lemma apply_loop_app st0 rs1 rs2 : forall l l2,
    apply_loop st0 l (rs1 ++ rs2) = Ok l2 ->
    exists l1, apply_loop st0 l rs1 = Ok l1 /\ apply_loop st0 l1 rs2 = Ok l2.
  Proof.
    induction rs1 as [|r rs1 IH]; intros l l2; cbn [app Content.apply_loop].
    - intros E. exists l. split; [reflexivity|exact E].
    - destruct (apply_one st0 l r) as [l'|k|s]; [|discriminate|discriminate]. apply IH.
  Qed.

  Lemma apply_records_nonempty st rs :
    rs <> [] ->
    apply_records st rs =
    match apply_loop st (init_l st) rs with
    | Ok l => Ok (mkStore (l_file l) (s_wal_off st) (s_wal_size st) (N.max (l_dend l) (l_cursor l))
                          (resolve_orphans (l_frames l) (l_inserted l)) (s_lex st))
    | Err k => Err k
    | Panic s => Panic s
    end.
  Proof. destruct rs; [congruence|reflexivity]. Qed.

  Lemma apply_records_at st pre r post st' :
    store_ok st -> Forall rec_ok (pre ++ r :: post) -> apply_records st (pre ++ r :: post) = Ok st' ->
    exists l0 l1,
      keeps (init_l st) l0 /\
      length (l_frames l0) = (length (s_frames st) + count_ins pre)%nat /\
      apply_one st l0 r = Ok l1 /\ keeps l0 l1 /\
      keeps l1 (init_l st') /\ store_ok st'.
  Proof.
    intros Hok Hrs. rewrite apply_records_nonempty by (destruct pre; discriminate).
    destruct (apply_loop st (init_l st) (pre ++ r :: post)) as [l'|k|s] eqn:E; [|discriminate|discriminate].
    intros [= <-].
    destruct (apply_loop_app _ _ _ _ _ E) as (l0 & Epre & Erest). cbn [Content.apply_loop] in Erest.
    destruct (apply_one st l0 r) as [l1|k|s] eqn:E1; [|discriminate|discriminate].
    apply Forall_app in Hrs. destruct Hrs as [Hpre Hrest]. inversion Hrest as [|? ? Hr Hpost]; subst.
    destruct (apply_loop_steps _ _ _ _ (init_linv _ Hok) Hpre Epre) as (I0 & K0 & L0).
    destruct (apply_one_step _ _ _ _ I0 Hr E1) as (I1 & K01 & _).
    destruct (apply_loop_steps _ _ _ _ I1 Hpost Erest) as (I' & K' & _).
    (* the commit: data_end = max(data_end, cursor), orphan chunks get a parent *)
    set (st' := mkStore _ _ _ _ _ _).
    destruct (loop_advance st l' (init_l st') [] (s_frames st') [] I') as (I'' & K'' & _);
      cbn [init_l st' l_file l_cursor l_dend l_frames s_file s_data_end s_frames].
    { reflexivity. }
    { lia. }
    { reflexivity. }
    { symmetry. apply app_nil_r. }
    { unfold resolve_orphans. rewrite map_map. apply map_ext. apply resolve_orphan_core. }
    { constructor. }
    exists l0, l1. split; [exact K0|]. split; [exact L0|]. split; [exact E1|].
    split; [exact K01|]. split; [exact (keeps_trans _ _ _ K' K'')|].
    (* the log region of st' is that of st *)
    constructor; [exact (li_wal _ _ I'')|exact (li_frames _ _ I'')].
  Qed.

  Lemma committed_frame l1 st' k f :
    keeps l1 (init_l st') -> store_ok st' -> nth_error (l_frames l1) k = Some f ->
    exists g, nth_error (s_frames st') k = Some g /\ core g = core f /\
              win_ok (wal_end st') (s_data_end st') (blen (s_file st')) g.
  Proof.
    intros K [_ Hfr] Hk. destruct (keeps_nth _ _ _ _ K Hk) as (g & Hg & Hc).
    exists g. split; [exact Hg|]. split; [exact Hc|].
    exact (Forall_nth_error _ _ _ _ Hfr Hg).
  Qed.

  Lemma fresh_insert_stores st pre post seq e p st' :
    store_ok st -> Forall rec_ok (pre ++ RInsert seq e :: post) -> e_reuse e = None ->
    decode_canonical (e_enc e) (e_payload e) = Ok p -> e_clen e = Some (blen p) ->
    apply_records st (pre ++ RInsert seq e :: post) = Ok st' ->
    exists f off,
      nth_error (s_frames st') (length (s_frames st) + count_ins pre) = Some f /\
      core f = (N.of_nat (length (s_frames st) + count_ins pre), off, blen (e_payload e), H (e_payload e),
                e_enc e, Some (blen p), e_role e, e_manifest e, e_cidx e) /\
      stores zdec st' f p /\
      window (s_file st') off (blen (e_payload e)) = e_payload e.
  Proof.
    intros Hok Hrs Hre Hdec Hclen Hap.
    destruct (apply_records_at _ _ _ _ _ Hok Hrs Hap) as (l0 & l1 & _ & L0 & E1 & _ & K & Hok').
    cbn [Content.apply_one] in E1.
    destruct (apply_insert_fresh _ _ _ _ _ Hre E1) as (cl & fr1 & Hcl & Hsup & ->).
    pose proof (Hcl _ Hclen) as ->.
    pose proof (map_eq_length _ _ _ (mark_superseded_core _ _ _ _ Hsup)) as Lfr1.
    rewrite <- L0, <- Lfr1.
    destruct (committed_frame _ _ _ _ K Hok' (nth_error_length_snoc fr1 _)) as (g & Hg & Hc & Hwin).
    assert (Hwd : window (s_file st') (l_cursor l0) (blen (e_payload e)) = e_payload e).
    { refine (written_window_kept _ (init_l st') _ _ _ _ _ K); reflexivity. }
    exists g, (l_cursor l0). split; [exact Hg|]. split; [rewrite Hc, Lfr1; reflexivity|].
    split; [|exact Hwd].
    injection Hc as _ Eo El _ Ee Ec _ _ _. cbn [inserted_frame f_off f_len f_enc f_clen] in Eo, El, Ee, Ec.
    split; [exact Hwin|]. rewrite Eo, El, Ee, Ec, Hwd. split; [exact Hdec|reflexivity].
  Qed.

  Theorem whole_put_fidelity st pre post seq level p m sup st' :
    store_ok st ->
    Forall rec_ok (pre ++ RInsert seq (whole_entry level p m sup) :: post) ->
    apply_records st (pre ++ RInsert seq (whole_entry level p m sup) :: post) = Ok st' ->
    s_data_end st' <= U64_MAX ->
    exists f, nth_error (s_frames st') (length (s_frames st) + count_ins pre) = Some f /\
      f_id f = N.of_nat (length (s_frames st) + count_ins pre) /\
      frame_canonical_bytes st' f = Ok p /\
      (exists b, blob_reader st' f = Ok b /\ blob_read_to_end st' b = p /\ blob_len b = blen p) /\
      f_sum f = H (window (s_file st') (f_off f) (f_len f)) /\
      validate_frame_bounds st' f = Ok tt /\
      f_clen f = Some (blen p) /\
      fst (fst (prepare level p)) = window (s_file st') (f_off f) (f_len f).
  Proof.
    intros Hok Hrs Hap Hu64.
    pose proof (prepare_roundtrip level p) as Hrt. unfold Content.whole_entry in *.
    destruct (prepare level p) as [[stored enc0] cl0]. destruct Hrt as [Hdec ->].
    destruct (fresh_insert_stores _ _ _ _ _ p _ Hok Hrs eq_refl Hdec eq_refl Hap)
      as (f & off & Hf & Hcore & Hst & Hstored).
    cbn [e_payload e_enc e_role e_manifest e_cidx e_clen] in *.
    injection Hcore as Eid Eoff Elen Esum Eenc Eclen _ Eman _. subst off. rewrite <- Elen in Hstored.
    assert (Hnc : is_chunked_doc f = false) by (apply no_manifest_not_chunked; exact Eman).
    exists f. split; [exact Hf|]. split; [exact Eid|].
    split; [exact (stores_canonical zdec st' f p Hu64 Hst Hnc)|]. rewrite Hstored.
    split; [exact (stores_blob zdec st' f p Hu64 Hst Hnc)|].
    split; [exact Esum|]. split; [exact (validate_ok st' f Hu64 (proj1 Hst))|]. split; [exact Eclen|reflexivity].
  Qed.

  Lemma reuse_insert_committed st pre post seq e src s st' :
    store_ok st -> Forall rec_ok (pre ++ RInsert seq e :: post) -> e_reuse e = Some src ->
    nth_error (s_frames st) (N.to_nat src) = Some s ->
    apply_records st (pre ++ RInsert seq e :: post) = Ok st' ->
    exists f s',
      nth_error (s_frames st') (length (s_frames st) + count_ins pre) = Some f /\
      nth_error (s_frames st') (N.to_nat src) = Some s' /\ core s' = core s /\
      core f = (N.of_nat (length (s_frames st) + count_ins pre), f_off s, f_len s, f_sum s, e_enc e,
                Some (match or_else (e_clen e) (f_clen s) with Some n => n | None => f_len s end),
                e_role e, e_manifest e, e_cidx e).
  Proof.
    intros Hok Hrs Hre Hs Hap.
    destruct (apply_records_at _ _ _ _ _ Hok Hrs Hap) as (l0 & l1 & K0 & L0 & E1 & K01 & K & Hok').
    cbn [Content.apply_one] in E1.
    destruct (apply_insert_reuse _ _ _ _ _ _ Hre E1) as (s0 & fr1 & Hs0 & Hsup & ->).
    pose proof (map_eq_length _ _ _ (mark_superseded_core _ _ _ _ Hsup)) as Lfr1.
    rewrite <- L0, <- Lfr1.
    (* the source at the time of the insert has the core fields of s *)
    destruct (keeps_nth _ _ _ _ K0 Hs) as (s0' & Hs0' & [= _ So Sl Ss _ Sc _ _ _]).
    rewrite Hs0 in Hs0'. injection Hs0' as <-.
    destruct (keeps_nth _ _ _ _ (keeps_trans _ _ _ K0 (keeps_trans _ _ _ K01 K)) Hs) as (s' & Hs' & Hcs).
    destruct (committed_frame _ _ _ _ K Hok' (nth_error_length_snoc fr1 _)) as (g & Hg & Hc & _).
    exists g, s'. split; [exact Hg|]. split; [exact Hs'|]. split; [exact Hcs|].
    rewrite Hc, Lfr1. unfold core, inserted_frame. cbn. rewrite So, Sl, Ss, Sc. reflexivity.
  Qed.

  Theorem reuse_update_shares st pre post seq src m st' :
    store_ok st ->
    forall s cl, nth_error (s_frames st) (N.to_nat src) = Some s -> is_chunked_doc s = false ->
    f_clen s = Some cl ->
    Forall rec_ok (pre ++ RInsert seq (reuse_entry s m) :: post) -> f_id s = src ->
    apply_records st (pre ++ RInsert seq (reuse_entry s m) :: post) = Ok st' ->
    exists f s', nth_error (s_frames st') (length (s_frames st) + count_ins pre) = Some f /\
      nth_error (s_frames st') (N.to_nat src) = Some s' /\
      f_off f = f_off s' /\ f_len f = f_len s' /\ f_sum f = f_sum s' /\
      f_off s' = f_off s /\ f_len s' = f_len s /\ f_sum s' = f_sum s /\
      frame_canonical_bytes st' f = frame_canonical_bytes st' s' /\
      blob_reader st' f = blob_reader st' s'.
  Proof.
    intros Hok s cl Hs Hsc Hscl Hrs <- Hap.
    destruct (reuse_insert_committed _ _ _ _ _ _ _ _ Hok Hrs eq_refl Hs Hap) as (f & s' & Hf & Hs' & Hcs & Hcf).
    cbn [reuse_entry e_enc e_clen e_role e_manifest e_cidx] in Hcf. rewrite Hscl in Hcf. cbn [or_else] in Hcf.
    injection Hcs as _ So Sl Ss Se Sc Sr Sm _. injection Hcf as _ Fo Fl Fs Fe Fc _ Fm _.
    assert (Hcan : frame_canonical_bytes st' f = frame_canonical_bytes st' s').
    { apply canonical_same_fields; try congruence.
      - apply no_manifest_not_chunked. exact Fm.
      - unfold is_chunked_doc in *. rewrite Sr, Sm. exact Hsc. }
    exists f, s'. split; [exact Hf|]. split; [exact Hs'|].
    split; [congruence|]. split; [congruence|]. split; [congruence|].
    split; [exact So|]. split; [exact Sl|]. split; [exact Ss|]. split; [exact Hcan|].
    unfold Content.blob_reader. rewrite Hcan, Fe, Fo, Fl, Se, So, Sl. reflexivity.
  Qed.

  (* /repo before 270cbaf: with data_end advanced only after the loop, the read of read_during_apply_ok was
     rejected for every non-empty stored payload *)
  Lemma read_during_apply_rejected_before_fix st0 l e fr :
    linv st0 l -> entry_ok e -> l_cursor l + blen (e_payload e) <= U64_MAX ->
    f_off fr = l_cursor l -> f_len fr = blen (e_payload e) -> e_payload e <> [] ->
    let file' := write_at (l_file l) (N.to_nat (l_cursor l)) (e_payload e) in
    validate_frame_bounds (view st0 file' (l_dend l) (l_frames l)) fr = Err E_PAST_DATA.
  Proof.
    intros [Hw Hd Hfr] Hok Hu Ho Hl Hp file'. unfold validate_frame_bounds, view, wal_end, entry_ok in *. cbn.
    assert (Hpos : 0 < blen (e_payload e)). { destruct (e_payload e); [congruence|unfold blen; simpl; lia]. }
    rewrite Ho, Hl, Hd.
    replace (blen (e_payload e) =? 0) with false by lia.
    replace (MAX_FRAME_BYTES <? blen (e_payload e)) with false by lia.
    replace (U64_MAX <? s_wal_off st0 + s_wal_size st0) with false by lia.
    replace (l_cursor l <? s_wal_off st0 + s_wal_size st0) with false by lia.
    replace (U64_MAX <? l_cursor l + blen (e_payload e)) with false by lia.
    replace (l_cursor l <? l_cursor l + blen (e_payload e)) with true by lia. reflexivity.
  Qed.

End Proofs.
