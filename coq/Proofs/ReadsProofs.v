(* C08 over Model/Reads.v on top of Model/Store.v.  IxInv: every member of the three index sets is an
   Active committed frame; every step keeps it because a step is built from queueing (Queues), sync
   and an exchange of the store that keeps table and log (rstep_closed).  On the frame table the
   machine is the one of Model/Store.v (rrun_srun), so C01's reference table applies.  In any state a
   read draws its ids from the engine's documents, the vector index or the Active frames of the
   table (drawn), and under IxInv these are Active (reads_only_active).  The engine, the vector
   ranking and the fusion are oracles: all that is assumed of them is that a hit comes from the set
   it was asked over (Section NoRead).  Also here, on the reference table: an acknowledged update
   or delete leaves its target non-Active for good (NonActive, ref_marks_forever), supersession links
   point forward (Linked); and the attributes a handle has queued only grow (all_attrs), an update
   completing the fields it was not given from the old version (update_inherits). *)
From MV Require Import Base.Prelude Base.Facts Model.Store Model.StoreSpec Proofs.StoreProofs Model.Reads.
From MV Require Model.VecStore Proofs.VecProofs Model.Persist.
(* these classifiers of a call are defined in Model/Persist.v and speak of `rop` only *)
Import Persist(is_mut, no_auto, auto_of, strip).
Local Open Scope N_scope.

Lemma uri_eqb_eq a b : uri_eqb a b = true <-> a = b.
Proof.
  destruct a, b; cbn [uri_eqb]; try (split; congruence).
  - rewrite N.eqb_eq. split; congruence.
  - rewrite N.eqb_eq. split; congruence.
  - rewrite andb_true_iff, !N.eqb_eq. split; [intros [-> ->]; reflexivity|intros E; inversion E; auto].
Qed.

Lemma uri_eqb_refl u : uri_eqb u u = true.
Proof. apply uri_eqb_eq. reflexivity. Qed.

Lemma find_rev_last {A} (p : A -> bool) l x :
  find p (rev l) = Some x -> exists l1 l2, l = l1 ++ x :: l2 /\ p x = true /\ forall y, In y l2 -> p y = false.
Proof.
  intros H. destruct (find_first p (rev l) x H) as (a & b & E & Hx & Hn).
  exists (rev b), (rev a). repeat split; auto.
  - rewrite <- (rev_involutive l), E, rev_app_distr. cbn [rev]. rewrite <- app_assoc. reflexivity.
  - intros y Hy. apply Hn. apply in_rev. exact Hy.
Qed.

Lemma find_rev_none {A} (p : A -> bool) l : find p (rev l) = None -> forall y, In y l -> p y = false.
Proof. intros H y Hy. apply (find_none p _ H). apply -> in_rev. exact Hy. Qed.

Theorem frame_by_uri_spec frames u :
  match frame_by_uri frames u with
  | Some g =>
      exists l1 l2, frames = l1 ++ g :: l2 /\ f_uri g = u /\
        ((f_status g = 0 /\ forall y, In y l2 -> f_uri y = u -> f_status y <> 0) \/
         (f_status g <> 0 /\ (forall y, In y frames -> f_uri y = u -> f_status y <> 0) /\ forall y, In y l2 -> f_uri y <> u))
  | None => forall y, In y frames -> f_uri y <> u
  end.
Proof.
  assert (Hna : forall y, uri_eqb (f_uri y) u && (f_status y =? 0) = false -> f_uri y = u -> f_status y <> 0).
  { intros y Hn <-. rewrite uri_eqb_refl in Hn. apply N.eqb_neq, Hn. }
  assert (Hnu : forall y, uri_eqb (f_uri y) u = false -> f_uri y <> u).
  { intros y Hn <-. rewrite uri_eqb_refl in Hn. discriminate. }
  unfold frame_by_uri.
  destruct (find (fun f => uri_eqb (f_uri f) u && (f_status f =? 0)) (rev frames)) as [g|] eqn:E1.
  - apply find_rev_last in E1 as (l1 & l2 & -> & Hg & Hn).
    apply andb_true_iff in Hg as [Hu Hs]. apply uri_eqb_eq in Hu. apply N.eqb_eq in Hs.
    exists l1, l2. split; [reflexivity|]. split; [exact Hu|]. left. split; [exact Hs|]. intros y Hy. apply Hna, Hn, Hy.
  - pose proof (find_rev_none _ _ E1) as Hn1. cbn beta in Hn1.
    destruct (find (fun f => uri_eqb (f_uri f) u) (rev frames)) as [g|] eqn:E2.
    + apply find_rev_last in E2 as (l1 & l2 & E & Hg & Hn). apply uri_eqb_eq in Hg.
      exists l1, l2. split; [exact E|]. split; [exact Hg|]. right. split; [|split].
      * apply Hna; [apply Hn1; rewrite E; apply in_elt|exact Hg].
      * intros y Hy. apply Hna, Hn1, Hy.
      * intros y Hy. apply Hnu, Hn, Hy.
    + intros y Hy. apply Hnu. apply (find_rev_none _ _ E2 y Hy).
Qed.

Lemma frame_by_uri_last frames g : f_status g = 0 -> frame_by_uri (frames ++ [g]) (f_uri g) = Some g.
Proof.
  intros Hs. unfold frame_by_uri. rewrite rev_app_distr. cbn [rev app find].
  rewrite uri_eqb_refl, Hs. reflexivity.
Qed.

Lemma get_some_lt frames i f : get frames i = Some f -> i < len frames.
Proof. unfold get, len. intros H. assert (nth_error frames (N.to_nat i) <> None) as Hn by congruence. apply nth_error_Some in Hn. lia. Qed.

Lemma is_active_get frames i : is_active frames i = true <-> exists f, get frames i = Some f /\ f_status f = 0.
Proof.
  unfold is_active. destruct (get frames i) as [f|].
  - rewrite N.eqb_eq. split; [intros H; exists f; auto|intros (g & E & H); inversion E; subst; exact H].
  - split; [discriminate|intros (g & E & _); discriminate].
Qed.

Lemma is_active_lt frames i : is_active frames i = true -> i < len frames.
Proof. exact (VecProofs.act_lt frames i). Qed.

Theorem timeline_active frames tx keep reverse limit id kids :
  In (id, kids) (timeline frames tx keep reverse limit) ->
  (exists e f, get frames e = Some f /\ f_status f = 0 /\ f_id f = id) /\
  (forall k, In k kids -> exists c, In c frames /\ f_id c = k /\ f_status c = 0 /\ f_parent c = Some id).
Proof.
  unfold timeline. intros H. apply in_flat_map in H as (e & _ & He).
  destruct (get frames e) as [f|] eqn:Eg; [|destruct He].
  destruct (f_status f =? 0) eqn:Es; [|destruct He]. apply N.eqb_eq in Es.
  destruct He as [He|[]]. inversion He; subst. split.
  - exists e, f. auto.
  - intros k Hk. apply in_map_iff in Hk as (c & <- & Hc). apply filter_In in Hc as [Hc1 Hc2].
    apply andb_true_iff in Hc2 as [Hs Hp]. apply N.eqb_eq in Hs.
    exists c. repeat split; auto. unfold opt_eqb in Hp. destruct (f_parent c) as [p|]; [|discriminate].
    apply N.eqb_eq in Hp. congruence.
Qed.

Lemma timeline_names_active frames tx keep reverse limit id kids i :
  In (id, kids) (timeline frames tx keep reverse limit) -> i = id \/ In i kids ->
  exists c, In c frames /\ f_id c = i /\ f_status c = 0.
Proof.
  intros H Hi. apply timeline_active in H as [(e & f & Eg & Es & Ei) Hk]. destruct Hi as [->|Hi].
  - exists f. split; [exact (nth_error_In _ _ Eg)|auto].
  - destruct (Hk _ Hi) as (c & Hc & Hid & Hs & _). exists c. auto.
Qed.

Definition TargetsOK (b : store) : Prop :=
  Forall (fun t => t < len (committed b)) (removed_targets (pending b)).

(* VecStore.frame_is_active is is_active and VecProofs.targets_of is removed_of, both by conversion *)
Lemma view_new_active b i :
  TargetsOK b -> len (committed b) <= i -> i < len (view b) -> is_active (view b) i = true.
Proof.
  intros HT H1 H2. rewrite len_view in H2. change is_active with VecStore.frame_is_active.
  apply VecProofs.apply_records_act_new; [|lia].
  unfold TargetsOK in HT. rewrite Forall_forall in *. intros se Hse t Ht. apply HT.
  apply in_flat_map. exists se. split; assumption.
Qed.

Lemma delta_empty_lex_only p : delta_nonempty p = false -> lex_only p.
Proof.
  intros H se Hse. pose proof (existsb_false _ _ H se Hse) as He. cbn beta in He.
  destruct (snd se); [discriminate..|reflexivity].
Qed.

Lemma view_no_frame_records b : delta_nonempty (pending b) = false -> view b = committed b.
Proof. intros H. apply view_lex_only, delta_empty_lex_only, H. Qed.

Lemma ids_from_length s n : length (ids_from s n) = n.
Proof. revert s. induction n as [|n IH]; intros s; cbn [ids_from length]; [reflexivity|]. rewrite IH. reflexivity. Qed.

Lemma in_ids_from i s n : In i (ids_from s n) <-> s <= i /\ i < s + N.of_nat n.
Proof.
  revert s; induction n as [|n IH]; intros s; cbn [ids_from In].
  - split; [intros []|lia].
  - rewrite IH. lia.
Qed.

(* tdirty: an instant-indexed put is waiting for its commit; then a frame record is pending and the next
   commit rebuilds the engine from the Active frames *)
Definition IxInv (r : rstore) : Prop :=
  TargetsOK (base r) /\
  (forall i, In i (tix r) -> is_active (committed (base r)) i = true /\ has_role (committed (base r)) 0 i = true) /\
  (forall ie, In ie (vec r) -> is_active (committed (base r)) (fst ie) = true) /\
  (tdirty r = false -> forall i, In i (lex r) -> is_active (committed (base r)) i = true) /\
  (tdirty r = true -> delta_nonempty (pending (base r)) = true).

Lemma IxInv0 : IxInv rstore0.
Proof.
  unfold IxInv, TargetsOK. cbn [rstore0 base tix vec lex tdirty store0 committed pending removed_targets flat_map].
  split; [constructor|]. split; [intros i []|]. split; [intros ie []|]. split; [intros _ i []|discriminate].
Qed.

Lemma lex_full_active frames al i : In i (lex_full frames al) -> is_active frames i = true.
Proof. unfold lex_full. intros H. apply filter_In in H as [_ H]. apply andb_true_iff in H. tauto. Qed.
Lemma tix_full_active frames i : In i (tix_full frames) -> is_active frames i = true /\ has_role frames 0 i = true.
Proof. unfold tix_full. intros H. apply filter_In in H as [_ H]. apply andb_true_iff in H. tauto. Qed.

Lemma IxInv_frame r r' :
  committed (base r') = committed (base r) -> pending (base r') = pending (base r) ->
  tix r' = tix r -> vec r' = vec r -> lex r' = lex r -> tdirty r' = tdirty r -> IxInv r -> IxInv r'.
Proof. unfold IxInv, TargetsOK. intros -> -> -> -> -> ->. auto. Qed.

Lemma sync_delta r extra :
  delta_nonempty (pending (base r)) = true ->
  sync r extra =
    mkR (do_commit (base r) extra) (attrs r ++ pattrs r) []
        (lex_full (view (base r)) (attrs r ++ pattrs r)) false
        (if vec_on r
         then filter (fun ie => is_active (view (base r)) (fst ie))
                     (filter (fun ie => negb (mem (fst ie) (removed_targets (pending (base r))))) (vec r)) ++
              flat_map (fun i => match a_emb (attr_of (attrs r ++ pattrs r) i) with Some e => [(i, e)] | None => [] end)
                       (ids_from (len (committed (base r))) (length (view (base r)) - length (committed (base r))))
         else [])
        (vec_on r) (vec_on r) (tix_full (view (base r))).
Proof. intros H. unfold sync. rewrite H. reflexivity. Qed.

Lemma sync_nodelta r extra :
  delta_nonempty (pending (base r)) = false ->
  sync r extra = mkR (do_commit (base r) extra) (attrs r ++ pattrs r) [] (lex r) false (vec r) (vec_on r) (vec_on r) (tix r).
Proof. intros H. unfold sync. rewrite H. reflexivity. Qed.

Lemma sync_inv r extra : IxInv r -> IxInv (sync r extra).
Proof.
  intros (HT & Htix & Hvec & Hlex & Hdirty).
  destruct (delta_nonempty (pending (base r))) eqn:Ed.
  - (* rebuild_indexes: every set is recomputed from the new table, whose new frames are Active *)
    rewrite (sync_delta r extra Ed). unfold IxInv, TargetsOK. cbn [base tix vec lex tdirty do_commit committed pending].
    split; [constructor|]. split; [apply tix_full_active|]. split; [|split; [intros _ i; apply lex_full_active|discriminate]].
    intros ie Hie. destruct (vec_on r); [|destruct Hie].
    apply in_app_or in Hie as [Hie|Hie]; [apply filter_In in Hie; tauto|].
    apply in_flat_map in Hie as (j & Hj & Hie).
    destruct (a_emb (attr_of (attrs r ++ pattrs r) j)); [|destruct Hie]. destruct Hie as [<-|[]]. cbn [fst].
    apply in_ids_from in Hj as [Hj1 Hj2]. apply view_new_active; [exact HT|exact Hj1|].
    unfold len in *. lia.
  - rewrite (sync_nodelta r extra Ed). unfold IxInv, TargetsOK. cbn [base tix vec lex tdirty do_commit committed pending].
    rewrite (view_no_frame_records _ Ed).
    split; [constructor|]. split; [exact Htix|]. split; [exact Hvec|]. split; [|discriminate].
    intros _. apply Hlex. destruct (tdirty r); [|reflexivity]. discriminate (Hdirty eq_refl).
Qed.

Lemma delta_nonempty_app p q : delta_nonempty (p ++ q) = delta_nonempty p || delta_nonempty q.
Proof. unfold delta_nonempty. apply existsb_app. Qed.
Lemma removed_targets_app p q : removed_targets (p ++ q) = removed_targets p ++ removed_targets q.
Proof. unfold removed_targets. apply flat_map_app. Qed.

(* an acknowledged put / update / delete without automatic commit, as far as the index sets can tell; the
   last part is an implication because TargetsOK speaks of the whole log *)
Definition Queued (b b1 : store) : Prop :=
  committed b1 = committed b /\ dirty b1 = true /\ delta_nonempty (pending b1) = true /\
  (TargetsOK b -> TargetsOK b1).

Lemma append_queued b s e s1 sq :
  append s e = (s1, sq) -> committed s = committed b -> (TargetsOK b -> TargetsOK s) ->
  frame_record e = true -> Forall (fun t => t < len (committed b)) (removed_of e) ->
  Queued b s1.
Proof.
  unfold append. intros [= <- _] C T F R. unfold Queued, TargetsOK. cbn [committed pending dirty].
  rewrite delta_nonempty_app, removed_targets_app, C. cbn [delta_nonempty removed_targets existsb flat_map snd].
  rewrite F, app_nil_r.
  split; [reflexivity|]. split; [reflexivity|]. split; [apply orb_true_r|].
  intros H. apply Forall_app. split; [|exact R]. rewrite <- C. exact (T H).
Qed.

Lemma append_chunks_queued n : forall b s ps uk tag i, Queued b s -> Queued b (append_chunks s ps uk tag i n).
Proof.
  induction n as [|n IH]; intros b s ps uk tag i H; cbn [append_chunks]; [exact H|].
  destruct (append s _) as [s1 sq] eqn:Ea. apply IH. destruct H as (C & _ & _ & T).
  eapply append_queued; [exact Ea|exact C|exact T|reflexivity|constructor].
Qed.

Lemma put_queued b uk tag n role : Queued b (fst (sstep b (OPut uk tag n role None))).
Proof.
  cbn [sstep]. destruct (append b _) as [s1 sq] eqn:Ea. cbn [auto_commit fst].
  apply append_chunks_queued. eapply append_queued; [exact Ea|reflexivity|auto|reflexivity|constructor].
Qed.

Lemma target_queued b t e b1 o1 sq :
  (forall old, frame_record (e old) = true /\ removed_of (e old) = [t]) ->
  on_target b t e None = (b1, o1) -> fst (fst o1) = Ok sq -> Queued b b1.
Proof.
  intros He. apply on_target_cases; [intros k [= <- <-]; discriminate|].
  intros old Eg _. cbn [auto_commit]. intros [= <- _] _. destruct (He old) as [F R]. apply get_some_lt in Eg.
  eapply (append_queued b b (e old)); [reflexivity|reflexivity|auto|exact F|]. rewrite R. repeat constructor. exact Eg.
Qed.

(* the same on the handle; an instant-indexed call adds its temporary document to the engine and sets tdirty *)
Definition Queues (r r1 : rstore) : Prop :=
  exists b1 pa lx td von,
    r1 = mkR b1 (attrs r) (pattrs r ++ pa) lx td (vec r) von (vec_disk r) (tix r) /\ Queued (base r) b1 /\
    (von = false -> vec_on r = false) /\ (td = false -> lx = lex r /\ tdirty r = false).

Lemma IxInv_queued r r1 : IxInv r -> Queues r r1 -> IxInv r1.
Proof.
  intros (HT & Htix & Hvec & Hlex & _) (b1 & pa & lx & td & von & -> & (C & _ & D & T) & _ & Htd).
  unfold IxInv. cbn [base tix vec lex tdirty]. rewrite C.
  split; [exact (T HT)|]. split; [exact Htix|]. split; [exact Hvec|]. split; [|intros _; exact D].
  intros E. destruct (Htd E) as [-> E']. exact (Hlex E').
Qed.

Lemma instant_add_clean {r instant sq lx td} :
  instant_add r instant sq = (lx, td) -> td = false -> lx = lex r /\ tdirty r = false.
Proof. unfold instant_add. destruct instant; intros [= <- <-]; [discriminate|auto]. Qed.

Lemma rstep_mut r op :
  is_mut op = true ->
  let '(r1, o1) := rstep r (no_auto op) in
  rstep r op =
    (if Persist.acked o1 then
       match auto_of op with
       | Some e => (sync r1 e, observe (base (sync r1 e)) (fst (fst o1)))
       | None => (r1, o1)
       end
     else (r, o1)) /\
  (Persist.acked o1 = true -> Queues r r1 /\ (strip op = op -> lex r1 = lex r /\ tdirty r1 = tdirty r)).
Proof.
  destruct op as [uk tag n auto created text emb instant|t newtag auto opts text emb instant|t auto|e0|e0|e0|uris];
    try discriminate; intros _; cbn [no_auto auto_of strip rstep].
  - (* a put is always acknowledged *)
    pose proof (put_queued (base r) uk tag n 0) as HQ. rewrite sstep_put in *. cbn [fst auto_commit] in HQ.
    destruct (instant_add r instant (seqno (base r) + 1)) as [lx td] eqn:Ei. cbn [with_auto Persist.acked observe fst].
    split; [destruct auto; reflexivity|]. intros _. split; [|intros [= <-]; injection Ei as <- <-; auto].
    eexists _, _, lx, td, _. split; [reflexivity|]. split; [exact HQ|].
    split; [destruct emb; [discriminate|auto]|exact (instant_add_clean Ei)].
  - rewrite sstep_update. destruct (on_target (base r) t _ None) as [b1 o] eqn:Es.
    unfold Persist.acked at 1 2. destruct (fst (fst o)) as [sq| |] eqn:Eo; [|rewrite Eo; split; [reflexivity|discriminate]..].
    destruct (instant_add r instant (seqno (base r) + 1)) as [lx td] eqn:Ei. cbn [with_auto Persist.acked observe fst].
    split; [destruct auto; reflexivity|]. intros _. split; [|intros [= <-]; injection Ei as <- <-; auto].
    eexists _, _, lx, td, _. split; [reflexivity|].
    split; [eapply target_queued; [|exact Es|exact Eo]; intros old; destruct newtag; split; reflexivity|].
    split; [|exact (instant_add_clean Ei)].
    destruct emb; [discriminate|]. destruct (vec_on r); [destruct (assocN _ _); discriminate|reflexivity].
  - rewrite sstep_delete. destruct (on_target (base r) t _ None) as [b1 o] eqn:Es.
    unfold Persist.acked at 1 2. destruct (fst (fst o)) as [sq| |] eqn:Eo; [|rewrite Eo; split; [reflexivity|discriminate]..].
    cbn [with_auto Persist.acked observe fst]. split; [destruct auto; reflexivity|]. intros _. split; [|auto].
    exists b1, [], (lex r), (tdirty r), (vec_on r). rewrite app_nil_r. split; [reflexivity|].
    split; [eapply target_queued; [|exact Es|exact Eo]; split; reflexivity|auto].
Qed.

(* the third move, with or without a new vec_on: bump, the reset after a crash, the start of a replay *)
Lemma rstep_closed (P : rstore -> Prop) r op :
  (forall r1, Queues r r1 -> P r1) ->
  (forall r0 e, P r0 -> P (sync r0 e)) ->
  (forall b' von, committed b' = committed (base r) -> pending b' = pending (base r) ->
     P (mkR b' (attrs r) (pattrs r) (lex r) (tdirty r) (vec r) von (vec_disk r) (tix r))) ->
  P r -> P (fst (rstep r op)).
Proof.
  intros Hqueue Hsync Hstore HP. destruct (is_mut op) eqn:Hm.
  { pose proof (rstep_mut r op Hm) as H. destruct (rstep r (no_auto op)) as [r1 o1]. destruct H as [-> H].
    destruct (Persist.acked o1); [|exact HP]. destruct (H eq_refl) as [HQ _].
    destruct (auto_of op); cbn [fst]; [apply Hsync|]; apply Hqueue, HQ. }
  destruct op as [uk tag n auto created text emb instant|t newtag auto opts text emb instant|t auto|extra|extra|extra|uris];
    try discriminate Hm; cbn [rstep fst].
  - (* commit *)
    destruct (pending (base r)) eqn:Ep; [destruct (dirty (base r))|].
    + apply Hsync, HP.
    + (* nothing pending and not dirty: only the log sequence moves *)
      apply Hstore; [reflexivity|exact Ep].
    + apply Hsync, HP.
  - (* reopen: drop commits or moves the sequence, open replays what is left *)
    set (r1 := if dirty (base r) then sync r extra else _).
    assert (H1 : P r1) by (subst r1; destruct (dirty (base r)); [apply Hsync, HP|apply Hstore; reflexivity]).
    destruct (pending (base r1)); [exact H1|apply Hsync, H1].
  - (* crash + replay: vec_on comes from the image and the pending records; an empty log only resets the counters *)
    destruct (pending (base r)) eqn:Ep.
    + apply Hstore; reflexivity.
    + apply Hsync, Hstore; [reflexivity|exact Ep].
  - (* read *)
    exact HP.
Qed.

Theorem rstep_inv r op : IxInv r -> IxInv (fst (rstep r op)).
Proof.
  intros HI. apply rstep_closed.
  - intros r1. apply IxInv_queued, HI.
  - intros r0 e H0. apply sync_inv, H0.
  - (* vec_on is not read by the invariant *)
    intros b' von C Pn. apply (IxInv_frame r); [exact C|exact Pn|reflexivity..|exact HI].
  - exact HI.
Qed.

Lemma rrun_invariant (P : rstore -> Prop) :
  (forall r op, P r -> P (fst (rstep r op))) ->
  forall ops r, P r -> P (fst (rrun r ops)) /\ Forall (fun ro => P (fst ro)) (snd (rrun r ops)).
Proof.
  intros Hstep. induction ops as [|op ops IH]; intros r H; cbn [rrun]; [split; [exact H|constructor]|].
  specialize (Hstep r op H). destruct (rstep r op) as [r1 o]. destruct (IH r1 Hstep) as [IH1 IH2].
  destruct (rrun r1 ops) as [r2 os]. split; [exact IH1|constructor; [exact Hstep|exact IH2]].
Qed.

Theorem rrun_inv ops r : IxInv r -> IxInv (fst (rrun r ops)).
Proof. intros H. exact (proj1 (rrun_invariant IxInv rstep_inv ops r H)). Qed.

Theorem rrun_inv_all ops r : IxInv r -> Forall (fun ro => IxInv (fst ro)) (snd (rrun r ops)).
Proof. intros H. exact (proj2 (rrun_invariant IxInv rstep_inv ops r H)). Qed.

Lemma sync_base r extra : base (sync r extra) = do_commit (base r) extra.
Proof. unfold sync. destruct (negb (delta_nonempty (pending (base r)))); reflexivity. Qed.

Lemma with_auto_base r auto : base (with_auto r auto) = auto_commit (base r) auto.
Proof. destruct auto; cbn [with_auto auto_commit]; [apply sync_base|reflexivity]. Qed.

Lemma rstep_base r op sp : sop_of op = Some sp -> sstep (base r) sp = (base (fst (rstep r op)), snd (rstep r op)).
Proof.
  destruct op as [uk tag n auto created text emb instant|t newtag auto opts text emb instant|t auto|extra|extra|extra|uris];
    intros [= <-]; cbn [rstep sstep].
  - destruct (append (base r) _) as [s1 sq]. destruct (instant_add r instant (seqno (base r) + 1)) as [lx td].
    cbn [fst snd auto_commit observe]. rewrite with_auto_base. reflexivity.
  - destruct (get (committed (base r)) t) as [old|]; [|reflexivity].
    destruct (negb (f_status old =? 0)); [reflexivity|].
    destruct (append (base r) _) as [s1 sq]. destruct (instant_add r instant (seqno (base r) + 1)) as [lx td].
    cbn [fst snd auto_commit observe]. rewrite with_auto_base. reflexivity.
  - destruct (get (committed (base r)) t) as [old|]; [|reflexivity].
    destruct (negb (f_status old =? 0)); [reflexivity|].
    destruct (append (base r) _) as [s1 sq]. cbn [fst snd auto_commit observe]. rewrite with_auto_base. reflexivity.
  - destruct (pending (base r)); [destruct (dirty (base r))|]; cbn [fst snd]; rewrite ?sync_base; reflexivity.
  - cbn [fst snd].
    assert (E : base (if dirty (base r) then sync r extra else set_base r (bump (base r) extra)) =
                if dirty (base r) then do_commit (base r) extra else bump (base r) extra)
      by (destruct (dirty (base r)); [apply sync_base|reflexivity]).
    rewrite <- E. destruct (pending (base _)); rewrite ?sync_base; reflexivity.
  - destruct (pending (base r)); cbn [fst snd]; rewrite ?sync_base; reflexivity.
Qed.

Definition sops (ops : list rop) : list sop := flat_map (fun op => match sop_of op with Some s => [s] | None => [] end) ops.

Fixpoint souts (r : rstore) (ops : list rop) : list sout :=
  match ops with
  | [] => []
  | op :: rest => let '(r1, o) := rstep r op in
                  match sop_of op with Some _ => o :: souts r1 rest | None => souts r1 rest end
  end.

Lemma rrun_srun ops : forall r,
  srun (base r) (sops ops) = (base (fst (rrun r ops)), souts r ops).
Proof.
  induction ops as [|op ops IH]; intros r; cbn [sops flat_map rrun souts srun fst]; [reflexivity|].
  fold (sops ops). destruct (sop_of op) as [sp|] eqn:Es.
  - cbn [app srun]. rewrite (rstep_base r op sp Es). destruct (rstep r op) as [r1 o]. cbn [fst snd].
    rewrite IH. destruct (rrun r1 ops) as [r2 os]. reflexivity.
  - destruct op; try discriminate. cbn [rstep app]. rewrite IH. destruct (rrun r ops) as [r2 os]. reflexivity.
Qed.

Lemma Dense_committed_rrun rops : Dense (committed (base (fst (rrun rstore0 rops)))).
Proof.
  pose proof (f_equal fst (rrun_srun rops rstore0)) as H. cbn [fst] in H. rewrite <- H.
  apply Dense_committed_srun, Dense_nil.
Qed.

(* C01 applies: once nothing is pending, the table is the reference table of the store calls *)
Theorem rrun_committed_ref rops :
  let r := fst (rrun rstore0 rops) in
  let xs := combine (sops rops) (souts rstore0 rops) in
  run_ok [] xs = true -> pending (base r) = [] -> committed (base r) = ref_run [] xs.
Proof.
  intros r xs Hok Hp. pose proof (reachable_facts (sops rops)) as HR.
  pose proof (rrun_srun rops rstore0) as Hs. cbn [base rstore0] in Hs. rewrite Hs in HR.
  exact (proj2 (HR Hok) Hp).
Qed.

Definition NonActive (R : list frame) (i : nat) : Prop := exists g, nth_error R i = Some g /\ f_status g <> 0.

Lemma NonActive_inactive R f : NonActive R (N.to_nat f) -> is_active R f = false.
Proof. intros (g & Eg & Hg). unfold is_active, get. rewrite Eg. apply N.eqb_neq, Hg. Qed.

Lemma NonActive_app R tail i : NonActive R i -> NonActive (R ++ tail) i.
Proof. intros (g & E & H). exists g. split; [|exact H]. rewrite nth_error_app1; [exact E|]. apply nth_error_Some. congruence. Qed.

Lemma NonActive_update R n st by_ i : st <> 0 -> NonActive R i -> NonActive (update_nth n (fun g => set_status g st by_) R) i.
Proof.
  intros Hst (g & E & H). unfold NonActive. rewrite nth_error_update_nth, E. cbn [option_map].
  destruct (Nat.eqb i n); eexists; split; try reflexivity; [exact Hst|exact H].
Qed.

Lemma ref_step_keeps_NonActive R x i : NonActive R i -> NonActive (ref_step R x) i.
Proof.
  apply (ref_step_closed (fun R => NonActive R i)). split; [intros; apply NonActive_app|intros; apply NonActive_update]; assumption.
Qed.

Lemma ref_run_keeps_NonActive xs : forall R i, NonActive R i -> NonActive (ref_run R xs) i.
Proof. intros R i. apply (fold_left_invariant _ (fun R => NonActive R i)). intros. apply ref_step_keeps_NonActive. assumption. Qed.

Definition target_of (op : sop) : option N :=
  match op with OUpdate t _ _ _ => Some t | ODelete t _ => Some t | _ => None end.

Lemma ref_step_marks R op o f :
  acked o = true -> target_of op = Some f -> f < len R ->
  NonActive (ref_step R (op, o)) (N.to_nat f) /\
  (forall nt uk a, op = OUpdate f nt uk a ->
     exists old g n, get R f = Some old /\
       nth_error (ref_step R (op, o)) (N.to_nat f) = Some g /\ f_status g = 1 /\ f_superseded_by g = Some (len R) /\
       ref_step R (op, o) = update_nth (N.to_nat f) (fun g => set_status g 1 (Some (len R))) R ++ [n] /\
       f_id n = len R /\ f_status n = 0 /\ f_supersedes n = Some f /\
       f_uri n = match uk with Some k => UExp k | None => f_uri old end /\
       frame_by_uri (ref_step R (op, o)) (f_uri n) = Some n) /\
  (forall a, op = ODelete f a ->
     exists g, nth_error (ref_step R (op, o)) (N.to_nat f) = Some g /\ f_status g = 2 /\ f_superseded_by g = None).
Proof.
  intros Ha Ht Hf. unfold ref_step. rewrite Ha. cbn [negb].
  assert (Hlt : (N.to_nat f < length R)%nat) by (unfold len in Hf; lia).
  destruct (nth_error R (N.to_nat f)) as [old|] eqn:Eo; [|apply nth_error_None in Eo; lia].
  assert (E1 : forall st by_, nth_error (update_nth (N.to_nat f) (fun g => set_status g st by_) R) (N.to_nat f)
                              = Some (set_status old st by_)).
  { intros. rewrite nth_error_update_nth, Nat.eqb_refl, Eo. reflexivity. }
  destruct op; cbn [target_of] in Ht; try discriminate; injection Ht as ->.
  - unfold ref_update, get. rewrite Eo. set (n := mkFrame _ _ _ _ _ _ _ _ _).
    assert (E2 : nth_error (update_nth (N.to_nat f) (fun g => set_status g 1 (Some (len R))) R ++ [n]) (N.to_nat f)
                 = Some (set_status old 1 (Some (len R))))
      by (rewrite nth_error_app1 by (rewrite update_nth_length; exact Hlt); apply E1).
    split; [|split; [|discriminate]].
    + eexists. split; [exact E2|]. cbn [set_status f_status]. discriminate.
    + intros nt uk0 a E. inversion E; subst. exists old, (set_status old 1 (Some (len R))), n.
      split; [reflexivity|]. split; [exact E2|]. repeat split. apply (frame_by_uri_last _ n). reflexivity.
  - unfold ref_delete. split; [|split; [discriminate|]].
    + eexists. split; [apply E1|]. cbn [set_status f_status]. discriminate.
    + intros a _. eexists. split; [apply E1|]. split; reflexivity.
Qed.

Theorem ref_marks_forever xs1 op o xs2 f :
  acked o = true -> target_of op = Some f -> f < len (ref_run [] xs1) ->
  NonActive (ref_run [] (xs1 ++ (op, o) :: xs2)) (N.to_nat f).
Proof.
  intros Ha Ht Hf. rewrite ref_run_app. cbn [ref_run fold_left]. apply ref_run_keeps_NonActive.
  apply (ref_step_marks _ op o f Ha Ht Hf).
Qed.

Definition Linked (R : list frame) : Prop :=
  forall i g, nth_error R i = Some g ->
    match f_status g with
    | 0 => f_superseded_by g = None
    | 1 => exists n gn, f_superseded_by g = Some n /\ (i < N.to_nat n)%nat /\ nth_error R (N.to_nat n) = Some gn /\ f_supersedes gn = Some (N.of_nat i)
    | _ => True
    end.

Definition linked_at (R : list frame) (i : nat) (st : N) (b : option N) : Prop :=
  match st with
  | 0 => b = None
  | 1 => exists n gn, b = Some n /\ (i < N.to_nat n)%nat /\ nth_error R (N.to_nat n) = Some gn /\ f_supersedes gn = Some (N.of_nat i)
  | _ => True
  end.

Lemma linked_at_mono R R' i st b :
  (forall n gn, nth_error R n = Some gn -> exists gn', nth_error R' n = Some gn' /\ f_supersedes gn' = f_supersedes gn) ->
  linked_at R i st b -> linked_at R' i st b.
Proof.
  intros HR. destruct st as [|[| |]]; auto. intros (n & gn & Hb & Hlt & Hn & Hsup).
  destruct (HR _ _ Hn) as (gn' & Hn' & E). exists n, gn'. rewrite E. auto.
Qed.

Lemma Linked_app_new R n : Linked R -> f_status n = 0 -> f_superseded_by n = None -> Linked (R ++ [n]).
Proof.
  intros HL Hs Hb i g E. apply nth_error_snoc in E as [E|[_ ->]]; [|rewrite Hs; exact Hb].
  apply (linked_at_mono R); [|exact (HL i g E)].
  intros m gm Hm. exists gm. split; [|reflexivity]. rewrite nth_error_app1; [exact Hm|]. apply nth_error_Some. congruence.
Qed.

Lemma ref_chunks_linked n i fr pid uk tag0 : Linked fr -> Linked (ref_chunks fr pid uk tag0 i n).
Proof. apply ref_chunks_closed. intros fr' f H (_ & Hs & Hb) _. apply Linked_app_new; assumption. Qed.

Lemma Linked_set R t st by_ :
  Linked R -> linked_at R t st by_ -> Linked (update_nth t (fun g => set_status g st by_) R).
Proof.
  intros HL Hst i g E. rewrite nth_error_update_nth in E. apply (linked_at_mono R).
  - intros n gn Hn. rewrite nth_error_update_nth, Hn. destruct (Nat.eqb n t); eexists; split; reflexivity.
  - destruct (Nat.eqb_spec i t) as [->|_]; [|exact (HL i g E)].
    destruct (nth_error R t); [injection E as <-; exact Hst|discriminate].
Qed.

Lemma ref_step_linked R x : Linked R -> Linked (ref_step R x).
Proof.
  intros HL. destruct x as [op o]. unfold ref_step. destruct (negb (acked o)); [exact HL|].
  destruct op; try exact HL.
  - unfold ref_put. apply ref_chunks_linked. apply Linked_app_new; [exact HL|reflexivity|reflexivity].
  - unfold ref_update. destruct (get R target) as [old|] eqn:Eg; [|exact HL].
    assert (Hlt : (N.to_nat target < length R)%nat) by (apply get_some_lt in Eg; unfold len in Eg; lia).
    (* append the successor first, then mark the target: its link then has a frame to point at *)
    rewrite <- update_nth_app_l by exact Hlt.
    apply Linked_set; [apply Linked_app_new; [exact HL|reflexivity|reflexivity]|].
    eexists (len R), _. split; [reflexivity|]. split; [unfold len; lia|]. split.
    + unfold len. rewrite Nat2N.id, nth_error_app2, Nat.sub_diag by lia. reflexivity.
    + cbn [f_supersedes]. rewrite N2Nat.id. reflexivity.
  - unfold ref_delete. apply Linked_set; [exact HL|exact I].
Qed.

Theorem ref_run_linked xs : forall R, Linked R -> Linked (ref_run R xs).
Proof. intros R. apply fold_left_invariant. intros. apply ref_step_linked. assumption. Qed.

Lemma Linked_nil : Linked [].
Proof. intros i g E. destruct i; discriminate. Qed.

Lemma Dense_active fr c : Dense fr -> In c fr -> f_status c = 0 -> is_active fr (f_id c) = true.
Proof.
  intros HD Hc Hs. apply In_nth_error in Hc as [k Hk]. rewrite (HD k c Hk).
  apply is_active_get. exists c. split; [|exact Hs]. unfold get. rewrite Nat2N.id. exact Hk.
Qed.

Section NoRead.
  Variable query : Type.
  Variable engine_search : list N -> query -> list N.
  Variable post_hit : frame -> query -> bool.
  Variable vec_rank : list (N * N) -> query -> nat -> list N.
  Variable cutoff : list N -> nat.
  Variable fuse : list N -> list N.
  Hypothesis engine_sound : forall docs q i, In i (engine_search docs q) -> In i docs.
  Hypothesis vec_sound : forall vx q n i, In i (vec_rank vx q n) -> In i (map fst vx).
  Hypothesis fuse_sound : forall l i, In i (fuse l) -> In i l.

  Lemma search_in frames lx q i : In i (search query engine_search post_hit frames lx q) -> In i lx.
  Proof.
    unfold search. intros H. apply in_flat_map in H as (j & Hj & H).
    destruct (get frames j) as [f|]; [|destruct H]. destruct (post_hit f q); [|destruct H].
    destruct H as [<-|[]]. eapply engine_sound; eauto.
  Qed.

  Lemma search_vec_in vx q n i : In i (search_vec query vec_rank vx q n) -> In i (map fst vx).
  Proof. apply vec_sound. Qed.

  Lemma vec_search_with_embedding_in frames vx q k i :
    In i (vec_search_with_embedding query post_hit vec_rank frames vx q k) -> In i (map fst vx).
  Proof.
    unfold vec_search_with_embedding. intros H. apply In_firstn in H. apply in_flat_map in H as (j & Hj & H).
    destruct (get frames j) as [f|]; [|destruct H]. destruct (post_hit f q); [|destruct H].
    destruct H as [<-|[]]. eapply vec_sound; eauto.
  Qed.

  Lemma search_adaptive_in frames vx q k i :
    In i (search_adaptive query post_hit vec_rank cutoff frames vx q k) -> In i (map fst vx).
  Proof. unfold search_adaptive. intros H. apply In_firstn in H. eapply vec_search_with_embedding_in; eauto. Qed.

  Definition drawn (frames : list frame) (lx : list N) (vx : list (N * N)) (i : N) : Prop :=
    In i lx \/ In i (map fst vx) \/ exists c, In c frames /\ f_id c = i /\ f_status c = 0.

  Lemma ask_in frames lx vx tx qs vq k i :
    In i (ask query engine_search post_hit vec_rank cutoff fuse frames lx vx tx qs vq k) -> drawn frames lx vx i.
  Proof.
    unfold ask. intros H. apply fuse_sound in H. apply in_app_or in H as [H|H].
    - left. apply in_flat_map in H as (q & _ & H). eapply search_in; eauto.
    - apply in_app_or in H as [H|H].
      + right; right. apply in_flat_map in H as ([id kids] & He & H).
        eapply timeline_names_active; [exact He|]. destruct H as [<-|H]; auto.
      + right; left. apply in_app_or in H as [H|H]; [eapply vec_search_with_embedding_in|eapply search_adaptive_in]; eauto.
  Qed.

  (* frame_by_uri falls back to a frame of any status when no frame under the uri is Active: only
     its lookups of a uri that some Active frame carries are counted as reads here *)
  Definition returned_by_some_read (r : rstore) (i : N) : Prop :=
    let fr := committed (base r) in
    (exists q, In i (search query engine_search post_hit fr (lex r) q)) \/
    (exists q n, In i (search_vec query vec_rank (vec r) q n)) \/
    (exists q k, In i (vec_search_with_embedding query post_hit vec_rank fr (vec r) q k)) \/
    (exists q k, In i (search_adaptive query post_hit vec_rank cutoff fr (vec r) q k)) \/
    (exists qs vq k, In i (ask query engine_search post_hit vec_rank cutoff fuse fr (lex r) (vec r) (tix r) qs vq k)) \/
    (exists keep rev lim id kids, In (id, kids) (timeline fr (tix r) keep rev lim) /\ (i = id \/ In i kids)) \/
    (exists u g, frame_by_uri fr u = Some g /\ f_id g = i /\ exists a, In a fr /\ f_uri a = u /\ f_status a = 0).

  Lemma vec_member r i : IxInv r -> In i (map fst (vec r)) -> is_active (committed (base r)) i = true.
  Proof. intros (_ & _ & Hvec & _) H. apply in_map_iff in H as (ie & <- & Hie). apply Hvec, Hie. Qed.

  Lemma reads_drawn r i : returned_by_some_read r i -> drawn (committed (base r)) (lex r) (vec r) i.
  Proof.
    intros [H|[H|[H|[H|[H|[H|H]]]]]].
    - destruct H as (q & H). left. eapply search_in; eauto.
    - destruct H as (q & n & H). right; left. eapply search_vec_in; eauto.
    - destruct H as (q & k & H). right; left. eapply vec_search_with_embedding_in; eauto.
    - destruct H as (q & k & H). right; left. eapply search_adaptive_in; eauto.
    - destruct H as (qs & vq & k & H). apply ask_in in H. exact H.
    - destruct H as (keep & rv & lim & id & kids & H & Hi). right; right. eapply timeline_names_active; [exact H|exact Hi].
    - (* frame_by_uri answers with an Active frame when some Active frame carries the uri *)
      destruct H as (u & g & Hg & Hid & a & Ha & Hu & Hs). right; right. exists g.
      pose proof (frame_by_uri_spec (committed (base r)) u) as Hspec. rewrite Hg in Hspec.
      destruct Hspec as (l1 & l2 & E & _ & [[Hsg _]|[_ [Hall _]]]); [|destruct (Hall a Ha Hu Hs)].
      rewrite E. split; [apply in_elt|auto].
  Qed.

  Theorem reads_only_active r i :
    IxInv r -> tdirty r = false -> Dense (committed (base r)) ->
    returned_by_some_read r i -> is_active (committed (base r)) i = true.
  Proof.
    intros HI Htd HD H. apply reads_drawn in H as [H|[H|(c & Hc & <- & Hs)]].
    - destruct HI as (_ & _ & _ & Hlex & _). exact (Hlex Htd i H).
    - apply vec_member; assumption.
    - apply Dense_active; assumption.
  Qed.

  Corollary inactive_never_returned r f :
    IxInv r -> tdirty r = false -> Dense (committed (base r)) ->
    is_active (committed (base r)) f = false -> ~ returned_by_some_read r f.
  Proof. intros HI Htd HD Hf H. rewrite (reads_only_active r f HI Htd HD H) in Hf. discriminate. Qed.

  Theorem no_read_path_returns_inactive rops f :
    let r := fst (rrun rstore0 rops) in
    tdirty r = false -> is_active (committed (base r)) f = false -> ~ returned_by_some_read r f.
  Proof.
    intros r Htd Hf. apply inactive_never_returned; [apply rrun_inv, IxInv0|exact Htd|apply Dense_committed_rrun|exact Hf].
  Qed.
End NoRead.

(* a DocumentChunk whose document is no longer Active *)
Definition orphan_chunk (frames : list frame) (i : N) : bool :=
  match get frames i with
  | Some f => (f_role f =? 1) && match f_parent f with Some p => negb (is_active frames p) | None => false end
  | None => false
  end.

Lemma live_unless_orphan frames i : is_active frames i = true -> orphan_chunk frames i = false -> live frames i = true.
Proof.
  unfold is_active, orphan_chunk, live. destruct (get frames i) as [f|]; [|discriminate].
  intros -> H. cbn [andb]. destruct (f_role f =? 1); [|reflexivity]. cbn [andb] in H.
  destruct (f_parent f); [|reflexivity]. apply negb_false_iff in H. exact H.
Qed.

Lemma has_role_live frames i : is_active frames i = true -> has_role frames 0 i = true -> live frames i = true.
Proof.
  unfold is_active, has_role, live. destruct (get frames i) as [f|]; [|discriminate].
  intros -> H. apply N.eqb_eq in H. rewrite H. reflexivity.
Qed.

Theorem index_members_live_outside_known r i :
  IxInv r -> tdirty r = false ->
  (In i (tix r) -> live (committed (base r)) i = true) /\
  (In i (lex r) \/ In i (map fst (vec r)) -> orphan_chunk (committed (base r)) i = false -> live (committed (base r)) i = true).
Proof.
  intros HI Htd. pose proof HI as (_ & Htix & _ & Hlex & _). split.
  - intros H. destruct (Htix i H). apply has_role_live; assumption.
  - intros [H|H] Ho; apply live_unless_orphan; auto. apply vec_member; assumption.
Qed.

Lemma or_else_spec {A} (a b : option A) : (a = None -> or_else a b = b) /\ (forall x, a = Some x -> or_else a b = Some x).
Proof. split; [intros ->; reflexivity|intros x ->; reflexivity]. Qed.
Lemma or_list_spec {A} (a b : list A) : (a = [] -> or_list a b = b) /\ (a <> [] -> or_list a b = a).
Proof. split; [intros ->; reflexivity|]. destruct a; [congruence|reflexivity]. Qed.

Lemma inherit_unset opts old :
  (o_ts opts = None -> o_ts (inherit opts old) = o_ts old) /\
  (o_track opts = None -> o_track (inherit opts old) = o_track old) /\
  (o_kind opts = None -> o_kind (inherit opts old) = o_kind old) /\
  (o_uri opts = None -> o_uri (inherit opts old) = o_uri old) /\
  (o_title opts = None -> o_title (inherit opts old) = o_title old) /\
  (o_meta opts = None -> o_meta (inherit opts old) = o_meta old) /\
  (o_stext opts = None -> o_stext (inherit opts old) = o_stext old) /\
  (o_tags opts = [] -> o_tags (inherit opts old) = o_tags old) /\
  (o_labels opts = [] -> o_labels (inherit opts old) = o_labels old) /\
  (o_extra opts = [] -> o_extra (inherit opts old) = o_extra old).
Proof. unfold inherit; cbn. repeat split; intros ->; reflexivity. Qed.

Lemma inherit_set opts old :
  (forall x, o_ts opts = Some x -> o_ts (inherit opts old) = Some x) /\
  (forall x, o_track opts = Some x -> o_track (inherit opts old) = Some x) /\
  (forall x, o_kind opts = Some x -> o_kind (inherit opts old) = Some x) /\
  (forall x, o_uri opts = Some x -> o_uri (inherit opts old) = Some x) /\
  (forall x, o_title opts = Some x -> o_title (inherit opts old) = Some x) /\
  (forall x, o_meta opts = Some x -> o_meta (inherit opts old) = Some x) /\
  (forall x, o_stext opts = Some x -> o_stext (inherit opts old) = Some x) /\
  (o_tags opts <> [] -> o_tags (inherit opts old) = o_tags opts) /\
  (o_labels opts <> [] -> o_labels (inherit opts old) = o_labels opts) /\
  (o_extra opts <> [] -> o_extra (inherit opts old) = o_extra opts).
Proof.
  unfold inherit; cbn. repeat split; try (intros x ->; reflexivity); intros H; apply or_list_spec; exact H.
Qed.

Definition all_attrs (r : rstore) : list fattr := attrs r ++ pattrs r.

Lemma sync_all_attrs r extra : all_attrs (sync r extra) = all_attrs r.
Proof. unfold sync, all_attrs. destruct (negb (delta_nonempty (pending (base r)))); cbn [attrs pattrs]; apply app_nil_r. Qed.

Lemma with_auto_all_attrs r auto : all_attrs (with_auto r auto) = all_attrs r.
Proof. destruct auto; [apply sync_all_attrs|reflexivity]. Qed.

Theorem update_inherits r t newtag auto opts text emb instant sq :
  fst (fst (snd (rstep r (RUpdate t newtag auto opts text emb instant)))) = Ok sq ->
  all_attrs (fst (rstep r (RUpdate t newtag auto opts text emb instant))) =
    all_attrs r ++ [mkAttr (inherit opts (a_fields (attr_of (attrs r) t))) text
                      match emb with Some e => Some e | None => if vec_on r then assocN (vec r) t else None end].
Proof.
  cbn [rstep]. destruct (sstep (base r) (OUpdate t newtag (o_uri opts) None)) as [b1 o1] eqn:Es.
  destruct (fst (fst o1)) as [sq'| |] eqn:Eo.
  - destruct (instant_add r instant (seqno (base r) + 1)) as [lx td]. cbn [fst snd]. intros _.
    rewrite with_auto_all_attrs. unfold all_attrs. cbn [attrs pattrs]. rewrite app_assoc. reflexivity.
  - cbn [fst snd]. rewrite Eo. discriminate.
  - cbn [fst snd]. rewrite Eo. discriminate.
Qed.

Theorem all_attrs_append_only r op : exists tail, all_attrs (fst (rstep r op)) = all_attrs r ++ tail.
Proof.
  apply (rstep_closed (fun r' => exists tail, all_attrs r' = all_attrs r ++ tail)).
  - intros r1 (b1 & pa & lx & td & von & -> & _). exists pa. apply app_assoc.
  - intros r0 e [tail H0]. exists tail. rewrite sync_all_attrs. exact H0.
  - intros b' von C Pn. exists []. symmetry. apply app_nil_r.
  - exists []. symmetry. apply app_nil_r.
Qed.

Definition has_uri (u : uri) (f : frame) : Prop := f_uri f = u.

Definition sts (l : list frame) : list N := map f_status l.

Lemma is_active_sts frames i :
  is_active frames i = match nth_error (sts frames) (N.to_nat i) with Some s => s =? 0 | None => false end.
Proof. unfold is_active, get, sts. rewrite nth_error_map. destruct (nth_error frames (N.to_nat i)); reflexivity. Qed.

Lemma is_active_sts_eq a b i : sts a = sts b -> is_active a i = is_active b i.
Proof. intros E. rewrite !is_active_sts, E. reflexivity. Qed.
