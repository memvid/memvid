(* What the C23 theorems rest on, over Model/Determinism.v.  Two runs of one explicit history under
   two oracles stay related (drel: the same logical state, and physical states related by prel, which
   shares each component under the agreement its content depends on; drun_rel), and the image of a
   region class is the same in related states when the oracles agree on the sources it is tagged
   with (region_drel).  The read side rests on two permutations (seg_docs_lex_image, rotate_perm). *)
From MV Require Import Base.Prelude Model.Store Model.StoreSpec Model.Determinism.
From Coq Require Import Permutation.
Local Open Scope N_scope.

(* the logical machine sees an oracle only through implicit timestamps *)
Lemma core_explicit : forall o1 o2 c d, explicit_op d = true -> core o1 c d = core o2 c d.
Proof.
  intros o1 o2 c d E. destruct d as [op ts text emb inst | k cr | op ts nc]; simpl in *.
  - destruct op; simpl in *; try reflexivity. destruct ts; [reflexivity | discriminate].
  - destruct cr; [reflexivity | discriminate].
  - destruct ts; [reflexivity | discriminate].
Qed.

Lemma frame_recs_masked_app : forall a b, frame_recs_masked (a ++ b) = frame_recs_masked a ++ frame_recs_masked b.
Proof. intros a b. unfold frame_recs_masked. rewrite filter_app, map_app. reflexivity. Qed.

(* a lex batch record starts with 3, so is_frame_rec drops it: each step is a conversion *)
Lemma frame_recs_masked_lex : forall (imgs : list limage), frame_recs_masked (map (fun img => 3 :: flat_img img) imgs) = [].
Proof. induction imgs as [| x r IH]; [reflexivity | exact IH]. Qed.

Section TwoRuns.
  Variables o1 o2 : oracle.

  Definition same_layout : Prop := agree SegId o1 o2 /\ agree Sched o1 o2.
  Definition same_clock : Prop := agree Now o1 o2.

  (* the last conjunct (under no agreement at all, the frame records of the log with the tombstone
     timestamps masked) does not follow from the conditional equation on p_log; LogFrameRecords rests on it *)
  Definition prel (p1 p2 : pstate) : Prop :=
    p_nowc p1 = p_nowc p2 /\ p_fl p1 = p_fl p2 /\
    (same_layout -> p_lex p1 = p_lex p2 /\ p_stale p1 = p_stale p2) /\
    (same_clock -> p_scre p1 = p_scre p2 /\ p_pscre p1 = p_pscre p2) /\
    (same_layout -> same_clock -> p_log p1 = p_log p2) /\
    frame_recs_masked (p_log p1) = frame_recs_masked (p_log p2).

  Lemma prel_refl : forall p, prel p p.
  Proof. intro p. unfold prel. repeat split; reflexivity. Qed.

  Lemma lex_image_agree : same_layout -> forall i docs, lex_image o1 i docs = lex_image o2 i docs.
  Proof.
    intros [Hs Hc] i docs. unfold lex_image. unfold agree in Hs, Hc. simpl in Hs, Hc.
    rewrite (Hc i), (Hs (2 * i)%nat), (Hs (2 * i + 1)%nat). reflexivity.
  Qed.

  Lemma op_imgs_agree : same_layout -> forall p1 p2 c l', p_fl p1 = p_fl p2 -> op_imgs o1 p1 c l' = op_imgs o2 p2 c l'.
  Proof.
    intros HA p1 p2 c l' E. unfold op_imgs. rewrite E. apply map_ext. intro j. apply lex_image_agree. exact HA.
  Qed.

  Lemma op_recs_agree : same_clock -> forall p1 p2 d c out, p_nowc p1 = p_nowc p2 -> op_recs o1 p1 d c out = op_recs o2 p2 d c out.
  Proof.
    intros HN p1 p2 d c out E. unfold op_recs, op_cursor. rewrite E. unfold same_clock, agree in HN. simpl in HN.
    rewrite (HN (p_nowc p2 + ts_draws d)%nat). reflexivity.
  Qed.

  Lemma op_newcre_agree : same_clock -> forall p1 p2 d out, p_nowc p1 = p_nowc p2 -> op_newcre o1 p1 d out = op_newcre o2 p2 d out.
  Proof.
    intros HN p1 p2 d out E. unfold op_newcre, op_cursor. rewrite E. destruct d; try reflexivity.
    destruct (acked out && (0 <? ncards)); [| reflexivity]. apply map_ext. intro k. apply HN.
  Qed.

  Lemma op_recs_masked : forall p1 p2 d c out,
      frame_recs_masked (op_recs o1 p1 d c out) = frame_recs_masked (op_recs o2 p2 d c out).
  Proof.
    intros p1 p2 d c out. unfold op_recs.
    destruct (rop_of_cop c) as [r |]; [| reflexivity]. destruct (acked out); [| reflexivity].
    destruct r; reflexivity.
  Qed.

  Lemma pstep_rel : forall p1 p2 d c l l' out, prel p1 p2 ->
      prel (pstep o1 p1 d c l l' out) (pstep o2 p2 d c l l' out).
  Proof.
    intros p1 p2 d c l l' out (Hn & Hf & Hlex & Hcre & Hlog & Hfr). unfold prel, pstep. cbn [p_nowc p_fl p_log p_lex p_stale p_scre p_pscre].
    split; [unfold op_cursor; rewrite Hn; reflexivity |].
    split; [rewrite Hf; reflexivity |].
    split.
    { intro HA. destruct (Hlex HA) as [E1 E2]. rewrite (op_imgs_agree HA p1 p2 c l' Hf), E1, E2. split; reflexivity. }
    split.
    { intro HN. destruct (Hcre HN) as [E1 E2]. rewrite E1, E2, (op_newcre_agree HN p1 p2 d out Hn). split; reflexivity. }
    split.
    { intros HA HN. rewrite (Hlog HA HN), (op_imgs_agree HA p1 p2 c l' Hf), (op_recs_agree HN p1 p2 d c out Hn). reflexivity. }
    rewrite !frame_recs_masked_app, !frame_recs_masked_lex, !app_nil_r, Hfr, (op_recs_masked p1 p2 d c out). reflexivity.
  Qed.

  Definition drel (st1 st2 : dstate) : Prop := fst st1 = fst st2 /\ prel (snd st1) (snd st2).

  Lemma dstep_rel : forall d st1 st2, explicit_op d = true -> drel st1 st2 ->
      drel (fst (dstep o1 st1 d)) (fst (dstep o2 st2 d)) /\ snd (dstep o1 st1 d) = snd (dstep o2 st2 d).
  Proof.
    intros d [l p1] [l2 p2] E [El R]. cbn [fst snd] in El, R. subst l2. unfold dstep.
    rewrite (proj1 R), (core_explicit o1 o2 (p_nowc p2) d E).
    destruct (lstep l (core o2 (p_nowc p2) d)) as [l' out].
    split; [split; [reflexivity | apply pstep_rel, R] | reflexivity].
  Qed.

  Lemma drun_rel : forall h st1 st2, explicit h = true -> drel st1 st2 ->
      drel (fst (drun o1 st1 h)) (fst (drun o2 st2 h)) /\ snd (drun o1 st1 h) = snd (drun o2 st2 h).
  Proof.
    induction h as [| d h IH]; intros st1 st2 E R; [split; [exact R | reflexivity] |].
    apply andb_true_iff in E as [Ed Eh]. cbn [drun].
    destruct (dstep_rel d st1 st2 Ed R) as [R1 HO].
    destruct (dstep o1 st1 d) as [st1' out1], (dstep o2 st2 d) as [st2' out2]. cbn [fst snd] in R1, HO. subst out2.
    destruct (IH st1' st2' Eh R1) as [R2 HOs].
    destruct (drun o1 st1' h) as [st1'' outs1], (drun o2 st2' h) as [st2'' outs2]. cbn [fst snd] in *.
    split; [exact R2 | congruence].
  Qed.

  Lemma drun_rel0 : forall h, explicit h = true ->
      drel (fst (drun o1 dstate0 h)) (fst (drun o2 dstate0 h)) /\ snd (drun o1 dstate0 h) = snd (drun o2 dstate0 h).
  Proof. intros h E. apply drun_rel; [exact E | split; [reflexivity | apply prel_refl]]. Qed.

  Lemma layout_tagged l : agree_on (SegId :: Sched :: l) o1 o2 -> same_layout.
  Proof. intros AG. split; apply AG; [left | right; left]; reflexivity. Qed.
  Lemma clock_tagged : agree_on [Now] o1 o2 -> same_clock.
  Proof. intros AG. apply AG. left. reflexivity. Qed.
  Lemma clock_tagged_last : agree_on [SegId; Sched; Now] o1 o2 -> same_clock.
  Proof. intros AG. apply AG. right. right. left. reflexivity. Qed.

  Lemma region_drel : forall H c st1 st2, drel st1 st2 -> agree_on (deps c) o1 o2 ->
      region H c st1 = region H c st2.
  Proof.
    intros H c [l1 q1] [l2 q2] [HL HP] AG.
    cbn [fst snd] in HL, HP. subst l2. destruct HP as (Hn & Hf & Hlex & Hcre & Hlog & Hfr).
    destruct c; cbn [deps] in AG; cbn [region];
      unfold r_toc, r_payloads, r_stale, r_tix, r_lex, r_vec, r_mem, mem_len, r_sketch, r_log, frames_of, attrs_of; cbn [fst snd].
    - reflexivity.
    - (* HdrFooterOffset: the region lengths, among them those of the lex and the stale image *)
      destruct (Hlex (layout_tagged _ AG)) as [-> ->]. reflexivity.
    - (* HdrLogPos: length and record count of the log *)
      rewrite (Hlog (layout_tagged _ AG) (clock_tagged_last AG)). reflexivity.
    - (* HdrTocSum: hash of the TOC, which holds the stale and lex lengths and the lex manifest *)
      destruct (Hlex (layout_tagged _ AG)) as [-> ->]. reflexivity.
    - reflexivity.
    - (* LogRegion *) rewrite (Hlog (layout_tagged _ AG) (clock_tagged_last AG)). reflexivity.
    - reflexivity.
    - reflexivity.
    - (* LexSegments: the lex image *) destruct (Hlex (layout_tagged _ AG)) as [-> _]. reflexivity.
    - reflexivity.
    - (* MemoriesTrack: the cards, and the stamps of the extracted ones *)
      destruct (Hcre (clock_tagged AG)) as [-> _]. reflexivity.
    - reflexivity.
    - reflexivity.
    - (* Unreferenced: the stale image *) destruct (Hlex (layout_tagged _ AG)) as [_ ->]. reflexivity.
    - (* TocRegion *) destruct (Hlex (layout_tagged _ AG)) as [-> ->]. reflexivity.
    - (* FooterLenHash: length and hash of the TOC *)
      destruct (Hlex (layout_tagged _ AG)) as [-> ->]. reflexivity.
    - (* FooterMagicGen: the flush count, which no oracle moves *) rewrite Hf. reflexivity.
    - (* TocCanonical: the TOC without what LexSegments and Unreferenced put into it *) reflexivity.
    - (* LogFrameRecords: the log without lex batches, tombstone stamps masked *) rewrite Hfr. reflexivity.
  Qed.
End TwoRuns.

Lemma deps_sources : forall c s, In s (deps c) -> s = SegId \/ s = Sched \/ s = Now.
Proof. intros c s I. destruct c; cbn in I; intuition auto. Qed.

Lemma concat_groups : forall (a b : N) (g1 g2 : list N),
    concat (map snd ((match g1 with [] => [] | _ => [(a, g1)] end) ++ (match g2 with [] => [] | _ => [(b, g2)] end))) = g1 ++ g2.
Proof. intros a b g1 g2. destruct g1, g2; cbn; rewrite ?app_nil_r; reflexivity. Qed.

Lemma seg_docs_lex_image : forall o i docs, Permutation (seg_docs (lex_image o i docs)) docs.
Proof.
  intros o i docs. unfold seg_docs, lex_image. cbn [tl]. rewrite concat_groups.
  set (cut := N.to_nat (o_sched o i mod (N.of_nat (length docs) + 1))).
  rewrite <- (firstn_skipn cut docs) at 3. apply Permutation_app_comm.
Qed.

Lemma last_map_seq : forall {A} (f : nat -> A) n a d, last (map f (seq a (S n))) d = f (a + n)%nat.
Proof.
  intros A f n. induction n as [| n IH]; intros a d.
  - cbn. rewrite Nat.add_0_r. reflexivity.
  - change (seq a (S (S n))) with (a :: seq (S a) (S n)). cbn [map].
    change (last (f a :: map f (seq (S a) (S n))) d) with (last (map f (seq (S a) (S n))) d).
    rewrite IH. f_equal. lia.
Qed.

Lemma rotate_perm : forall {A} k (l : list A), Permutation (rotate k l) l.
Proof.
  intros A k l. unfold rotate. eapply Permutation_trans; [apply Permutation_app_comm |]. rewrite firstn_skipn. reflexivity.
Qed.

Lemma sketch_candidates_logical : forall query score (st1 st2 : dstate) q thr max,
    logical st1 = logical st2 ->
    sketch_candidates query score st1 q thr max = sketch_candidates query score st2 q thr max.
Proof.
  intros query score [l1 p1] [l2 p2] q thr max E. cbn in E. subst l2. reflexivity.
Qed.

Definition put1 : dop := DStore (OPut None 1000 0 0 None) (Some 1700000000) true None false.
Definition put2 : dop := DStore (OPut (Some 1) 2000 0 0 None) (Some 1700000100) true (Some 5) false.
Definition commit1 : dop := DStore (OCommit 1) None false None false.
Definition delete0 : dop := DStore (ODelete 0 None) None false None false.

Definition h_bytes : list dop := [put1; put2; commit1].
Definition h_tomb : list dop := [put1; put2; commit1; delete0; commit1].
Definition h_implicit : list dop := [DStore (OPut None 1000 0 0 None) None true None false; commit1].
Definition h_cards : list dop :=
  [DCard 1 (Some 1700000005); DSentence (OPut None 500001 0 0 None) (Some 1700000200) 2; commit1].

Definition oA : oracle := mkO (fun k => 100 + N.of_nat k) (fun _ => 0) (fun k => 1800000000 + N.of_nat k) (fun _ => 0) (fun _ => 0).
Definition oB : oracle := mkO (fun k => 200 + N.of_nat k) (fun _ => 1) (fun k => 1800000000 + N.of_nat k) (fun k => N.of_nat k) (fun k => 7 + N.of_nat k).
(* as oA but a later clock *)
Definition oC : oracle := mkO (fun k => 100 + N.of_nat k) (fun _ => 0) (fun k => 1900000000 + N.of_nat k) (fun _ => 0) (fun _ => 0).

Definition differing (H : list N -> N) (h : list dop) (o1 o2 : oracle) : list N :=
  map rclass_code (filter (fun c => negb (list_eqb N.eqb (region H c (fst (drun o1 dstate0 h))) (region H c (fst (drun o2 dstate0 h))))) all_classes).

(* three frames with the same index text (same content tag), committed: every score ties *)
Definition tied_put (ts : N) : dop := DStore (OPut None 600000 0 0 None) (Some ts) true None false.
Definition h_tied : list dop := [tied_put 1700000000; tied_put 1700000100; tied_put 1700000200; commit1].
Definition all_tie (tag : N) (q : unit) (thr : N) : option N := Some 5.
Definition oH (k : N) : oracle := mkO (fun _ => 1) (fun _ => 0) (fun _ => 5) (fun _ => k) (fun _ => 0).
