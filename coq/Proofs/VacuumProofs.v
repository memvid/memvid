(* Proofs about Model/Vacuum.v (C42).  `store_inv` is what vacuum needs of a state and establishes again.
   The rewrite reads every active payload before it writes the first, so it keeps content however the old
   windows overlap: `row_ok` is what the write phase guarantees row by row, `kept` what that means for a
   reader of the new state.  The index image then goes behind the last payload.  The new table is `relocate`
   of the old one, which gives the layout in closed form (relocate_nth) and its `live` windows pairwise
   disjoint (relocate_disjoint); disjoint windows inside an interval add up to at most its length
   (disjoint_total_le), so without sharing the payload region does not grow. *)
From MV Require Import Base.Prelude Base.Facts Model.Vacuum.
Local Open Scope N_scope.

Lemma write_at_length rg p b :
  length (write_at rg p b) = Nat.max (length rg) (p + length b).
Proof.
  unfold write_at. rewrite !app_length, firstn_length, repeat_length, skipn_length. lia.
Qed.

Lemma write_at_firstn rg p b k :
  (k <= p)%nat -> (k <= length rg)%nat -> firstn k (write_at rg p b) = firstn k rg.
Proof.
  intros Hk Hl. unfold write_at.
  rewrite firstn_app. rewrite firstn_firstn. rewrite firstn_length.
  replace (k - Nat.min p (length rg))%nat with 0%nat by lia.
  cbn [firstn]. rewrite app_nil_r. f_equal. lia.
Qed.

Lemma write_at_slice rg p b : (p <= length rg)%nat -> slice (write_at rg p b) p (length b) = b.
Proof.
  intros Hp. unfold write_at, slice.
  replace (p - length rg)%nat with 0%nat by lia. cbn [repeat app].
  rewrite skipn_app, firstn_length.
  replace (p - Nat.min p (length rg))%nat with 0%nat by lia. cbn [skipn].
  rewrite skipn_all2 by (rewrite firstn_length; lia). cbn [app].
  rewrite firstn_app, Nat.sub_diag, firstn_all. cbn [firstn]. apply app_nil_r.
Qed.

Lemma write_at_nil rg p : (p <= length rg)%nat -> write_at rg p [] = rg.
Proof.
  intros Hp. unfold write_at. replace (p - length rg)%nat with 0%nat by lia.
  cbn [repeat app length]. rewrite Nat.add_0_r. apply firstn_skipn.
Qed.

Lemma slice_prefix {A} (a b : list A) p n q :
  (p + n <= q)%nat -> firstn q a = firstn q b -> slice a p n = slice b p n.
Proof.
  intros Hq He. unfold slice.
  assert (H : forall l : list A, firstn n (skipn p l) = firstn n (skipn p (firstn q l))).
  { intros l. rewrite skipn_firstn_comm, firstn_firstn. f_equal. lia. }
  rewrite (H a), (H b), He. reflexivity.
Qed.

Lemma firstn_prefix {A} (a b : list A) k q :
  (k <= q)%nat -> firstn q a = firstn q b -> firstn k a = firstn k b.
Proof.
  intros Hk He. rewrite <- (Nat.min_l k q) by lia. rewrite <- !firstn_firstn, He. reflexivity.
Qed.

Lemma read_at_prefix a b start off len q :
  start <= off -> off + len <= q ->
  firstn (N.to_nat (q - start)) a = firstn (N.to_nat (q - start)) b ->
  read_at a start off len = read_at b start off len.
Proof.
  intros Hs Hq He. unfold read_at. eapply slice_prefix; [|exact He]. lia.
Qed.

Lemma read_at_written rg start c b :
  (N.to_nat (c - start) <= length rg)%nat ->
  read_at (write_at rg (N.to_nat (c - start)) b) start c (N.of_nat (length b)) = b.
Proof.
  intros Hp. unfold read_at. rewrite Nat2N.id. apply write_at_slice; exact Hp.
Qed.

Lemma read_at_len0 rg start off : read_at rg start off 0 = [].
Proof. unfold read_at, slice. reflexivity. Qed.

Lemma read_at_length rg start off len :
  start <= off -> off + len <= start + N.of_nat (length rg) -> length (read_at rg start off len) = N.to_nat len.
Proof. intros Hs He. unfold read_at. apply slice_length. lia. Qed.

Definition in_bounds (st : vstate) (f : vframe) : Prop :=
  vf_len f = 0 \/
  (vf_len f <= MAX_FRAME_BYTES /\ vs_start st <= vf_off f /\ vf_off f + vf_len f <= vs_data_end st).

(* nothing on how windows overlap: payload-reusing frames share their source's window *)
Record store_inv (st : vstate) : Prop := mkInv {
  inv_ids : NoDup (map vf_id (vs_frames st));
  inv_bounds : forall f, In f (vs_frames st) -> vf_active f = true -> in_bounds st f;
  inv_data_end : vs_data_end st <= file_len st }.

(* two windows: identical (payload sharing) or disjoint -- what ensure_non_overlapping_frames accepts *)
Definition win_disjoint (f g : vframe) : Prop :=
  vf_off f + vf_len f <= vf_off g \/ vf_off g + vf_len g <= vf_off f.
Definition win_same (f g : vframe) : Prop := vf_off f = vf_off g /\ vf_len f = vf_len g.

Fixpoint pairwise {A} (R : A -> A -> Prop) (l : list A) : Prop :=
  match l with [] => True | x :: r => (forall y, In y r -> R x y) /\ pairwise R r end.

Definition live (fs : list vframe) : list vframe := filter (fun f => vf_active f && negb (vf_len f =? 0)) fs.
Definition share_or_disjoint (st : vstate) : Prop :=
  pairwise (fun f g => win_same f g \/ win_disjoint f g) (live (vs_frames st)).
Definition all_disjoint (st : vstate) : Prop := pairwise win_disjoint (live (vs_frames st)).

Lemma validate_spec st f :
  validate st f = Ok tt <->
  vf_len f = 0 \/ (vf_len f <= MAX_FRAME_BYTES /\ vs_start st <= vf_off f /\
                   vf_off f + vf_len f <= vs_data_end st /\ vf_off f + vf_len f <= file_len st).
Proof.
  unfold validate.
  destruct (N.eqb_spec (vf_len f) 0); [tauto|].
  destruct (N.ltb_spec MAX_FRAME_BYTES (vf_len f)); [split; [discriminate|lia]|].
  destruct (N.ltb_spec (vf_off f) (vs_start st)); [split; [discriminate|lia]|].
  destruct (N.ltb_spec (vs_data_end st) (vf_off f + vf_len f)); [split; [discriminate|lia]|].
  destruct (N.ltb_spec (file_len st) (vf_off f + vf_len f)); [split; [discriminate|lia]|].
  split; [right; lia|reflexivity].
Qed.

Lemma validate_ok st f :
  vs_data_end st <= file_len st -> in_bounds st f -> validate st f = Ok tt.
Proof. intros Hde [H0|Hb]; apply validate_spec; [left; exact H0|right; lia]. Qed.

Lemma validate_in_bounds st f : validate st f = Ok tt -> in_bounds st f.
Proof. intros Hv. apply validate_spec in Hv as [H0|Hb]; [left; exact H0|right; lia]. Qed.

(* for rewriting: Prelude makes the N operations `simpl never`, so cbn does not unfold through `=?` (also live_cons) *)
Lemma hm_get_cons m k v k' : hm_get ((k, v) :: m) k' = if k =? k' then Some v else hm_get m k'.
Proof. reflexivity. Qed.

Lemma read_phase_ok st fs : forall acc,
  vs_data_end st <= file_len st ->
  (forall f, In f fs -> vf_active f = true -> in_bounds st f) ->
  NoDup (map vf_id fs) ->
  exists m, read_phase st fs acc = Ok m /\
            (forall f, In f fs -> vf_active f = true -> hm_get m (vf_id f) = Some (frame_bytes st f)) /\
            (forall k, ~ In k (map vf_id fs) -> hm_get m k = hm_get acc k).
Proof.
  induction fs as [|f r IH]; intros acc Hde Hb Hnd.
  - exists acc. cbn [read_phase]. split; [reflexivity|]. split; [intros ? []|auto].
  - cbn [map] in Hnd. inversion Hnd as [|? ? Hnotin Hnd']; subst.
    (* one step: an active row puts its payload in front; distinct ids keep later rows from shadowing it *)
    set (acc' := if vf_active f then (vf_id f, frame_bytes st f) :: acc else acc).
    assert (E : read_phase st (f :: r) acc = read_phase st r acc').
    { cbn [read_phase]. unfold acc'. destruct (vf_active f) eqn:Ea; [|reflexivity].
      unfold read_payload. rewrite (validate_ok st f Hde (Hb f (or_introl eq_refl) Ea)). reflexivity. }
    rewrite E. destruct (IH acc' Hde (fun g Hg => Hb g (or_intror Hg)) Hnd') as (m & Hm & Hin & Hout).
    exists m. split; [exact Hm|]. split.
    + intros g [->|Hg] Hga; [|apply Hin; assumption].
      rewrite (Hout _ Hnotin). unfold acc'. rewrite Hga, hm_get_cons, N.eqb_refl. reflexivity.
    + intros k Hk. cbn [map In] in Hk. rewrite Hout by tauto. unfold acc'.
      destruct (vf_active f); [|reflexivity]. rewrite hm_get_cons. destruct (N.eqb_spec (vf_id f) k); [tauto|reflexivity].
Qed.

Definition row_ok (start : N) (g : vframe -> bytes) (rg' : bytes) (f f' : vframe) : Prop :=
  f' = set_window f (vf_off f') (vf_len f') /\
  if vf_active f then vf_len f' = N.of_nat (length (g f)) /\ read_at rg' start (vf_off f') (vf_len f') = g f
  else vf_off f' = 0 /\ vf_len f' = 0.

(* later writes leave the region before their own cursor alone, so every new window still reads what was written *)
Lemma write_phase_spec start m g fs : forall c rg,
  start <= c -> (N.to_nat (c - start) <= length rg)%nat ->
  (forall f, In f fs -> vf_active f = true ->
             hm_get m (vf_id f) = Some (g f) /\ N.of_nat (length (g f)) = vf_len f) ->
  exists rg', write_phase start m fs c rg = (relocate fs c, c + active_bytes fs, rg') /\
    (N.to_nat (c + active_bytes fs - start) <= length rg')%nat /\ (length rg <= length rg')%nat /\
    firstn (N.to_nat (c - start)) rg' = firstn (N.to_nat (c - start)) rg /\
    Forall2 (row_ok start g rg') fs (relocate fs c).
Proof.
  induction fs as [|f r IH]; intros c rg Hs Hp Hm; cbn [write_phase relocate active_bytes].
  - exists rg. rewrite N.add_0_r. repeat split; try lia. constructor.
  - destruct (vf_active f) eqn:Ea.
    + destruct (Hm f (or_introl eq_refl) Ea) as [-> Hlen]. rewrite Hlen, N.add_assoc.
      set (p := N.to_nat (c - start)) in *.
      pose proof (write_at_length rg p (g f)) as Hlen1.
      destruct (IH (c + vf_len f) (write_at rg p (g f))) as (rg1 & -> & Hp' & Hl & Hpre & Hall);
        [lia|subst p; lia|intros x Hx; apply Hm; right; exact Hx|].
      exists rg1. split; [reflexivity|]. split; [exact Hp'|]. split; [lia|]. split.
      * transitivity (firstn p (write_at rg p (g f))).
        -- eapply firstn_prefix; [|exact Hpre]. subst p; lia.
        -- apply write_at_firstn; lia.
      * constructor.
        -- split; [reflexivity|]. rewrite Ea. cbn [set_window vf_off vf_len].
           split; [lia|]. rewrite <- Hlen.
           rewrite (read_at_prefix rg1 (write_at rg p (g f)) start c _ (c + vf_len f)); [|exact Hs|lia|exact Hpre].
           subst p. apply read_at_written; assumption.
        -- exact Hall.
    + rewrite N.add_0_l.
      destruct (IH c rg Hs Hp) as (rg1 & -> & Hp' & Hl & Hpre & Hall); [intros x Hx; apply Hm; right; exact Hx|].
      exists rg1. repeat split; try assumption.
      constructor; [|exact Hall]. split; [reflexivity|]. rewrite Ea. cbn. split; reflexivity.
Qed.

Lemma frame_bytes_length st f :
  vs_data_end st <= file_len st -> in_bounds st f -> N.of_nat (length (frame_bytes st f)) = vf_len f.
Proof.
  intros Hde [H0|(Hm & Hs & He)]; unfold frame_bytes.
  - rewrite H0, read_at_len0. reflexivity.
  - rewrite read_at_length; [lia|exact Hs|]. unfold file_len in Hde. lia.
Qed.

Definition kept (st st' : vstate) (f f' : vframe) : Prop :=
  vf_id f' = vf_id f /\ vf_status f' = vf_status f /\ vf_role f' = vf_role f /\
  vf_meta f' = vf_meta f /\ vf_text f' = vf_text f /\
  if vf_active f then
    vf_len f' = vf_len f /\ frame_bytes st' f' = frame_bytes st f /\ validate st' f' = Ok tt
  else vf_off f' = 0 /\ vf_len f' = 0.

Lemma live_In f fs : In f (live fs) <-> In f fs /\ vf_active f = true /\ vf_len f <> 0.
Proof. unfold live. rewrite filter_In, andb_true_iff, negb_true_iff, N.eqb_neq. reflexivity. Qed.

Lemma live_cons f r : live (f :: r) = if vf_active f && negb (vf_len f =? 0) then f :: live r else live r.
Proof. reflexivity. Qed.
Lemma vf_active_set f o l : vf_active (set_window f o l) = vf_active f.
Proof. reflexivity. Qed.

Lemma relocate_in_range fs : forall c f', In f' (live (relocate fs c)) ->
  c <= vf_off f' /\ vf_off f' + vf_len f' <= c + active_bytes fs.
Proof.
  induction fs as [|f r IH]; intros c f' Hin; [destruct Hin|].
  cbn [relocate active_bytes] in *. destruct (vf_active f) eqn:Ea.
  - rewrite live_cons, vf_active_set, Ea in Hin. cbn [set_window vf_len andb] in Hin.
    destruct (negb (vf_len f =? 0)); [destruct Hin as [<-|Hin]|].
    + cbn [set_window vf_off vf_len]. lia.
    + specialize (IH _ _ Hin). lia.
    + specialize (IH _ _ Hin). lia.
  - rewrite live_cons, vf_active_set, Ea in Hin. cbn [andb] in Hin. specialize (IH _ _ Hin). lia.
Qed.

Lemma store_inv_checkpoint st : store_inv st -> store_inv (checkpoint st).
Proof. intros [H1 H2 H3]. constructor; assumption. Qed.

Lemma Forall2_impl_in {A B} (R S : A -> B -> Prop) l l' :
  (forall x y, In x l -> In y l' -> R x y -> S x y) -> Forall2 R l l' -> Forall2 S l l'.
Proof.
  intros H HF. induction HF as [|x y l l' Hxy HF IH]; constructor.
  - apply H; [left; reflexivity|left; reflexivity|exact Hxy].
  - apply IH. intros a b Ha Hb. apply H; right; assumption.
Qed.

Lemma rewrite_correct st :
  store_inv st ->
  exists st1, rewrite st = Ok st1 /\
    Forall2 (kept st st1) (vs_frames st) (vs_frames st1) /\
    vs_frames st1 = relocate (vs_frames st) (vs_start st) /\
    vs_data_end st1 = vs_start st + active_bytes (vs_frames st) /\
    vs_start st1 = vs_start st /\ vs_cpe st1 = vs_data_end st1 /\ vs_footer st1 = vs_footer st /\
    vs_lex st1 = vs_lex st /\ vs_vec st1 = vs_vec st /\ vs_pending st1 = vs_pending st /\
    vs_data_end st1 <= file_len st1 /\ file_len st <= file_len st1.
Proof.
  intros [Hids Hb Hde].
  destruct (read_phase_ok st (vs_frames st) [] Hde Hb Hids) as (m & Hm & Hget & _).
  unfold rewrite. rewrite Hm.
  assert (Hlen : forall f, In f (vs_frames st) -> vf_active f = true -> N.of_nat (length (frame_bytes st f)) = vf_len f).
  { intros f Hf Ha. apply frame_bytes_length; auto. }
  destruct (write_phase_spec (vs_start st) m (frame_bytes st) (vs_frames st) (vs_start st) (vs_region st))
    as (rg' & -> & Hp' & Hl & _ & Hall); [lia|lia|auto|].
  set (c' := vs_start st + active_bytes (vs_frames st)) in *.
  eexists. split; [reflexivity|]. cbn [vs_frames vs_data_end vs_start vs_cpe vs_footer vs_lex vs_vec vs_pending].
  assert (Hfl : c' <= vs_start st + N.of_nat (length rg')) by lia.
  split.
  - eapply Forall2_impl_in; [|exact Hall].
    intros f f' Hin Hin' (Heq & Hrow). unfold kept.
    rewrite Heq. cbn [set_window vf_id vf_status vf_role vf_meta vf_text vf_off vf_len].
    repeat (split; [reflexivity|]).
    destruct (vf_active f) eqn:Ea; [|exact Hrow].
    destruct Hrow as (Hlen' & Hread). specialize (Hlen f Hin Ea).
    split; [lia|]. split; [exact Hread|].
    (* a non-empty new window lies between the start of the pass and the final cursor, which is the new data end *)
    apply validate_spec. unfold file_len. cbn [vs_start vs_data_end vs_region set_window vf_off vf_len].
    destruct (N.eq_dec (vf_len f') 0) as [H0|Hn]; [left; exact H0|right].
    destruct (relocate_in_range (vs_frames st) (vs_start st) f') as [Hlo Hhi].
    + apply live_In. split; [exact Hin'|]. split; [rewrite Heq; exact Ea|exact Hn].
    + destruct (Hb f Hin Ea) as [H0|(Hmx & _)]; lia.
  - repeat (split; [reflexivity|]).
    unfold file_len. cbn [vs_start vs_region]. split; lia.
Qed.

Lemma rebuild_fields st ix :
  vs_start (rebuild st ix) = vs_start st /\ vs_frames (rebuild st ix) = vs_frames st /\
  vs_cpe (rebuild st ix) = vs_cpe st /\ vs_footer st <= vs_footer (rebuild st ix) /\
  vs_lex (rebuild st ix) = vs_lex st /\ vs_vec (rebuild st ix) = vs_vec st.
Proof.
  unfold rebuild. destruct (_ && _ && _); cbn; repeat split; lia.
Qed.

(* the index image is written at cached_payload_end, hence the first hypothesis *)
Lemma rebuild_keeps st ix :
  vs_data_end st <= vs_cpe st -> vs_cpe st <= file_len st ->
  vs_data_end (rebuild st ix) <= vs_cpe st /\ vs_data_end (rebuild st ix) <= file_len (rebuild st ix) /\
  forall f, validate st f = Ok tt ->
    frame_bytes (rebuild st ix) f = frame_bytes st f /\ validate (rebuild st ix) f = Ok tt.
Proof.
  intros Hdc Hcf. unfold rebuild.
  destruct (_ && _ && _); [split; [exact Hdc|]; split; [lia|auto]|].
  set (P := N.to_nat (vs_cpe st - vs_start st)).
  pose proof (write_at_length (vs_region st) P ix) as Hlen.
  unfold file_len in *. cbn [vs_region vs_start vs_data_end].
  split; [lia|]. split; [lia|].
  intros f Hv. apply validate_spec in Hv. unfold file_len in Hv.
  split.
  - destruct Hv as [H0|Hv]; unfold frame_bytes; cbn [vs_region vs_start]; [rewrite H0, !read_at_len0; reflexivity|].
    apply (read_at_prefix _ _ _ _ _ (vs_data_end st)); try lia.
    apply write_at_firstn; subst P; lia.
  - apply validate_spec. unfold file_len. cbn [vs_region vs_start vs_data_end]. lia.
Qed.

Lemma relocate_ids fs : forall c, map vf_id (relocate fs c) = map vf_id fs.
Proof.
  induction fs as [|f r IH]; intros c; cbn [relocate map]; [reflexivity|].
  destruct (vf_active f); cbn [map set_window vf_id]; rewrite IH; reflexivity.
Qed.

Lemma Forall2_in_r {A B} (R : A -> B -> Prop) l l' y :
  Forall2 R l l' -> In y l' -> exists x, R x y.
Proof.
  intros HF. induction HF as [|a b l l' Hab HF IH]; intros Hy; [destruct Hy|].
  destruct Hy as [->|Hy]; [exists a; exact Hab|exact (IH Hy)].
Qed.

Lemma kept_in_bounds st st' f f' : kept st st' f f' -> vf_active f' = true -> in_bounds st' f'.
Proof.
  intros (_ & K2 & _ & _ & _ & K6) Ha. unfold vf_active in *. rewrite K2 in Ha. rewrite Ha in K6.
  apply validate_in_bounds, K6.
Qed.

Lemma vacuum_core_correct st ix :
  store_inv st ->
  exists st', vacuum_core st ix = Ok st' /\
    Forall2 (kept st st') (vs_frames st) (vs_frames st') /\
    vs_frames st' = relocate (vs_frames st) (vs_start st) /\
    vs_start st' = vs_start st /\
    vs_cpe st' = vs_start st + active_bytes (vs_frames st) /\
    vs_data_end st' <= vs_cpe st' /\
    vs_footer st <= vs_footer st' /\
    store_inv st'.
Proof.
  intros Hinv.
  destruct (rewrite_correct (checkpoint st) (store_inv_checkpoint st Hinv))
    as (st1 & Hrw & Hall & Htab & Hde & Hst & Hcpe & Hfo & _ & _ & _ & Hdf & _).
  cbn [checkpoint vs_frames vs_start vs_footer] in *.
  unfold vacuum_core. rewrite Hrw. eexists. split; [reflexivity|].
  destruct (rebuild_fields st1 ix) as (R1 & R2 & R3 & R4 & _).
  (* after the rewrite cached_payload_end IS the data end, so the index image goes behind every payload *)
  destruct (rebuild_keeps st1 ix) as (G1 & G2 & Hpre); [lia|lia|].
  assert (Hkept : Forall2 (kept st (rebuild st1 ix)) (vs_frames st) (vs_frames st1)).
  { eapply Forall2_impl_in; [|exact Hall]. intros f f' _ _ (K1 & K2 & K3 & K4 & K5 & K6).
    unfold kept. repeat (split; [assumption|]).
    destruct (vf_active f); [|exact K6]. destruct K6 as (L1 & L2 & L3).
    destruct (Hpre f' L3) as (P1 & P2). rewrite P1. auto. }
  rewrite R1, R2, R3. split; [exact Hkept|]. split; [exact Htab|]. split; [exact Hst|].
  split; [lia|]. split; [lia|]. split; [lia|].
  constructor.
  - rewrite R2, Htab, relocate_ids. apply Hinv.
  - rewrite R2. intros f' Hf' Ha'.
    destruct (Forall2_in_r _ _ _ f' Hkept Hf') as (f & Hk). exact (kept_in_bounds _ _ _ _ Hk Ha').
  - exact G2.
Qed.

Lemma relocate_nth fs : forall c i f,
  nth_error fs i = Some f ->
  nth_error (relocate fs c) i =
    Some (if vf_active f then set_window f (c + active_bytes (firstn i fs)) (vf_len f) else set_window f 0 0).
Proof.
  induction fs as [|g r IH]; intros c i f Hn; [destruct i; discriminate|].
  destruct i as [|i]; cbn [nth_error] in Hn.
  - injection Hn as ->. cbn [relocate firstn active_bytes]. destruct (vf_active f); cbn [nth_error]; [|reflexivity].
    do 2 f_equal. lia.
  - cbn [relocate firstn active_bytes]. destruct (vf_active g); cbn [nth_error]; rewrite (IH _ _ _ Hn).
    + destruct (vf_active f); [|reflexivity]. do 2 f_equal. lia.
    + destruct (vf_active f); reflexivity.
Qed.

Lemma relocate_view fs : forall c, table_view (relocate fs c) = table_view fs.
Proof.
  induction fs as [|f r IH]; intros c; cbn [relocate table_view map]; [reflexivity|].
  destruct (vf_active f); cbn [map]; f_equal; apply IH.
Qed.

Lemma relocate_filter_ids (p : vframe -> bool) fs :
  (forall f o l, p (set_window f o l) = p f) ->
  forall c, map vf_id (filter p (relocate fs c)) = map vf_id (filter p fs).
Proof.
  intros H. induction fs as [|f r IH]; intros c; cbn [relocate]; [reflexivity|].
  destruct (vf_active f); cbn [filter]; rewrite H; destruct (p f); cbn [map set_window vf_id]; rewrite IH; reflexivity.
Qed.

Lemma relocate_index_sets fs c :
  table_view (relocate fs c) = table_view fs /\
  lex_docs (relocate fs c) = lex_docs fs /\ time_entries (relocate fs c) = time_entries fs.
Proof. split; [apply relocate_view|split; apply relocate_filter_ids; reflexivity]. Qed.

Lemma relocate_disjoint fs : forall c, pairwise win_disjoint (live (relocate fs c)).
Proof.
  induction fs as [|f r IH]; intros c; [exact I|].
  cbn [relocate]. destruct (vf_active f) eqn:Ea; rewrite live_cons, vf_active_set, Ea; cbn [andb]; [|apply IH].
  cbn [set_window vf_len]. destruct (negb (vf_len f =? 0)); [|apply IH].
  cbn [pairwise]. split; [|apply IH].
  intros y Hy. destruct (relocate_in_range r _ y Hy) as [H1 _].
  left. cbn [set_window vf_off vf_len]. exact H1.
Qed.

Fixpoint total_len (l : list vframe) : N := match l with [] => 0 | f :: r => vf_len f + total_len r end.

Lemma pairwise_impl_in {A} (R S : A -> A -> Prop) l :
  (forall x y, In x l -> In y l -> R x y -> S x y) -> pairwise R l -> pairwise S l.
Proof.
  induction l as [|x r IH]; intros HRS H; [exact I|]. destruct H as [Hx Hr]. split.
  - intros y Hy. apply HRS; [left; reflexivity|right; exact Hy|apply Hx; exact Hy].
  - apply IH; [|exact Hr]. intros a b Ha Hb. apply HRS; right; assumption.
Qed.

(* Take the first window out and close the gap: the windows behind it move down by its length, the others
   stay; all are still pairwise disjoint, inside [a, b - its length].  The moved windows are no frames of any
   table, hence `off` for where a window starts. *)
Lemma disjoint_total_le l : forall (off : vframe -> N) a b,
  pairwise (fun f g => off f + vf_len f <= off g \/ off g + vf_len g <= off f) l ->
  (forall f, In f l -> a <= off f /\ off f + vf_len f <= b) ->
  total_len l <= b - a.
Proof.
  induction l as [|f r IH]; intros off a b Hp Hin; [cbn; lia|].
  destruct Hp as [Hf Hr]. destruct (Hin f (or_introl eq_refl)) as (Hlo & Hhi).
  set (off' := fun g => if off f + vf_len f <=? off g then off g - vf_len f else off g).
  enough (total_len r <= b - vf_len f - a) by (cbn [total_len]; lia).
  apply (IH off').
  - revert Hr. apply pairwise_impl_in. intros g h Hg Hh Hgh. unfold off'.
    pose proof (Hf g Hg). pose proof (Hf h Hh).
    destruct (N.leb_spec (off f + vf_len f) (off g)), (N.leb_spec (off f + vf_len f) (off h)); lia.
  - intros g Hg. unfold off'. pose proof (Hf g Hg). destruct (Hin g (or_intror Hg)).
    destruct (N.leb_spec (off f + vf_len f) (off g)); lia.
Qed.

Lemma active_bytes_live fs : active_bytes fs = total_len (live fs).
Proof.
  unfold live. induction fs as [|f r IH]; [reflexivity|]. cbn [active_bytes filter].
  destruct (vf_active f); cbn [andb].
  - destruct (vf_len f =? 0) eqn:E; cbn [negb total_len]; lia.
  - lia.
Qed.

Lemma rewrite_fields st st1 :
  rewrite st = Ok st1 ->
  vs_footer st1 = vs_footer st /\ vs_lex st1 = vs_lex st /\ vs_vec st1 = vs_vec st /\ vs_pending st1 = vs_pending st.
Proof.
  unfold rewrite. destruct (read_phase st (vs_frames st) []); try discriminate.
  destruct (write_phase _ _ _ _ _) as [[fs' c'] rg']. intros H. injection H as <-. cbn. auto.
Qed.

Lemma vacuum_core_pending st ix st' :
  vacuum_core st ix = Ok st' ->
  vs_pending st' = if vs_lex st then 1 else 0.
Proof.
  unfold vacuum_core. destruct (rewrite (checkpoint st)) as [st1| |] eqn:Hr; try discriminate.
  destruct (rewrite_fields _ _ Hr) as (_ & Hl & Hv & Hp). cbn [checkpoint vs_lex vs_vec vs_pending] in *.
  intros H. injection H as <-. unfold rebuild. rewrite Hl, Hv, Hp.
  destruct (vs_lex st); cbn [negb andb].
  - rewrite andb_false_r. cbn [andb vs_pending]. lia.
  - destruct (_ && _); cbn [vs_pending]; lia.
Qed.

(* /repo before 4c0da7f (finding F-C42-2): vacuum() was vacuum_core alone and left the lex batch record
   pending, so verify on the closed file failed *)
Lemma historical_verify_failed_before_4c0da7f st ix st' :
  vs_lex st = true -> vacuum_core st ix = Ok st' -> verify_passed st' = false.
Proof. intros Hl Hv. unfold verify_passed. rewrite (vacuum_core_pending _ _ _ Hv), Hl. reflexivity. Qed.

(* the witness of F-C42-1: two payload-less updates of frame 0, so frames 1 and 2 share its window *)
Definition wit_frames : list vframe :=
  [mkVF 0 1 100 4 0 10 false; mkVF 1 0 100 4 0 11 false; mkVF 2 0 100 4 0 12 false].
Definition wit : vstate := mkVS 100 wit_frames [1; 2; 3; 4; 9; 9; 9; 9; 9; 9] 104 104 104 true false 0.
Definition wit_ix : bytes := [7; 7; 7; 7; 7; 7].

(* /repo before f791181 (finding F-C42-1): cached_payload_end was left stale; the index image then lands on
   the second copy of the witness's shared payload *)
Lemma historical_stale_cpe_refutation :
  exists st', vacuum_pre_f791181 wit wit_ix = Ok st' /\
    exists f f', nth_error (vs_frames wit) 2 = Some f /\ nth_error (vs_frames st') 2 = Some f' /\
                 vf_active f = true /\ frame_bytes wit f = [1; 2; 3; 4] /\ frame_bytes st' f' = [7; 7; 7; 7] /\
                 validate st' f' = Err 3.
Proof. eexists. split; [vm_compute; reflexivity|]. do 2 eexists. vm_compute. repeat split; reflexivity. Qed.
