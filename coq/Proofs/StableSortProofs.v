(* The stable sorts of Model/StableSort.v are the sorts of Base/SortFacts.v (the _eq lemmas), and each
   fact is the SortFacts lemma carried over by those equations.  In Section Order the comparison is
   asked to be total and transitive only on the elements satisfying P (a guard such as "the key is
   not NaN"; the generic statements of C13 carry one, its statements about the code need none). *)
From MV Require Import Base.Prelude Base.Facts Model.StableSort.
From MV Require Base.SortFacts.
From Coq Require Import Sorting.Permutation Sorting.Sorted.

Section Perm.
  Context {A : Type}.
  Variable le : A -> A -> bool.

  Lemma insert_eq x l : insert le x l = SortFacts.insert le x l.
  Proof. induction l as [|y r IH]; cbn [insert SortFacts.insert]; [|rewrite IH]; reflexivity. Qed.

  Lemma isort_eq l : isort le l = SortFacts.isort le l.
  Proof.
    induction l as [|x r IH]; cbn [isort SortFacts.isort]; [reflexivity|].
    rewrite IH. apply insert_eq.
  Qed.

  Lemma merge_eq l1 l2 : merge le l1 l2 = SortFacts.merge le l1 l2.
  Proof. reflexivity. Qed.

  Lemma msort_eq f : forall l, msort le f l = SortFacts.msort_fuel le f l.
  Proof.
    induction f as [|f IH]; intros l; cbn [msort SortFacts.msort_fuel]; [apply isort_eq|].
    destruct l as [|x [|y r]]; [reflexivity|reflexivity|]. rewrite !IH. apply merge_eq.
  Qed.

  Definition leP (a b : A) : Prop := le a b = true.

  Lemma sorted_eq l : StronglySorted leP l <-> SortFacts.sorted le l.
  Proof. symmetry. apply SortFacts.sorted_StronglySorted. Qed.

  Lemma isort_perm l : Permutation (isort le l) l.
  Proof. rewrite isort_eq. apply SortFacts.isort_perm. Qed.

  Lemma msort_perm f : forall l, Permutation (msort le f l) l.
  Proof.
    induction f as [|f IH]; intros l; [apply isort_perm|].
    destruct l as [|x [|y r]]; [reflexivity|reflexivity|].
    cbn [msort]. rewrite merge_eq, SortFacts.merge_perm, !IH, firstn_skipn. reflexivity.
  Qed.

  Lemma isort_length l : length (isort le l) = length l.
  Proof. apply Permutation_length, isort_perm. Qed.
  Lemma msort_length f l : length (msort le f l) = length l.
  Proof. apply Permutation_length, msort_perm. Qed.

  Lemma isort_In x l : In x (isort le l) <-> In x l.
  Proof.
    split; apply Permutation_in; [apply isort_perm | symmetry; apply isort_perm].
  Qed.

  Lemma sorted_app_r l1 l2 : StronglySorted leP (l1 ++ l2) -> StronglySorted leP l2.
  Proof. intros S. destruct (SS_app _ _ _ S) as (_ & S2 & _). exact S2. Qed.
End Perm.

Section Order.
  Context {A : Type}.
  Variable le : A -> A -> bool.
  Variable P : A -> Prop.
  Hypothesis le_total : forall a b, P a -> P b -> le a b = true \/ le b a = true.
  Hypothesis le_trans :
    forall a b c, P a -> P b -> P c -> le a b = true -> le b c = true -> le a c = true.

  Notation sorted := (StronglySorted (leP le)).

  Lemma isort_sorted l : Forall P l -> sorted (isort le l).
  Proof.
    intros Pl. rewrite isort_eq. apply sorted_eq.
    exact (SortFacts.isort_sorted_on A le P l le_total le_trans Pl).
  Qed.

  Lemma isort_stable z l :
    P z -> Forall P l -> filter (tie le z) (isort le l) = filter (tie le z) l.
  Proof. intros Pz Pl. rewrite isort_eq. exact (SortFacts.isort_stable_on A le P z l le_trans Pz Pl). Qed.

  Theorem stable_sort_unique l l' :
    Forall P l -> Forall P l' -> sorted l' ->
    (forall z, P z -> filter (tie le z) l' = filter (tie le z) l) ->
    l' = isort le l.
  Proof.
    intros Pl Pl' S' Hst. rewrite isort_eq. apply sorted_eq in S'.
    exact (SortFacts.stable_sort_unique_on A le P l l' le_total le_trans Pl Pl' S' Hst).
  Qed.

  Theorem msort_eq_isort f : forall l, Forall P l -> msort le f l = isort le l.
  Proof.
    intros l Pl. rewrite msort_eq, isort_eq.
    exact (SortFacts.msort_fuel_eq_isort_on A le P f l le_total le_trans Pl).
  Qed.
End Order.
