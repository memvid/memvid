(* Proofs about Model/VecSearch.v.  Index level: the answer of index_search is the stable sort of
   all hits, cut, and that list is the one solution of exact_nn (exact_nn_iff) for any comparison
   that is a total preorder on the distance values satisfying a guard okD.  Memory level: two
   invariants of vrun, synced (every history) and one_dim (histories whose embeddings fit u32),
   shown for put through its three steps ensure_enabled, fix_dim, push (vput_cases); under both
   search_vec is three checks and the index search (search_vec_checks).  Up to there everything is
   generic in the embedding type, the distance and the comparison.  The end of the file is the f32
   instance: f32_nan_last_le is a total preorder on all bit patterns, NaN included, so C13 takes
   okD := everything; and the numeric reading numeric_nn of an answer. *)
From MV Require Import Base.Prelude Base.Facts Model.StableSort Model.VecSearch Proofs.StableSortProofs.
From Coq Require Import Sorting.Permutation Sorting.Sorted.
Local Open Scope N_scope.

Lemma truncate_firstn {A} (l : list A) (limit : N) :
  truncate l limit = firstn (N.to_nat (N.min limit (N.of_nat (length l)))) l.
Proof.
  unfold truncate. destruct (N.leb_spec (N.of_nat (length l)) limit) as [H|H].
  - rewrite N.min_r by exact H. rewrite Nat2N.id, firstn_all. reflexivity.
  - rewrite N.min_l by lia. reflexivity.
Qed.

Lemma truncate_length {A} (l : list A) (limit : N) :
  N.of_nat (length (truncate l limit)) = N.min limit (N.of_nat (length l)).
Proof. rewrite truncate_firstn, firstn_length. lia. Qed.

Lemma truncate_skipn {A} (l : list A) (limit : N) :
  truncate l limit ++ skipn (N.to_nat (N.min limit (N.of_nat (length l)))) l = l.
Proof. rewrite truncate_firstn. apply firstn_skipn. Qed.

Lemma truncate_prefix {A} (hits rest : list A) (limit : N) :
  N.of_nat (length hits) = N.min limit (N.of_nat (length (hits ++ rest))) -> truncate (hits ++ rest) limit = hits.
Proof.
  intros H. rewrite truncate_firstn, <- H, Nat2N.id, firstn_app, Nat.sub_diag, firstn_all. apply app_nil_r.
Qed.

Section IndexLevel.
  Variables E D : Type.
  Variable dim : E -> N.
  Variable dist : E -> E -> D.
  Variable dle : D -> D -> bool.

  Notation doc := (doc E).
  Notation hit := (hit D).
  Notation hle := (hit_le D dle).
  Notation isearch := (index_search E D dim dist dle).
  Notation allh := (all_hits E D dist).

  Definition dims_ok (q : E) (docs : list doc) : Prop :=
    forall d, In d docs -> dim (doc_emb d) = dim q.

  Lemma all_hits_length q docs : length (allh q docs) = length docs.
  Proof. unfold all_hits. apply map_length. Qed.

  Lemma collect_hits_ok q docs :
    dims_ok q docs -> collect_hits E D dim dist q docs = Ok (allh q docs).
  Proof.
    induction docs as [|d r IH]; intros H; [reflexivity|].
    cbn [collect_hits]. unfold l2_distance.
    rewrite (H d) by (left; reflexivity). rewrite N.eqb_refl.
    rewrite IH by (intros x Hx; apply H; right; exact Hx). reflexivity.
  Qed.

  (* a document of another dimension: the length assertion of the kernel fires *)
  Lemma collect_hits_panic q docs :
    (exists d, In d docs /\ dim (doc_emb d) <> dim q) ->
    collect_hits E D dim dist q docs = Panic P_DIST_LEN.
  Proof.
    induction docs as [|d r IH]; intros [x [Hx Hd]]; [destruct Hx|].
    cbn [collect_hits]. unfold l2_distance.
    destruct (N.eqb_spec (dim q) (dim (doc_emb d))) as [Heq|Hne]; [|reflexivity].
    destruct Hx as [->|Hx]; [congruence|].
    rewrite IH by (exists x; split; assumption). reflexivity.
  Qed.

  Lemma isearch_ok q docs limit :
    dim q <> 0 -> dims_ok q docs ->
    isearch docs q limit = Ok (truncate (isort hle (allh q docs)) limit).
  Proof.
    intros Hq Hd. unfold index_search.
    destruct (N.eqb_spec (dim q) 0) as [H0|_]; [congruence|].
    rewrite collect_hits_ok by exact Hd. reflexivity.
  Qed.

  Lemma isearch_cut q docs limit :
    dim q <> 0 -> dims_ok q docs ->
    exists rest,
      isearch docs q limit = Ok (truncate (isort hle (allh q docs)) limit) /\
      truncate (isort hle (allh q docs)) limit ++ rest = isort hle (allh q docs) /\
      N.of_nat (length (truncate (isort hle (allh q docs)) limit)) = N.min limit (N.of_nat (length docs)).
  Proof.
    intros Hq Hd. eexists. split; [apply isearch_ok; assumption|]. split; [apply truncate_skipn|].
    rewrite truncate_length, isort_length, all_hits_length. reflexivity.
  Qed.

  Section Ordered.
    Variable okD : D -> Prop.
    Hypothesis dle_total : forall a b, okD a -> okD b -> dle a b = true \/ dle b a = true.
    Hypothesis dle_trans :
      forall a b c, okD a -> okD b -> okD c -> dle a b = true -> dle b c = true -> dle a c = true.

    Let okH (h : hit) : Prop := okD (snd h).

    Lemma hle_total : forall a b, okH a -> okH b -> hle a b = true \/ hle b a = true.
    Proof. intros a b Ha Hb. apply dle_total; assumption. Qed.
    Lemma hle_trans :
      forall a b c, okH a -> okH b -> okH c -> hle a b = true -> hle b c = true -> hle a c = true.
    Proof. intros a b c Ha Hb Hc. apply dle_trans; assumption. Qed.

    Definition no_nan_distance (q : E) (docs : list doc) : Prop :=
      forall d, In d docs -> okD (dist q (doc_emb d)).

    Lemma all_hits_ok q docs : no_nan_distance q docs -> Forall okH (allh q docs).
    Proof.
      intros H. unfold all_hits. apply Forall_forall. intros h Hh.
      apply in_map_iff in Hh. destruct Hh as [d [<- Hd]]. unfold okH. cbn [snd]. apply H; exact Hd.
    Qed.

    (* Left to right the whole list hits ++ rest is determined by uniqueness of a stable sort and hits
       by its length; right to left the omitted hits are what the cut drops. *)
    Theorem exact_nn_iff q docs limit hits :
      no_nan_distance q docs ->
      (exact_nn E D dist dle okD docs q limit hits <-> hits = truncate (isort hle (allh q docs)) limit).
    Proof.
      intros Hn. pose proof (all_hits_ok q docs Hn) as Hok. split.
      - intros (rest & Hlen & Hperm & Hsorted & _ & Hstable).
        rewrite <- (stable_sort_unique hle okH hle_total hle_trans (allh q docs) (hits ++ rest) Hok
                      (Permutation_Forall (Permutation_sym Hperm) Hok) Hsorted Hstable).
        symmetry. apply truncate_prefix. rewrite (Permutation_length Hperm), all_hits_length. exact Hlen.
      - intros ->. pose proof (isort_sorted hle okH hle_total hle_trans _ Hok) as Hsorted.
        pose proof (truncate_skipn (isort hle (allh q docs)) limit) as Hcat. set (rest := skipn _ _) in Hcat.
        exists rest. rewrite Hcat, truncate_length, isort_length, all_hits_length.
        split; [reflexivity|]. split; [apply isort_perm|]. split; [exact Hsorted|]. split.
        + (* sorted as a whole, so nothing omitted is below anything returned *)
          rewrite <- Hcat in Hsorted. exact (proj2 (proj2 (SS_app _ _ _ Hsorted))).
        + intros z Hz. exact (isort_stable hle okH hle_trans z _ Hz Hok).
    Qed.

    Theorem isearch_exact q docs limit :
      dim q <> 0 -> dims_ok q docs -> no_nan_distance q docs ->
      exists hits,
        isearch docs q limit = Ok hits /\
        hits = truncate (isort hle (allh q docs)) limit /\
        exact_nn E D dist dle okD docs q limit hits.
    Proof.
      intros Hq Hd Hn. eexists. split; [apply isearch_ok; assumption|]. split; [reflexivity|].
      apply exact_nn_iff; [exact Hn | reflexivity].
    Qed.

    (* Rust's sort_by may be any stable merge strategy: same answer *)
    Theorem isearch_any_stable_sort q docs limit fuel :
      no_nan_distance q docs ->
      truncate (msort hle fuel (allh q docs)) limit = truncate (isort hle (allh q docs)) limit.
    Proof.
      intros Hn. rewrite (msort_eq_isort hle okH hle_total hle_trans); [reflexivity|].
      apply all_hits_ok; exact Hn.
    Qed.
  End Ordered.
End IndexLevel.

Section MemLevel.
  Variables E D : Type.
  Variable dim : E -> N.
  Variable dist : E -> E -> D.
  Variable dle : D -> D -> bool.

  Notation doc := (doc E).
  Notation vstate := (vstate E).
  Notation vop := (vop E).
  Notation isearch := (index_search E D dim dist dle).
  Notation svec := (search_vec E D dim dist dle).
  Notation vmem_of := (vmem_of E).
  Notation index_docs := (index_docs E).

  Definition manifest_dim (s : vstate) : N :=
    match vs_manifest E s with Some mf => mf_dim mf | None => 0 end.

  Record synced (s : vstate) : Prop := {
    flag_follows_manifest : vs_enabled E s = match vs_manifest E s with Some _ => true | None => false end;
    index_follows_manifest : vs_index E s = match vs_manifest E s with Some mf => mf_docs mf | None => None end
  }.

  (* Dm is positive: empty vectors never get this far, put drops them *)
  Definition emb_ok (Dm : N) (e : E) : Prop := dim e = Dm /\ 0 < Dm < U32_MOD.
  Definition docs_ok (Dm : N) (l : list doc) : Prop := Forall (fun d => emb_ok Dm (doc_emb d)) l.
  Definition pend_ok (Dm : N) (p : pend E) : Prop :=
    match p with PPut _ (Some e) => emb_ok Dm e | _ => True end.
  Record one_dim (s : vstate) : Prop := {
    docs_one_dim : docs_ok (manifest_dim s) (index_docs s);
    pending_one_dim : Forall (pend_ok (manifest_dim s)) (vs_pending E s)
  }.

  Lemma emb_ok_0 e : emb_ok 0 e -> False.
  Proof. intros [_ H]. lia. Qed.

  Lemma docs_ok_0 (Dm : N) (l : list doc) : docs_ok 0 l -> docs_ok Dm l.
  Proof.
    intros H. apply Forall_forall. intros d Hd. destruct (emb_ok_0 _ (proj1 (Forall_forall _ _) H d Hd)).
  Qed.

  Lemma pend_ok_0 (Dm : N) (l : list (pend E)) : Forall (pend_ok 0) l -> Forall (pend_ok Dm) l.
  Proof.
    intros H. apply Forall_forall. intros p Hp. rewrite Forall_forall in H.
    specialize (H p Hp). destruct p as [fid [e|]|fid]; cbn [pend_ok] in *; auto.
    destruct (emb_ok_0 _ H).
  Qed.

  (* while no dimension is recorded there is no embedding, so any dimension will do *)
  Lemma one_dim_frame s s' :
    index_docs s' = index_docs s -> vs_pending E s' = vs_pending E s -> manifest_dim s' = manifest_dim s \/ manifest_dim s = 0 ->
    one_dim s -> one_dim s'.
  Proof.
    intros Hi Hp Hm [Hd Hpd]. destruct Hm as [Hm|Hz].
    - split; [rewrite Hi, Hm; exact Hd|rewrite Hp, Hm; exact Hpd].
    - rewrite Hz in Hd, Hpd. split.
      + rewrite Hi. apply docs_ok_0, Hd.
      + rewrite Hp. apply pend_ok_0, Hpd.
  Qed.

  Lemma effective_dim_of s :
    effective_dim E (vmem_of s) = Ok (if N.ltb 0 (manifest_dim s) then Some (manifest_dim s) else None).
  Proof.
    unfold effective_dim, VecSearch.vmem_of, manifest_dim.
    cbn [vm_manifest vm_segment_dims segment_dim].
    destruct (vs_manifest E s) as [mf|]; [|reflexivity].
    destruct (N.ltb 0 (mf_dim mf)); reflexivity.
  Qed.

  Lemma ensure_index_of s : synced s -> ensure_index E (vmem_of s) = vs_index E s.
  Proof.
    intros [_ Hs]. unfold ensure_index, VecSearch.vmem_of. cbn [vm_index vm_manifest].
    destruct (vs_index E s) as [ix|]; [reflexivity|]. symmetry; exact Hs.
  Qed.

  Lemma vinit_synced : synced vinit.
  Proof. split; reflexivity. Qed.
  Lemma vinit_one_dim : one_dim vinit.
  Proof. split; constructor. Qed.

  Lemma venable_synced s : synced s -> synced (venable E s).
  Proof.
    intros [He Hs]. destruct s as [en mf ix pd dl].
    cbn [vs_enabled vs_manifest vs_index] in He, Hs.
    unfold venable. cbn [vs_enabled vs_manifest vs_index vs_pending vs_deleted].
    destruct mf as [m|]; split; cbn [vs_enabled vs_manifest vs_index mf_docs]; auto.
  Qed.

  Lemma venable_manifest_dim s : manifest_dim (venable E s) = manifest_dim s.
  Proof. destruct s as [en [m|] ix pd dl]; reflexivity. Qed.

  Lemma venable_one_dim s : one_dim s -> one_dim (venable E s).
  Proof. apply one_dim_frame; [reflexivity|reflexivity|left; apply venable_manifest_dim]. Qed.

  Lemma venable_enabled s : vs_enabled E (venable E s) = true.
  Proof. reflexivity. Qed.

  (* put_internal is made of three steps: enable_vec if needed, the manifest dimension fixed by the
     first embedding, a record pushed on the log; a delete is the push alone *)
  Definition push (s : vstate) (p : pend E) : vstate :=
    mkVstate (vs_enabled E s) (vs_manifest E s) (vs_index E s) (vs_pending E s ++ [p]) (vs_deleted E s).
  Definition ensure_enabled (s : vstate) : vstate := if vs_enabled E s then s else venable E s.
  Definition fix_dim (d : N) (s : vstate) : vstate :=
    mkVstate (vs_enabled E s)
             (match vs_manifest E s with
              | Some mf => Some (if N.eqb (mf_dim mf) 0 then mkManifest d (mf_docs mf) else mf)
              | None => None
              end)
             (vs_index E s) (vs_pending E s) (vs_deleted E s).

  Lemma vput_cases s fid emb :
    fst (vput E dim s fid emb) =
    match emb with
    | Some e =>
        if N.eqb (dim e) 0 then push s (PPut fid None)
        else if N.ltb 0 (manifest_dim (ensure_enabled s)) && negb (N.eqb (manifest_dim (ensure_enabled s)) (dim e mod U32_MOD))
             then ensure_enabled s
             else push (fix_dim (dim e mod U32_MOD) (ensure_enabled s)) (PPut fid (Some e))
    | None => push s (PPut fid None)
    end.
  Proof.
    unfold vput, vput_gen. destruct emb as [e|]; [|reflexivity]. cbn [negb andb].
    destruct (N.eqb (dim e) 0); [reflexivity|]. fold (ensure_enabled s). rewrite effective_dim_of.
    destruct (N.ltb 0 (manifest_dim (ensure_enabled s))); cbn [andb]; [destruct (negb _)|]; reflexivity.
  Qed.

  Lemma push_synced s p : synced s -> synced (push s p).
  Proof. intros [He Hs]. split; assumption. Qed.

  Lemma push_one_dim s p : one_dim s -> pend_ok (manifest_dim s) p -> one_dim (push s p).
  Proof.
    intros [Hd Hp] Hok. split; [exact Hd|].
    apply Forall_app; split; [exact Hp|]. constructor; [exact Hok|constructor].
  Qed.

  Lemma ensure_enabled_keeps s : synced s -> synced (ensure_enabled s) /\ (one_dim s -> one_dim (ensure_enabled s)) /\ vs_enabled E (ensure_enabled s) = true.
  Proof.
    intros W. unfold ensure_enabled. destruct (vs_enabled E s) eqn:En; [auto|].
    split; [apply venable_synced, W|]. split; [apply venable_one_dim|reflexivity].
  Qed.

  Lemma fix_dim_synced d s : synced s -> synced (fix_dim d s).
  Proof.
    intros [He Hs]. destruct s as [en [m|] ix pd dl]; split; cbn [fix_dim vs_enabled vs_manifest vs_index] in *; auto.
    destruct (N.eqb (mf_dim m) 0); exact Hs.
  Qed.

  Lemma fix_dim_manifest_dim d s :
    synced s -> vs_enabled E s = true -> manifest_dim (fix_dim d s) = if N.eqb (manifest_dim s) 0 then d else manifest_dim s.
  Proof.
    intros [He _] En. rewrite En in He. revert He. unfold manifest_dim, fix_dim. cbn [vs_manifest].
    destruct (vs_manifest E s) as [m|]; [intros _|discriminate]. destruct (N.eqb (mf_dim m) 0); reflexivity.
  Qed.

  Lemma fix_dim_one_dim d s : synced s -> vs_enabled E s = true -> one_dim s -> one_dim (fix_dim d s).
  Proof.
    intros W En. apply one_dim_frame; [reflexivity|reflexivity|].
    rewrite (fix_dim_manifest_dim d s W En). destruct (N.eqb_spec (manifest_dim s) 0); auto.
  Qed.

  Lemma vput_synced s fid emb : synced s -> synced (fst (vput E dim s fid emb)).
  Proof.
    intros W. rewrite vput_cases. destruct (ensure_enabled_keeps s W) as (W1 & _).
    destruct emb as [e|]; [|apply push_synced, W].
    destruct (N.eqb (dim e) 0); [apply push_synced, W|].
    destruct (_ && _); [exact W1|apply push_synced, fix_dim_synced, W1].
  Qed.

  Lemma vput_one_dim s fid emb :
    synced s -> one_dim s -> op_dim_fits_u32 E dim (VPut fid emb) = true -> one_dim (fst (vput E dim s fid emb)).
  Proof.
    intros W Wd Hop. rewrite vput_cases. destruct (ensure_enabled_keeps s W) as (W1 & Wd1 & En1). specialize (Wd1 Wd).
    destruct emb as [e|].
    2:{ apply push_one_dim; [exact Wd|exact I]. }
    apply N.ltb_lt in Hop. destruct (N.eqb_spec (dim e) 0) as [_|Hn0].
    { (* an empty vector is stored as no embedding *) apply push_one_dim; [exact Wd|exact I]. }
    rewrite (N.mod_small (dim e) U32_MOD) by exact Hop.
    pose proof (fix_dim_manifest_dim (dim e) (ensure_enabled s) W1 En1) as Hm.
    pose proof (fix_dim_one_dim (dim e) (ensure_enabled s) W1 En1 Wd1) as Wd2.
    destruct (N.ltb_spec 0 (manifest_dim (ensure_enabled s))) as [Hpos|Hzero]; cbn [andb].
    - destruct (N.eqb_spec (manifest_dim (ensure_enabled s)) (dim e)) as [Heq|_]; cbn [negb].
      + (* the recorded dimension: accepted *)
        apply push_one_dim; [exact Wd2|]. rewrite Hm. cbn [pend_ok]. unfold emb_ok.
        replace (N.eqb (manifest_dim (ensure_enabled s)) 0) with false by lia. lia.
      + (* another dimension: rejected, nothing is queued *)
        exact Wd1.
    - (* no dimension yet: this embedding fixes it *)
      apply push_one_dim; [exact Wd2|]. rewrite Hm. cbn [pend_ok]. unfold emb_ok.
      replace (N.eqb (manifest_dim (ensure_enabled s)) 0) with true by lia. lia.
  Qed.

  Definition ix_docs (ix : option (list doc)) : list doc := match ix with Some d => d | None => [] end.

  Lemma apply_pending_ok Dm ps : forall ix del newd,
    docs_ok Dm (ix_docs ix) -> docs_ok Dm newd -> Forall (pend_ok Dm) ps ->
    let '(ix', _, newd') := apply_pending E ps ix del newd in docs_ok Dm (ix_docs ix') /\ docs_ok Dm newd'.
  Proof.
    induction ps as [|p ps IH]; intros ix del newd Hix Hnew Hps; [split; assumption|].
    inversion Hps as [|? ? Hp Hps']; subst.
    destruct p as [fid [e|]|fid]; cbn [apply_pending]; apply IH; try assumption.
    - apply Forall_app; split; [exact Hnew|]. constructor; [exact Hp|constructor].
    - (* delete: index_remove is a filter *)
      destruct ix as [d|]; [|constructor]. apply Forall_filter. exact Hix.
  Qed.

  (* VecIndexBuilder::finish records the dimension of the first document, which is everybody's *)
  Lemma finish_dimension_ok Dm docs : docs_ok Dm docs -> docs_ok (finish_dimension E dim docs) docs.
  Proof.
    intros H. destruct docs as [|d0 r]; [constructor|]. cbn [finish_dimension].
    destruct (Forall_inv H) as [H1 H2]. unfold u32_try_or0. rewrite H1.
    replace (N.ltb Dm U32_MOD) with true by lia. exact H.
  Qed.

  Lemma vcommit_cases s :
    (vs_pending E s = [] /\ vcommit E dim s = s) \/
    exists ix del newd,
      apply_pending E (vs_pending E s) (vs_index E s) (vs_deleted E s) [] = (ix, del, newd) /\
      vcommit E dim s =
      if vs_enabled E s
      then let docs := filter (fun d => frame_is_active del (doc_id d)) (ix_docs ix) ++ newd in
           mkVstate true (Some (mkManifest (finish_dimension E dim docs) (Some docs))) (Some docs) [] del
      else mkVstate false None None [] del.
  Proof.
    unfold vcommit. destruct (vs_pending E s) as [|p ps]; [left; split; reflexivity|right].
    destruct (apply_pending E (p :: ps) (vs_index E s) (vs_deleted E s) []) as [[ix del] newd].
    exists ix, del, newd. split; reflexivity.
  Qed.

  Lemma vcommit_clean s : vs_pending E s = [] -> vcommit E dim s = s.
  Proof. intros H. unfold vcommit. rewrite H. reflexivity. Qed.

  Lemma vcommit_pending s : vs_pending E (vcommit E dim s) = [].
  Proof.
    destruct (vcommit_cases s) as [[Hp ->]|(ix & del & newd & _ & ->)]; [exact Hp|].
    destruct (vs_enabled E s); reflexivity.
  Qed.

  Lemma vcommit_synced s : synced s -> synced (vcommit E dim s).
  Proof.
    intros W. destruct (vcommit_cases s) as [[_ ->]|(ix & del & newd & _ & ->)]; [exact W|].
    destruct (vs_enabled E s); split; reflexivity.
  Qed.

  Lemma vcommit_one_dim s : one_dim s -> one_dim (vcommit E dim s).
  Proof.
    intros [Hd Hp]. destruct (vcommit_cases s) as [[_ ->]|(ix & del & newd & Hap & ->)]; [split; assumption|].
    pose proof (apply_pending_ok (manifest_dim s) _ (vs_index E s) (vs_deleted E s) [] Hd (Forall_nil _) Hp) as H.
    rewrite Hap in H. destruct H as [Hix Hnew].
    destruct (vs_enabled E s).
    - split; [|constructor].
      apply (finish_dimension_ok (manifest_dim s)), Forall_app. split; [apply Forall_filter, Hix|exact Hnew].
    - split; constructor.
  Qed.

  Theorem vreopen_eq_vcommit s : synced s -> vreopen E dim s = vcommit E dim s.
  Proof.
    intros W. unfold vreopen.
    pose proof (vcommit_synced s W) as [He Hs]. pose proof (vcommit_pending s) as Hp.
    destruct (vcommit E dim s) as [en mf ix pd dl].
    cbn [vs_enabled vs_manifest vs_index vs_pending vs_deleted] in *.
    subst pd. rewrite <- He, <- Hs. reflexivity.
  Qed.

  Lemma vreopen_synced s : synced s -> synced (vreopen E dim s).
  Proof. intros W. rewrite vreopen_eq_vcommit by exact W. apply vcommit_synced; exact W. Qed.
  Lemma vreopen_one_dim s : synced s -> one_dim s -> one_dim (vreopen E dim s).
  Proof. intros W Wd. rewrite vreopen_eq_vcommit by exact W. apply vcommit_one_dim; exact Wd. Qed.

  Notation vstep := (vstep E D dim dist dle).
  Notation vrun := (vrun E D dim dist dle).

  Lemma vstep_synced s o : synced s -> synced (fst (vstep s o)).
  Proof.
    intros W. destruct o as [|fid emb|fid| | |q limit]; cbn [VecSearch.vstep fst].
    - apply venable_synced; exact W.
    - pose proof (vput_synced s fid emb W) as H.
      destruct (vput E dim s fid emb) as [s' [k|]]; exact H.
    - (* vdelete s fid is push s (PDel fid) by definition *) exact (push_synced s (PDel fid) W).
    - apply vcommit_synced; exact W.
    - apply vreopen_synced; exact W.
    - exact W.
  Qed.

  Lemma vstep_one_dim s o : synced s -> one_dim s -> op_dim_fits_u32 E dim o = true -> one_dim (fst (vstep s o)).
  Proof.
    intros W Wd Ho. destruct o as [|fid emb|fid| | |q limit]; cbn [VecSearch.vstep fst].
    - apply venable_one_dim; exact Wd.
    - pose proof (vput_one_dim s fid emb W Wd Ho) as H.
      destruct (vput E dim s fid emb) as [s' [k|]]; exact H.
    - exact (push_one_dim s (PDel fid) Wd I).
    - apply vcommit_one_dim; exact Wd.
    - apply vreopen_one_dim; assumption.
    - exact Wd.
  Qed.

  Lemma vrun_cons s o r :
    vrun s (o :: r) = (fst (vrun (fst (vstep s o)) r), snd (vstep s o) :: snd (vrun (fst (vstep s o)) r)).
  Proof.
    cbn [VecSearch.vrun]. destruct (vstep s o) as [s1 out].
    cbn [fst snd]. destruct (vrun s1 r) as [s2 outs]. reflexivity.
  Qed.

  Theorem vrun_synced ops : forall s, synced s -> synced (fst (vrun s ops)).
  Proof.
    induction ops as [|o r IH]; intros s W; [exact W|].
    rewrite vrun_cons. cbn [fst]. apply IH. apply vstep_synced; exact W.
  Qed.

  Theorem vrun_one_dim ops : forall s, synced s -> one_dim s -> forallb (op_dim_fits_u32 E dim) ops = true -> one_dim (fst (vrun s ops)).
  Proof.
    induction ops as [|o r IH]; intros s W Wd Hops; [exact Wd|].
    apply andb_true_iff in Hops as [Ho Hr].
    rewrite vrun_cons. cbn [fst]. apply IH; [apply vstep_synced; exact W | apply vstep_one_dim; assumption | exact Hr].
  Qed.

  Lemma search_vec_checks s q limit :
    synced s -> one_dim s ->
    svec (vmem_of s) q limit =
      if negb (vs_enabled E s) then Err E_VEC_NOT_ENABLED
      else if N.ltb 0 (manifest_dim s) && negb (N.eqb (dim q mod U32_MOD) (manifest_dim s)) then Err E_DIM_MISMATCH
      else match vs_index E s with
           | None => Err E_VEC_NOT_ENABLED
           | Some docs => isearch docs q limit
           end.
  Proof.
    intros W Wd. unfold search_vec.
    change (vm_enabled E (vmem_of s)) with (vs_enabled E s).
    destruct (vs_enabled E s); [|reflexivity]. cbn [negb].
    rewrite effective_dim_of, (ensure_index_of s W).
    destruct (N.ltb_spec 0 (manifest_dim s)) as [Hpos|Hzero].
    - (* a dimension is recorded: it is the expected one, which the code tests for > 0 again *)
      destruct (N.ltb_spec 0 (manifest_dim s)); [reflexivity|lia].
    - (* none recorded: the expected dimension would come from the first document; there is none *)
      assert (Hm : manifest_dim s = 0) by lia.
      destruct Wd as [Hd _]. unfold VecSearch.index_docs in Hd. rewrite Hm in Hd.
      destruct (vs_index E s) as [[|d0 r]|]; cbn [andb]; try reflexivity.
      inversion Hd as [|? ? H0 _]; subst. destruct (emb_ok_0 _ H0).
  Qed.

  Lemma index_nonempty_enabled s d0 : synced s -> In d0 (index_docs s) -> vs_enabled E s = true.
  Proof.
    intros [He Hs] Hin. unfold VecSearch.index_docs in Hin.
    destruct (vs_index E s) as [ix|] eqn:Ei; [|destruct Hin].
    rewrite He. destruct (vs_manifest E s); [reflexivity|discriminate].
  Qed.

  Lemma search_vec_nonempty s q limit d0 :
    synced s -> one_dim s -> In d0 (index_docs s) -> dim q < U32_MOD ->
    svec (vmem_of s) q limit =
      if N.eqb (dim q) (dim (doc_emb d0)) then isearch (index_docs s) q limit else Err E_DIM_MISMATCH.
  Proof.
    intros W Wd Hin Hsmall. rewrite (search_vec_checks s q limit W Wd).
    rewrite (index_nonempty_enabled s d0 W Hin). cbn [negb].
    destruct (proj1 (Forall_forall _ _) (docs_one_dim s Wd) d0 Hin) as [-> Hm].
    rewrite (N.mod_small (dim q) U32_MOD) by exact Hsmall.
    replace (N.ltb 0 (manifest_dim s)) with true by lia. cbn [andb].
    destruct (N.eqb (dim q) (manifest_dim s)); cbn [negb]; [|reflexivity].
    unfold VecSearch.index_docs in *. destruct (vs_index E s); [reflexivity|destruct Hin].
  Qed.

  Theorem search_vec_wrong_dim s q limit d0 :
    synced s -> one_dim s -> In d0 (index_docs s) ->
    dim q < U32_MOD -> dim q <> dim (doc_emb d0) ->
    svec (vmem_of s) q limit = Err E_DIM_MISMATCH.
  Proof.
    intros W Wd Hin Hsmall Hne. rewrite (search_vec_nonempty s q limit d0) by assumption.
    rewrite (proj2 (N.eqb_neq _ _) Hne). reflexivity.
  Qed.

  Lemma search_vec_right_dim s q limit d0 :
    synced s -> one_dim s -> In d0 (index_docs s) -> dim q = dim (doc_emb d0) ->
    svec (vmem_of s) q limit = isearch (index_docs s) q limit /\
    dim q <> 0 /\ dims_ok E dim q (index_docs s).
  Proof.
    intros W Wd Hin Heq. pose proof (proj1 (Forall_forall _ _) (docs_one_dim s Wd)) as Hd.
    destruct (Hd d0 Hin) as [H1 H2].
    rewrite (search_vec_nonempty s q limit d0), Heq, N.eqb_refl by (assumption || lia).
    split; [reflexivity|]. split; [lia|].
    intros d Hdin. destruct (Hd d Hdin) as [H3 _]. congruence.
  Qed.

  Theorem search_vec_exact (okD : D -> Prop)
    (dle_total : forall a b, okD a -> okD b -> dle a b = true \/ dle b a = true)
    (dle_trans : forall a b c, okD a -> okD b -> okD c -> dle a b = true -> dle b c = true -> dle a c = true)
    s q limit d0 :
    synced s -> one_dim s -> In d0 (index_docs s) -> dim q = dim (doc_emb d0) ->
    no_nan_distance E D dist okD q (index_docs s) ->
    exists hits,
      svec (vmem_of s) q limit = Ok hits /\
      exact_nn E D dist dle okD (index_docs s) q limit hits.
  Proof.
    intros W Wd Hin Heq Hn.
    destruct (search_vec_right_dim s q limit d0 W Wd Hin Heq) as [Hs [Hq Hdims]].
    destruct (isearch_exact E D dim dist dle okD dle_total dle_trans q (index_docs s) limit Hq Hdims Hn)
      as [hits [H1 [_ H3]]].
    exists hits. split; [rewrite Hs; exact H1 | exact H3].
  Qed.

  Theorem search_vec_no_panic s q limit :
    synced s -> one_dim s -> dim q < U32_MOD -> forall site, svec (vmem_of s) q limit <> Panic site.
  Proof.
    intros W Wd Hsmall site. destruct (index_docs s) as [|d0 r] eqn:Ei.
    - rewrite (search_vec_checks s q limit W Wd). destruct (vs_enabled E s); cbn [negb]; [|discriminate].
      destruct (_ && _); [discriminate|]. unfold VecSearch.index_docs in Ei.
      destruct (vs_index E s) as [ix|]; [subst ix|discriminate].
      unfold index_search. destruct (N.eqb (dim q) 0); cbn [collect_hits]; discriminate.
    - assert (Hin : In d0 (index_docs s)) by (rewrite Ei; left; reflexivity).
      rewrite (search_vec_nonempty s q limit d0 W Wd Hin Hsmall).
      destruct (N.eqb_spec (dim q) (dim (doc_emb d0))) as [Heq|_]; [|discriminate].
      destruct (search_vec_right_dim s q limit d0 W Wd Hin Heq) as (_ & Hq & Hdims).
      rewrite isearch_ok by assumption. discriminate.
  Qed.

  Definition reached (ops : list vop) : vstate := fst (vrun vinit ops).

  Lemma reached_synced ops : synced (reached ops).
  Proof. apply vrun_synced. apply vinit_synced. Qed.

  Lemma reached_one_dim ops : forallb (op_dim_fits_u32 E dim) ops = true -> one_dim (reached ops).
  Proof. intros H. apply vrun_one_dim; [apply vinit_synced | apply vinit_one_dim | exact H]. Qed.

End MemLevel.

(* the f32 instance of the comparison: (is_nan, total_cmp) on bit patterns *)
Lemma f32_nan_last_le_total a b : f32_nan_last_le a b = true \/ f32_nan_last_le b a = true.
Proof.
  unfold f32_nan_last_le. destruct (f32_is_nan a), (f32_is_nan b).
  - destruct (Z.leb_spec (total_key a) (total_key b)); [left; reflexivity|right; apply Z.leb_le; lia].
  - right. reflexivity.
  - left. reflexivity.
  - destruct (Z.leb_spec (total_key a) (total_key b)); [left; reflexivity|right; apply Z.leb_le; lia].
Qed.

Lemma f32_nan_last_le_trans a b c :
  f32_nan_last_le a b = true -> f32_nan_last_le b c = true -> f32_nan_last_le a c = true.
Proof.
  unfold f32_nan_last_le.
  (* a case with a NaN before a non-NaN has a false hypothesis, one with a non-NaN before a NaN a
     true conclusion; what is left compares the keys, where Z.leb is transitive *)
  destruct (f32_is_nan a), (f32_is_nan b), (f32_is_nan c); intros H1 H2; try discriminate; try reflexivity;
    apply Z.leb_le in H1; apply Z.leb_le in H2; apply Z.leb_le; exact (Z.le_trans _ _ _ H1 H2).
Qed.

Lemma total_key_inj a b : total_key a = total_key b -> a = b.
Proof.
  unfold total_key, F32_SIGN. intros H.
  destruct (N.ltb_spec a 2147483648); destruct (N.ltb_spec b 2147483648); lia.
Qed.

Lemma f32_nan_last_le_antisym a b :
  a < U32_MOD -> b < U32_MOD -> f32_nan_last_le a b = true -> f32_nan_last_le b a = true -> a = b.
Proof.
  unfold f32_nan_last_le. intros _ _.
  (* with exactly one NaN one of the two hypotheses is false; otherwise the keys are equal *)
  destruct (f32_is_nan a), (f32_is_nan b); intros H1 H2; try discriminate;
    apply Z.leb_le in H1; apply Z.leb_le in H2;
    exact (total_key_inj a b (Z.le_antisymm _ _ H1 H2)).
Qed.

Lemma f32_nan_last_le_nan_last a b :
  f32_is_nan a = false -> f32_is_nan b = true ->
  f32_nan_last_le a b = true /\ f32_nan_last_le b a = false.
Proof. unfold f32_nan_last_le. intros -> ->. split; reflexivity. Qed.

(* sign bit clear: non-negative numbers and +inf *)
Lemma f32_nan_last_le_nonneg a b :
  a < F32_SIGN -> b < F32_SIGN -> f32_is_nan a = false -> f32_is_nan b = false ->
  f32_nan_last_le a b = N.leb a b.
Proof.
  unfold f32_nan_last_le, total_key. intros Ha Hb -> ->.
  destruct (N.ltb_spec a F32_SIGN); [|lia]. destruct (N.ltb_spec b F32_SIGN); [|lia].
  destruct (N.leb_spec a b); [apply Z.leb_le; lia | apply Z.leb_gt; lia].
Qed.

(* numeric reading: for two values that are not negative numbers, "not Greater" means
   "the second is not strictly closer", NaN of either sign being farthest *)
Lemma f32_nan_last_le_not_closer a b :
  f32_not_negative a = true -> f32_not_negative b = true ->
  f32_nan_last_le a b = true -> f32_closer b a = false.
Proof.
  unfold f32_not_negative, f32_sign, f32_closer. intros Ha Hb H.
  destruct (f32_is_nan b) eqn:Nb; cbn [negb andb]; [reflexivity|].
  destruct (f32_is_nan a) eqn:Na; cbn [orb].
  - unfold f32_nan_last_le in H. rewrite Na, Nb in H. discriminate.
  - rewrite orb_false_r in Ha, Hb. apply negb_true_iff in Ha. apply negb_true_iff in Hb.
    apply N.leb_gt in Ha. apply N.leb_gt in Hb.
    rewrite f32_nan_last_le_nonneg in H by assumption. apply N.leb_le in H.
    apply N.ltb_ge. exact H.
Qed.

(* /repo from 9a670c1 to before 1932440 (finding F-C13-3), plain total_cmp: a sign-set pattern -- the only
   reachable one is a NaN -- sorts before every sign-clear one *)
Lemma f32_total_le_unfixed_sign_first a b :
  F32_SIGN <= a -> b < F32_SIGN ->
  f32_total_le_unfixed a b = true /\ f32_total_le_unfixed b a = false.
Proof.
  unfold f32_total_le_unfixed, total_key. intros Ha Hb.
  destruct (N.ltb_spec a F32_SIGN); [lia|]. destruct (N.ltb_spec b F32_SIGN); [|lia].
  split; [apply Z.leb_le; lia | apply Z.leb_gt; lia].
Qed.

(* /repo before 9a670c1 (finding F-C13-2): the comparison was not transitive *)
Lemma f32_le_unfixed_not_transitive :
  f32_le_unfixed (Some 5) None = true /\ f32_le_unfixed None (Some 3) = true /\
  f32_le_unfixed (Some 5) (Some 3) = false.
Proof. vm_compute. repeat split. Qed.

Section F32Reading.
  Variable E : Type.
  Variable dist : E -> E -> N.

  (* the hypothesis on the kernel's outputs: no distance from the query to an indexed
     embedding is a negative number (a square root of a sum of squares is non-negative,
     +inf or NaN; the real kernel never returns -0 either) *)
  Definition no_negative_distance (q : E) (docs : list (doc E)) : Prop :=
    forall d, In d docs -> f32_not_negative (dist q (doc_emb d)) = true.

  (* hits in non-decreasing numeric order with NaN (either sign) last, and no omitted document
     strictly closer (NaN = farthest) than a returned one *)
  Definition numeric_nn (docs : list (doc E)) (q : E) (hits : list (hit N)) : Prop :=
    StronglySorted (fun a b => f32_closer (snd b) (snd a) = false) hits /\
    exists rest,
      Permutation (hits ++ rest) (all_hits E N dist q docs) /\
      forall h o, In h hits -> In o rest -> f32_closer (snd o) (snd h) = false.

  Theorem exact_nn_numeric q docs limit hits :
    no_negative_distance q docs ->
    exact_nn E N dist f32_nan_last_le (fun _ => True) docs q limit hits ->
    numeric_nn docs q hits.
  Proof.
    intros Hsc (rest & _ & Hperm & Hsorted & _).
    (* no_negative_distance is no_nan_distance at the guard f32_not_negative *)
    pose proof (Permutation_Forall (Permutation_sym Hperm)
                  (all_hits_ok E N dist (fun x => f32_not_negative x = true) q docs Hsc)) as Hall.
    rewrite Forall_forall in Hall.
    (* the whole list is in numeric order: both the order of the hits and the clause across the cut *)
    assert (Hnum : StronglySorted (fun a b => f32_closer (snd b) (snd a) = false) (hits ++ rest)).
    { apply (SS_impl_In _ _ _ Hsorted). intros a b Ha Hb. apply f32_nan_last_le_not_closer; apply Hall; assumption. }
    destruct (SS_app _ _ _ Hnum) as (Hhits & _ & Hcross).
    split; [exact Hhits|]. exists rest. split; [exact Hperm | exact Hcross].
  Qed.
End F32Reading.
