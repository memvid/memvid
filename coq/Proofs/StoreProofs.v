(* Model/Store.v against its reference model Model/StoreSpec.v (C01 / C04 / C06): the frames a store
   exposes are the reference table (J), and with K next_frame_id is its length.  Store and reference
   change a table by the same two moves (grows), which keep every frame's identity (Extends) and
   ids as positions (Dense); every step of the store is built from append, do_commit, bump and
   doctor's new log sequence (sstep_closed), reopen, crash and doctor being commits.  The models
   built on Model/Store.v take these and the facts about apply_records from here. *)
From MV Require Import Base.Prelude Base.Facts Model.Store Model.StoreSpec.
Local Open Scope N_scope.

Lemma update_nth_length {A} n (g : A -> A) l : length (update_nth n g l) = length l.
Proof. revert n; induction l as [|x l IH]; intros [|n]; cbn [update_nth length]; auto. Qed.

Lemma nth_error_update_nth {A} n (g : A -> A) l i :
  nth_error (update_nth n g l) i = if Nat.eqb i n then option_map g (nth_error l i) else nth_error l i.
Proof.
  revert n i; induction l as [|x l IH]; intros n i.
  - destruct n, i; cbn [update_nth nth_error option_map Nat.eqb]; try reflexivity. destruct (Nat.eqb i n); reflexivity.
  - destruct n as [|n], i as [|i]; cbn [update_nth nth_error Nat.eqb option_map]; try reflexivity. apply IH.
Qed.

Lemma update_nth_app_l {A} n (g : A -> A) a b : (n < length a)%nat -> update_nth n g (a ++ b) = update_nth n g a ++ b.
Proof.
  revert n; induction a as [|x a IH]; intros [|n] Hn; cbn [length] in Hn; try lia; cbn [app update_nth]; [reflexivity|].
  rewrite IH by lia. reflexivity.
Qed.

Lemma update_nth_out {A} n (g : A -> A) l : (length l <= n)%nat -> update_nth n g l = l.
Proof.
  revert n; induction l as [|x l IH]; intros [|n] Hn; cbn [length] in Hn; cbn [update_nth]; try reflexivity; try lia.
  rewrite IH by lia. reflexivity.
Qed.

Lemma nth_error_snoc {A} (l : list A) x i y :
  nth_error (l ++ [x]) i = Some y -> nth_error l i = Some y \/ (i = length l /\ y = x).
Proof.
  intros H. destruct (Nat.lt_ge_cases i (length l)) as [Hl|Hg].
  - left. rewrite nth_error_app1 in H by exact Hl. exact H.
  - right. rewrite nth_error_app2 in H by exact Hg.
    destruct (i - length l)%nat as [|k] eqn:Ek; [|destruct k; discriminate]. injection H as <-. split; [lia|reflexivity].
Qed.

Lemma len_app a b : len (a ++ b) = len a + len b.
Proof. unfold len. rewrite app_length. lia. Qed.
Lemma len_update n g l : len (update_nth n g l) = len l.
Proof. unfold len. rewrite update_nth_length. reflexivity. Qed.

Lemma set_status_identity f st by_ : same_identity f (set_status f st by_).
Proof. destruct f; repeat split. Qed.
Lemma set_status_role f st by_ : f_role (set_status f st by_) = f_role f.
Proof. destruct f; reflexivity. Qed.
Lemma set_status_parent f st by_ : f_parent (set_status f st by_) = f_parent f.
Proof. destruct f; reflexivity. Qed.
Lemma set_status_tag f st by_ : f_tag (set_status f st by_) = f_tag f.
Proof. destruct f; reflexivity. Qed.
Lemma set_status_uri f st by_ : f_uri (set_status f st by_) = f_uri f.
Proof. destruct f; reflexivity. Qed.

(* "every chunk frame has a parent": makes the second pass of apply_records the identity *)
Definition ChunksParented (frames : list frame) : Prop :=
  forall i f, nth_error frames i = Some f -> f_role f = 1 -> f_parent f <> None.

Lemma ChunksParented_update n st by_ frames :
  ChunksParented frames -> ChunksParented (update_nth n (fun g => set_status g st by_) frames).
Proof.
  intros HC i f Hi Hr. rewrite nth_error_update_nth in Hi.
  destruct (Nat.eqb i n).
  - destruct (nth_error frames i) as [g|] eqn:Eg; [|discriminate]. cbn in Hi. inversion Hi; subst.
    rewrite set_status_role in Hr. rewrite set_status_parent. eapply HC; eauto.
  - eapply HC; eauto.
Qed.

Lemma ChunksParented_snoc frames f :
  ChunksParented frames -> (f_role f = 1 -> f_parent f <> None) -> ChunksParented (frames ++ [f]).
Proof.
  intros HC Hf i g Hi Hr. apply nth_error_snoc in Hi as [Hi|[_ ->]]; [exact (HC _ _ Hi Hr)|exact (Hf Hr)].
Qed.

Lemma resolve_orphans_keeps {A} (Q : list frame -> A) fr ins :
  (forall n p l, Q (update_nth n (fun g => set_parent g p) l) = Q l) -> Q (resolve_orphans fr ins) = Q fr.
Proof.
  intros HQ. unfold resolve_orphans. apply (fold_left_invariant _ (fun acc => Q acc = Q fr)); [|reflexivity].
  intros acc id <-. destruct (get fr id) as [f|]; [|reflexivity]. destruct (_ && _); [|reflexivity].
  destruct (orphan_parent fr (N.to_nat id) id); [apply HQ|reflexivity].
Qed.

Lemma resolve_orphans_id frames ins : ChunksParented frames -> resolve_orphans frames ins = frames.
Proof.
  intros HC. unfold resolve_orphans. apply (fold_left_invariant _ (fun fr => fr = frames)); [|reflexivity].
  intros fr id ->. destruct (get frames id) as [f|] eqn:Eg; [|reflexivity].
  destruct (f_role f =? 1) eqn:Er; cbn [andb]; [|reflexivity].
  apply N.eqb_eq in Er. destruct (f_parent f) eqn:Ep; [reflexivity|]. destruct (HC _ _ Eg Er Ep).
Qed.

Definition st_frames (st : astate) : list frame := fst (fst st).

Definition frames_after (c : list frame) (p : list (N * entry)) : list frame :=
  fst (fst (fold_left apply_entry p (c, [], []))).

Lemma apply_records_keeps {A} (Q : list frame -> A) C P :
  (forall n p l, Q (update_nth n (fun g => set_parent g p) l) = Q l) -> Q (apply_records C P) = Q (frames_after C P).
Proof.
  intros HQ. unfold apply_records, frames_after. destruct (fold_left apply_entry P (C, [], [])) as [[fr smap] ins].
  apply resolve_orphans_keeps, HQ.
Qed.

Fixpoint chunk_entries (first_seq parent_seq : N) (uk : option N) (tag0 : N) (i n : nat) : list (N * entry) :=
  match n with
  | O => []
  | S k => (first_seq, EInsert (chunk_uri uk i) (tag0 + N.of_nat i + 1) 1 false None None (Some parent_seq))
             :: chunk_entries (first_seq + 1) parent_seq uk tag0 (S i) k
  end.

(* `dirty` holds because the document record has been logged before the loop *)
Lemma append_chunks_eq n : forall s ps uk tag i, dirty s = true ->
  append_chunks s ps uk tag i n =
  mkStore (committed s) (pending s ++ chunk_entries (seqno s + 1) ps uk tag i n)
          (seqno s + N.of_nat n) (pending_inserts s + N.of_nat n) true.
Proof.
  induction n as [|n IH]; intros s ps uk tag i Hd; cbn [append_chunks chunk_entries].
  - destruct s as [c p sq pi d]. cbn in Hd |- *. rewrite app_nil_r, !N.add_0_r, Hd. reflexivity.
  - unfold append. cbn [is_insert]. rewrite IH by reflexivity. cbn [committed pending seqno pending_inserts].
    rewrite <- app_assoc. unfold chunk_uri. f_equal; lia.
Qed.

Lemma fold_chunks n : forall i fr smap ins first_seq ps pid uk tag0,
  assoc smap ps = Some pid -> ps < first_seq ->
  st_frames (fold_left apply_entry (chunk_entries first_seq ps uk tag0 i n) (fr, smap, ins))
  = ref_chunks fr pid uk tag0 i n.
Proof.
  induction n as [|n IH]; intros i fr smap ins first_seq ps pid uk tag0 Ha Hlt; cbn [chunk_entries fold_left ref_chunks]; [reflexivity|].
  cbn [apply_entry]. rewrite Ha.
  apply IH; [|lia].
  cbn [assoc]. replace (first_seq =? ps) with false by lia. exact Ha.
Qed.

Definition put_entries (sq : N) (uk : option N) (tag nchunks role : N) : list (N * entry) :=
  (sq, EInsert (match uk with Some k => Some (UExp k) | None => None end) tag role (0 <? nchunks) None None None)
    :: chunk_entries (sq + 1) sq uk tag 0 (N.to_nat nchunks).

Lemma fold_put st sq uk tag nchunks role :
  st_frames (fold_left apply_entry (put_entries sq uk tag nchunks role) st)
  = ref_put (st_frames st) uk tag nchunks role.
Proof.
  destruct st as [[fr smap] ins]. unfold put_entries, ref_put, st_frames at 2. cbn [fst fold_left apply_entry].
  apply fold_chunks; [|lia]. cbn [assoc]. rewrite N.eqb_refl. reflexivity.
Qed.

Definition put_logged (s : store) (uk : option N) (tag nchunks role : N) : store :=
  mkStore (committed s) (pending s ++ put_entries (seqno s + 1) uk tag nchunks role)
          (seqno s + 1 + nchunks) (pending_inserts s + 1 + nchunks) true.

Lemma sstep_put s uk tag n role auto :
  sstep s (OPut uk tag n role auto) =
  (auto_commit (put_logged s uk tag n role) auto, observe (auto_commit (put_logged s uk tag n role) auto) (Ok (seqno s + 1))).
Proof.
  cbn [sstep]. unfold append. cbn [is_insert]. rewrite append_chunks_eq by reflexivity.
  cbn [committed pending seqno pending_inserts]. rewrite N2Nat.id, <- app_assoc. reflexivity.
Qed.

Definition on_target (s : store) (t : N) (e : frame -> entry) (auto : option N) : store * sout :=
  match get (committed s) t with
  | None => (s, observe s (Err 1))
  | Some old =>
      if negb (f_status old =? 0) then (s, observe s (Err 2))
      else let s1 := auto_commit (fst (append s (e old))) auto in (s1, observe s1 (Ok (seqno s + 1)))
  end.

Definition update_record (t : N) (newtag uk : option N) (old : frame) : entry :=
  let u := match uk with Some k => UExp k | None => f_uri old end in
  match newtag with
  | Some tg => EInsert (Some u) tg (f_role old) false (Some t) None None
  | None => EInsert (Some u) (f_tag old) (f_role old) false (Some t) (Some t) None
  end.

Lemma sstep_update s t newtag uk auto :
  sstep s (OUpdate t newtag uk auto) = on_target s t (update_record t newtag uk) auto.
Proof. reflexivity. Qed.

Lemma sstep_delete s t auto : sstep s (ODelete t auto) = on_target s t (fun _ => ETomb t) auto.
Proof. reflexivity. Qed.

Lemma on_target_cases (P : store * sout -> Prop) s t e auto :
  (forall k, P (s, observe s (Err k))) ->
  (forall old, get (committed s) t = Some old -> f_status old = 0 ->
     let s1 := auto_commit (fst (append s (e old))) auto in P (s1, observe s1 (Ok (seqno s + 1)))) ->
  P (on_target s t e auto).
Proof.
  intros Hr Ha. unfold on_target. destruct (get (committed s) t) as [old|]; [|apply Hr].
  destruct (N.eqb_spec (f_status old) 0) as [Es|_]; [exact (Ha old eq_refl Es)|apply Hr].
Qed.

Lemma fold_left_frames_app p q st :
  fold_left apply_entry (p ++ q) st = fold_left apply_entry q (fold_left apply_entry p st).
Proof. apply fold_left_app. Qed.

Definition Fresh (fr : list frame) (f : frame) : Prop :=
  f_id f = len fr /\ f_status f = 0 /\ f_superseded_by f = None.

Lemma ref_chunks_closed (P : list frame -> Prop) :
  (forall fr f, P fr -> Fresh fr f -> f_parent f <> None -> P (fr ++ [f])) ->
  forall n i fr pid uk tag0, P fr -> P (ref_chunks fr pid uk tag0 i n).
Proof.
  intros Hs. induction n as [|n IH]; intros i fr pid uk tag0 H; cbn [ref_chunks]; [exact H|].
  apply IH, Hs; [exact H|repeat split|discriminate].
Qed.

Definition grows (P : list frame -> Prop) : Prop :=
  (forall fr f, P fr -> Fresh fr f -> P (fr ++ [f])) /\
  (forall fr n st by_, st <> 0 -> P fr -> P (update_nth n (fun g => set_status g st by_) fr)).

Lemma ref_step_closed (P : list frame -> Prop) : grows P -> forall fr x, P fr -> P (ref_step fr x).
Proof.
  intros [Hs Hu] fr [op o] H. unfold ref_step. destruct (negb (acked o)); [exact H|].
  destruct op; try exact H.
  - unfold ref_put. apply ref_chunks_closed; [intros; apply Hs; assumption|]. apply Hs; [exact H|repeat split].
  - unfold ref_update. destruct (get fr target); [|exact H].
    apply Hs; [apply Hu; [discriminate|exact H]|]. repeat split. cbn [f_id]. symmetry. apply len_update.
  - apply Hu; [discriminate|exact H].
Qed.

Lemma apply_entry_closed (P : list frame -> Prop) :
  grows P -> forall st se, P (st_frames st) -> P (st_frames (apply_entry st se)).
Proof.
  intros [Hs Hu] [[fr smap] ins] [seq e]. unfold st_frames. destruct e as [u tag role m sup reuse ps|t|]; cbn [apply_entry fst]; intros H.
  - apply Hs; [destruct sup; [apply Hu; [discriminate|]|]; exact H|].
    repeat split. cbn [f_id]. destruct sup; rewrite ?len_update; reflexivity.
  - apply Hu; [discriminate|exact H].
  - exact H.
Qed.

Lemma apply_records_closed (P : list frame -> Prop) :
  grows P -> (forall fr n p, P fr -> P (update_nth n (fun g => set_parent g p) fr)) ->
  forall C recs, P C -> P (apply_records C recs).
Proof.
  intros HG Hp C recs HC. unfold apply_records.
  assert (H : P (st_frames (fold_left apply_entry recs (C, [], [])))).
  { apply (fold_left_invariant _ (fun st => P (st_frames st))); [intros; apply apply_entry_closed; assumption|exact HC]. }
  destruct (fold_left apply_entry recs (C, [], [])) as [[fr sm] ins]. unfold st_frames in H. cbn [fst] in H.
  unfold resolve_orphans. apply (fold_left_invariant _ P); [|exact H].
  intros acc id Ha. destruct (get fr id); [|exact Ha]. destruct (_ && _); [|exact Ha].
  destruct (orphan_parent fr (N.to_nat id) id); [apply Hp|]; exact Ha.
Qed.

Lemma ref_chunks_parented n i fr pid uk tag0 :
  ChunksParented fr -> ChunksParented (ref_chunks fr pid uk tag0 i n).
Proof. apply ref_chunks_closed. intros fr' f H _ Hp. apply ChunksParented_snoc; auto. Qed.

Lemma ref_put_parented fr uk tag nchunks role :
  ChunksParented fr -> (role =? 1) = false -> ChunksParented (ref_put fr uk tag nchunks role).
Proof.
  intros HC Hr. unfold ref_put. apply ref_chunks_parented. apply ChunksParented_snoc; [assumption|].
  cbn. intros E. lia.
Qed.

Definition Extends (a b : list frame) : Prop :=
  (length a <= length b)%nat /\
  forall i f, nth_error a i = Some f -> exists f', nth_error b i = Some f' /\ same_identity f f'.

Lemma same_identity_refl f : same_identity f f.
Proof. repeat split. Qed.
Lemma same_identity_trans a b c : same_identity a b -> same_identity b c -> same_identity a c.
Proof. unfold same_identity. intuition congruence. Qed.

Lemma Extends_refl a : Extends a a.
Proof. split; [lia|]. intros i f Hi. exists f. split; [assumption|apply same_identity_refl]. Qed.
Lemma Extends_trans a b c : Extends a b -> Extends b c -> Extends a c.
Proof.
  intros [L1 H1] [L2 H2]. split; [lia|]. intros i f Hi.
  destruct (H1 _ _ Hi) as (f' & Hi' & S1). destruct (H2 _ _ Hi') as (f'' & Hi'' & S2).
  exists f''. split; [assumption|eapply same_identity_trans; eauto].
Qed.
Lemma Extends_snoc a f : Extends a (a ++ [f]).
Proof.
  split; [rewrite app_length; lia|]. intros i g Hi. exists g. split; [|apply same_identity_refl].
  rewrite nth_error_app1; [assumption|]. apply nth_error_Some. congruence.
Qed.
Lemma Extends_update a n st by_ : Extends a (update_nth n (fun g => set_status g st by_) a).
Proof.
  split; [rewrite update_nth_length; lia|]. intros i f Hi. rewrite nth_error_update_nth, Hi.
  destruct (Nat.eqb i n); cbn [option_map]; eexists; split; try reflexivity; [apply set_status_identity|apply same_identity_refl].
Qed.

Lemma Extends_grows a : grows (Extends a).
Proof.
  split.
  - intros fr f H _. eapply Extends_trans; [exact H|apply Extends_snoc].
  - intros fr n st by_ _ H. eapply Extends_trans; [exact H|apply Extends_update].
Qed.

Lemma ref_chunks_extends n : forall i fr pid uk tag0, Extends fr (ref_chunks fr pid uk tag0 i n).
Proof.
  intros. apply (ref_chunks_closed (Extends fr)); [|apply Extends_refl].
  intros fr' f H HF _. apply (Extends_grows fr); assumption.
Qed.

Lemma Extends_ref_step fr x : Extends fr (ref_step fr x).
Proof. apply ref_step_closed; [apply Extends_grows|apply Extends_refl]. Qed.
Lemma Extends_ref_run xs fr : Extends fr (ref_run fr xs).
Proof.
  apply (fold_left_invariant _ (Extends fr)); [|apply Extends_refl].
  intros fr' x H. eapply Extends_trans; [exact H|apply Extends_ref_step].
Qed.

Lemma ref_put_doc_frame R uk tag nchunks role :
  exists f, nth_error (ref_put R uk tag nchunks role) (length R) = Some f /\ f_id f = len R /\ f_tag f = tag /\ f_role f = role.
Proof.
  unfold ref_put.
  set (doc := new_frame R _ tag role (0 <? nchunks) None None).
  destruct (ref_chunks_extends (N.to_nat nchunks) 0 (R ++ [doc]) (len R) uk tag) as [_ HE].
  destruct (HE (length R) doc) as (f' & Hn & Hid).
  { rewrite nth_error_app2 by lia. rewrite Nat.sub_diag. reflexivity. }
  exists f'. split; [assumption|]. destruct Hid as (Iid & _ & Itag & Irole & _). rewrite <- Iid, <- Itag, <- Irole. repeat split.
Qed.

(* R is what the first pass of apply_records makes of table and log; since every chunk of R has a
   parent the second pass changes nothing, so R is the view (J_view) *)
Definition J (s : store) (R : list frame) : Prop :=
  frames_after (committed s) (pending s) = R /\ ChunksParented R.

Lemma J_view s R : J s R -> view s = R.
Proof.
  intros [HF HC]. unfold view, apply_records. unfold frames_after in HF.
  destruct (fold_left apply_entry (pending s) (committed s, [], [])) as [[fr smap] ins]. cbn [fst] in HF. subst fr.
  apply resolve_orphans_id. exact HC.
Qed.

Lemma J_commit s R extra : J s R -> J (do_commit s extra) R.
Proof.
  intros HJ. pose proof (J_view s R HJ) as HV. destruct HJ as [HF HC].
  unfold do_commit, J, frames_after. cbn [committed pending fold_left fst]. rewrite HV. split; [reflexivity|assumption].
Qed.

Lemma J_frame s s' R : committed s' = committed s -> pending s' = pending s -> J s R -> J s' R.
Proof. unfold J. intros -> ->. auto. Qed.

Lemma J_bump s R extra : J s R -> J (bump s extra) R.
Proof. apply J_frame; reflexivity. Qed.

Lemma J_auto s R auto : J s R -> J (auto_commit s auto) R.
Proof. intros HJ. destruct auto; cbn [auto_commit]; [apply J_commit|]; assumption. Qed.

Lemma J_committed_extends s R : J s R -> Extends (committed s) R.
Proof.
  intros [HF _]. rewrite <- HF. apply (fold_left_invariant _ (fun st => Extends (committed s) (st_frames st))); [|apply Extends_refl].
  intros st se. apply apply_entry_closed, Extends_grows.
Qed.

(* records appended to the log act on the exposed frames R, provided their effect does not depend
   on the rest of the replay state (sequence map, ids inserted so far) *)
Lemma J_queue s R s1 es R' :
  J s R -> committed s1 = committed s -> pending s1 = pending s ++ es ->
  (forall smap ins, st_frames (fold_left apply_entry es (R, smap, ins)) = R') -> ChunksParented R' ->
  J s1 R'.
Proof.
  intros [HF _] C P HA HC. split; [|exact HC]. unfold frames_after in *. rewrite C, P, fold_left_app.
  destruct (fold_left apply_entry (pending s) (committed s, [], [])) as [[fr smap] ins]. cbn [fst] in HF. subst fr.
  apply HA.
Qed.

(* records that change no frame: the lex-batch records a commit or a bulk finalize logs *)
Definition lex_only (recs : list (N * entry)) : Prop := forall se, In se recs -> snd se = ELex.

Lemma fold_lex_only p : forall st, lex_only p -> fold_left apply_entry p st = st.
Proof.
  induction p as [|[sq e] p IH]; intros st H; cbn [fold_left]; [reflexivity|].
  rewrite (H (sq, e) (or_introl eq_refl) : e = ELex). destruct st as [[fr sm] ins]. cbn [apply_entry].
  apply IH. intros se Hse. apply H. right. exact Hse.
Qed.

Lemma view_lex_only b : lex_only (pending b) -> view b = committed b.
Proof. intros H. unfold view, apply_records. rewrite (fold_lex_only _ _ H). reflexivity. Qed.
Lemma quiescent_committed s : pending s = [] -> view s = committed s.
Proof. intros Hp. apply view_lex_only. rewrite Hp. intros se []. Qed.

Lemma lex_recs_lex_only n : forall a, lex_only (lex_recs a n).
Proof. induction n as [|n IH]; intros a se; cbn [lex_recs In]; [intros []|intros [<-|H]; [reflexivity|exact (IH _ _ H)]]. Qed.

Lemma J_lex_append s s1 R es :
  J s R -> committed s1 = committed s -> pending s1 = pending s ++ es -> lex_only es -> J s1 R.
Proof.
  intros HJ C P H. apply (J_queue s R s1 es R HJ C P); [|exact (proj2 HJ)].
  intros smap ins. rewrite (fold_lex_only _ _ H). reflexivity.
Qed.

Definition reseq (s : store) (q : N) : store := mkStore (committed s) (pending s) q (pending_inserts s) (dirty s).

Lemma sstep_reopen s e : sstep s (OReopen e) = sstep s (OCommit e).
Proof.
  destruct s as [c [|r p] sq pi []]; try reflexivity.
  (* clean with records pending: drop moves the sequence by e, open replays and moves it by 0 *)
  cbn [sstep dirty pending bump]. unfold do_commit, view. cbn [committed pending seqno]. rewrite N.add_0_r. reflexivity.
Qed.

Lemma sstep_crash s e : sstep s (OCrash e) = (do_commit s e, observe (do_commit s e) (Ok 0)).
Proof. destruct s as [c [|r p] sq pi d]; reflexivity. Qed.

Lemma sstep_doctor s q :
  sstep s (ODoctor q) = (reseq (fst (sstep s (OCommit 0))) q, observe (reseq (fst (sstep s (OCommit 0))) q) (Ok 0)).
Proof. destruct s as [c [|r p] sq pi []]; reflexivity. Qed.

Lemma settle_closed (P : store -> Prop) s e : P (do_commit s e) -> P (bump s e) -> P (fst (sstep s (OCommit e))).
Proof. intros Hc Hb. cbn [sstep fst]. destruct (pending s); [destruct (dirty s)|]; assumption. Qed.

Lemma J_settle s R e : J s R -> J (fst (sstep s (OCommit e))) R.
Proof. intros HJ. apply settle_closed; [apply J_commit|apply J_bump]; exact HJ. Qed.

(* side condition of the theorem: an update never targets a DocumentChunk frame *)
Definition ref_ok (frames : list frame) (x : sop * sout) : bool :=
  let '(op, o) := x in
  op_ok op &&
  match op with
  | OUpdate target _ _ _ => if acked o then match get frames target with Some old => negb (f_role old =? 1) | None => true end else true
  | _ => true
  end.

(* where the call is rejected or is none of put / update / delete, ref_step R (op, o) computes to R *)
Lemma sstep_refines s R op :
  J s R ->
  let '(s1, o) := sstep s op in
  ref_ok R (op, o) = true -> J s1 (ref_step R (op, o)).
Proof.
  intros HJ. pose proof HJ as [_ HC].
  destruct op as [uk tag nchunks role auto|target newtag uk auto|target auto|extra|extra|extra|newseq].
  - rewrite sstep_put. cbn [ref_ok ref_step op_ok acked observe fst negb].
    intros Hok. rewrite andb_true_r in Hok. apply negb_true_iff in Hok.
    apply J_auto. apply (J_queue s R (put_logged s uk tag nchunks role) (put_entries (seqno s + 1) uk tag nchunks role) _ HJ eq_refl eq_refl).
    + intros smap ins. apply (fold_put (R, smap, ins)).
    + apply ref_put_parented; assumption.
  - rewrite sstep_update. apply on_target_cases; [intros k _; exact HJ|]. intros old Eg _.
    unfold append, update_record. cbn [ref_ok ref_step op_ok acked observe fst negb andb].
    (* the committed frame is still exposed, with the same uri, tag and role *)
    destruct (J_committed_extends s R HJ) as [_ HE]. destruct (HE _ _ Eg) as (old' & Eg' & _ & Iuri & Itag & Irole & _).
    unfold ref_update, get. rewrite Eg'. intros Hrole. apply negb_true_iff in Hrole.
    apply J_auto. eapply J_queue; [exact HJ|reflexivity|reflexivity| |].
    + intros smap ins. rewrite Iuri, Itag, Irole. destruct newtag; unfold st_frames; cbn [fold_left apply_entry fst]; unfold get; rewrite ?Eg'; reflexivity.
    + apply ChunksParented_snoc; [apply ChunksParented_update; assumption|].
      cbn [f_role]. intros E. rewrite <- Irole in E. lia.
  - rewrite sstep_delete. apply on_target_cases; [intros k _; exact HJ|]. intros old _ _.
    unfold append. intros _. apply J_auto. eapply J_queue; [exact HJ|reflexivity|reflexivity| |].
    + intros smap ins. reflexivity.
    + apply ChunksParented_update. assumption.
  - intros _. apply J_settle, HJ.
  - rewrite sstep_reopen. intros _. apply J_settle, HJ.
  - rewrite sstep_crash. intros _. apply J_commit, HJ.
  - (* J does not read the log sequence *)
    rewrite sstep_doctor. intros _. apply (J_frame (fst (sstep s (OCommit 0)))); [reflexivity|reflexivity|apply J_settle, HJ].
Qed.

Lemma sstep_put_J s R uk tag n auto : J s R -> J (fst (sstep s (OPut uk tag n 0 auto))) (ref_put R uk tag n 0).
Proof.
  intros HJ. pose proof (sstep_refines s R (OPut uk tag n 0 auto) HJ) as HS. rewrite sstep_put in *. exact (HS eq_refl).
Qed.

Fixpoint run_ok (R : list frame) (xs : list (sop * sout)) : bool :=
  match xs with
  | [] => true
  | x :: r => ref_ok R x && run_ok (ref_step R x) r
  end.

Theorem srun_refines : forall ops s R,
  J s R ->
  run_ok R (combine ops (snd (srun s ops))) = true ->
  J (fst (srun s ops)) (ref_run R (combine ops (snd (srun s ops)))).
Proof.
  induction ops as [|op ops IH]; intros s R HJ Hok; cbn [srun]; [exact HJ|].
  pose proof (sstep_refines s R op HJ) as HS.
  cbn [srun] in Hok.
  destruct (sstep s op) as [s1 o]. destruct (srun s1 ops) as [s2 os] eqn:Er.
  cbn [fst snd combine run_ok ref_run fold_left] in *.
  apply andb_true_iff in Hok as [H1 H2].
  specialize (HS H1). specialize (IH s1 _ HS). rewrite Er in IH. cbn [fst snd] in IH. apply IH. exact H2.
Qed.

Lemma J_store0 : J store0 [].
Proof. split; [reflexivity|]. intros i f Hi. destruct i; discriminate. Qed.

Theorem store_view_is_reference ops :
  run_ok [] (combine ops (snd (srun store0 ops))) = true ->
  view (fst (srun store0 ops)) = ref_run [] (combine ops (snd (srun store0 ops))).
Proof. intros Hok. apply J_view. apply srun_refines; [apply J_store0|assumption]. Qed.

Lemma Dense_snoc fr f : Dense fr -> f_id f = len fr -> Dense (fr ++ [f]).
Proof.
  intros HD Hf i g Hi. apply nth_error_snoc in Hi as [Hi|[-> ->]]; [exact (HD _ _ Hi)|exact Hf].
Qed.
Lemma Dense_update_nth fr n g : (forall f, f_id (g f) = f_id f) -> Dense fr -> Dense (update_nth n g fr).
Proof.
  intros Hg HD i f Hi. rewrite nth_error_update_nth in Hi. destruct (Nat.eqb i n); [|apply HD; assumption].
  destruct (nth_error fr i) as [f0|] eqn:Eg; [|discriminate]. injection Hi as <-. rewrite Hg. apply (HD _ _ Eg).
Qed.
Lemma Dense_update fr n st by_ : Dense fr -> Dense (update_nth n (fun g => set_status g st by_) fr).
Proof. apply Dense_update_nth. intros f. destruct f; reflexivity. Qed.
Lemma Dense_grows : grows Dense.
Proof. split; [intros fr f H [Hid _]; apply Dense_snoc; assumption|intros fr n st by_ _; apply Dense_update]. Qed.
Lemma Dense_ref_chunks n : forall i fr pid uk tag0, Dense fr -> Dense (ref_chunks fr pid uk tag0 i n).
Proof. intros i fr pid uk tag0. apply ref_chunks_closed. intros fr' f H HF _. apply Dense_grows; assumption. Qed.
Lemma Dense_nil : Dense [].
Proof. intros i f Hi. destruct i; discriminate. Qed.

Lemma Dense_view s : Dense (committed s) -> Dense (view s).
Proof.
  apply apply_records_closed; [apply Dense_grows|].
  intros fr n p. apply Dense_update_nth. intros g. destruct g; reflexivity.
Qed.

Definition count_ins (p : list (N * entry)) : N :=
  fold_right (fun se a => if is_insert (snd se) then 1 + a else a) 0 p.

Lemma count_ins_cons x p : count_ins (x :: p) = (if is_insert (snd x) then 1 else 0) + count_ins p.
Proof. unfold count_ins. cbn [fold_right]. destruct (is_insert (snd x)); lia. Qed.
Lemma count_ins_nil : count_ins [] = 0.
Proof. reflexivity. Qed.

Lemma count_ins_app p q : count_ins (p ++ q) = count_ins p + count_ins q.
Proof. induction p as [|x p IH]; [rewrite count_ins_nil; cbn [app]; lia|]. rewrite <- app_comm_cons, !count_ins_cons, IH. lia. Qed.

Lemma apply_entry_len st se :
  len (st_frames (apply_entry st se)) = len (st_frames st) + (if is_insert (snd se) then 1 else 0).
Proof.
  destruct st as [[fr smap] ins], se as [seq e]. unfold st_frames. destruct e as [u tag role m sup reuse ps|t|]; cbn [apply_entry fst snd is_insert].
  - destruct sup; rewrite len_app, ?len_update; change (len [_]) with 1; lia.
  - rewrite len_update. lia.
  - lia.
Qed.
Lemma fold_len p : forall st, len (st_frames (fold_left apply_entry p st)) = len (st_frames st) + count_ins p.
Proof.
  induction p as [|se p IH]; intros st; cbn [fold_left]; [rewrite count_ins_nil; lia|].
  rewrite IH, apply_entry_len, count_ins_cons. lia.
Qed.

Lemma apply_records_len C P : len (apply_records C P) = len C + count_ins P.
Proof. rewrite (apply_records_keeps len) by (intros; apply len_update). apply (fold_len P (C, [], [])). Qed.

Lemma len_view s : len (view s) = len (committed s) + count_ins (pending s).
Proof. apply apply_records_len. Qed.

Definition K (s : store) : Prop := pending_inserts s = count_ins (pending s).

Lemma K_append s e : K s -> K (fst (append s e)).
Proof.
  intros HK. unfold K, append in *. cbn [fst pending pending_inserts]. rewrite count_ins_app, HK.
  rewrite count_ins_cons, count_ins_nil. cbn [snd]. destruct (is_insert e); lia.
Qed.
Lemma K_store0 : K store0.
Proof. reflexivity. Qed.

Lemma sstep_closed (P : store -> Prop) s op :
  (forall s0 e, P s0 -> P (fst (append s0 e))) ->
  (forall s0 e, P s0 -> P (do_commit s0 e)) ->
  (forall s0 e, P s0 -> P (bump s0 e)) ->
  (forall s0 q, op = ODoctor q -> P s0 -> P (reseq s0 q)) ->
  P s -> P (fst (sstep s op)).
Proof.
  intros Ha Hc Hb Hd HP.
  assert (Hauto : forall s0 a, P s0 -> P (auto_commit s0 a)) by (intros s0 [e|] H0; cbn [auto_commit]; [apply Hc, H0|exact H0]).
  assert (Hch : forall n s0 ps uk tag i, P s0 -> P (append_chunks s0 ps uk tag i n)).
  { induction n as [|n IH]; intros s0 ps uk tag i H0; cbn [append_chunks]; [exact H0|]. unfold append. apply IH. exact (Ha s0 _ H0). }
  assert (Hsettle : forall e, P (fst (sstep s (OCommit e)))) by (intros e; apply settle_closed; [apply Hc|apply Hb]; exact HP).
  destruct op as [uk tag nchunks role auto|target newtag uk auto|target auto|extra|extra|extra|newseq].
  - cbn [sstep]. unfold append at 1. cbn [fst]. apply Hauto, Hch. exact (Ha s _ HP).
  - rewrite sstep_update. apply on_target_cases; [intros k; exact HP|]. intros old _ _. apply Hauto, Ha, HP.
  - rewrite sstep_delete. apply on_target_cases; [intros k; exact HP|]. intros old _ _. apply Hauto, Ha, HP.
  - apply Hsettle.
  - rewrite sstep_reopen. apply Hsettle.
  - rewrite sstep_crash. apply Hc, HP.
  - rewrite sstep_doctor. apply (Hd _ newseq eq_refl), Hsettle.
Qed.

Lemma sstep_K s op : K s -> K (fst (sstep s op)).
Proof.
  apply sstep_closed.
  - intros s0 e H. apply K_append, H.
  - reflexivity. (* after a commit both sides are 0 *)
  - intros s0 e H. exact H.
  - intros s0 q _ H. exact H.
Qed.

Lemma next_frame_id_is_view_length s R : J s R -> K s -> next_frame_id s = len R.
Proof. intros HJ HK. rewrite <- (J_view s R HJ), len_view. unfold next_frame_id. rewrite HK. reflexivity. Qed.

Lemma srun_invariant (P : store -> Prop) :
  (forall s op, P s -> P (fst (sstep s op))) -> forall ops s, P s -> P (fst (srun s ops)).
Proof.
  intros Hstep. induction ops as [|op ops IH]; intros s H; cbn [srun]; [exact H|].
  specialize (Hstep s op H). destruct (sstep s op) as [s1 o]. specialize (IH s1 Hstep). destruct (srun s1 ops). exact IH.
Qed.

Lemma Dense_committed_srun ops s : Dense (committed s) -> Dense (committed (fst (srun s ops))).
Proof.
  apply (srun_invariant (fun s => Dense (committed s))). intros s0 op.
  apply (sstep_closed (fun s => Dense (committed s))).
  - intros s1 e H. exact H.
  - intros s1 e H. apply Dense_view, H.
  - intros s1 e H. exact H.
  - intros s1 q _ H. exact H.
Qed.

(* in every history: the reference model is not involved, and the run_ok of C06's statement is not needed *)
Theorem ids_dense_and_predicted ops :
  let s := fst (srun store0 ops) in Dense (view s) /\ next_frame_id s = len (view s).
Proof.
  intros s. split.
  - apply Dense_view, Dense_committed_srun, Dense_nil.
  - rewrite len_view. unfold next_frame_id. rewrite (srun_invariant K sstep_K ops store0 K_store0 : K s). reflexivity.
Qed.

Theorem reachable_facts ops :
  let s := fst (srun store0 ops) in
  let xs := combine ops (snd (srun store0 ops)) in
  run_ok [] xs = true ->
  view s = ref_run [] xs /\ (pending s = [] -> committed s = ref_run [] xs).
Proof.
  intros s xs Hok.
  pose proof (J_view _ _ (srun_refines ops store0 [] J_store0 Hok)) as HV. fold s xs in HV.
  split; [exact HV|]. intros Hp. rewrite <- (quiescent_committed s Hp). exact HV.
Qed.

Lemma ref_run_app fr xs ys : ref_run fr (xs ++ ys) = ref_run (ref_run fr xs) ys.
Proof. apply fold_left_app. Qed.

Lemma run_ok_app xs : forall R ys, run_ok R (xs ++ ys) = run_ok R xs && run_ok (ref_run R xs) ys.
Proof.
  induction xs as [|x xs IH]; intros R ys; cbn [app run_ok ref_run fold_left]; [reflexivity|].
  rewrite IH. unfold ref_run. rewrite andb_assoc. reflexivity.
Qed.

Lemma next_frame_id_append s e : next_frame_id (fst (append s e)) = next_frame_id s + (if is_insert e then 1 else 0).
Proof. unfold next_frame_id, append. cbn [fst committed pending_inserts]. destruct (is_insert e); lia. Qed.
