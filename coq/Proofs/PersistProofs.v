(* C28 (Model/Persist.v): the handle built from the file image is the handle that stayed in memory
   (popen_live).  A step keeps the invariant PInv and its live part is the step of Model/Reads.v (pstep_refines; a
   mutating call through ReadsProofs.rstep_mut, since pstep performs the call without checkpoint,
   then the checkpoint).  Under PInv and Quiet (nothing pending, nothing changed) the four handles
   are one and the same record, hence give the same answers (same_answers).  The sketch track
   survives write + read iff its ids are dense (sk_roundtrip_iff). *)
From MV Require Import Base.Prelude Base.Facts Model.Store Model.Reads Proofs.ReadsProofs Model.Persist.
Local Open Scope N_scope.

Lemma combine_fst_snd {A B} (l : list (A * B)) : combine (map fst l) (map snd l) = l.
Proof. induction l as [|[a b] l IH]; cbn [map combine fst snd]; [reflexivity|]. rewrite IH. reflexivity. Qed.

Lemma written_read w : sk_written (sk_read w) = w.
Proof. apply combine_map_snd, ids_from_length. Qed.

Lemma read_ids w : map fst (sk_read w) = ids_from 0 (length w).
Proof. apply combine_map_fst, ids_from_length. Qed.

(* the track survives write + read exactly when its ids are 0,1,2,.. (F-C39-1 at this level) *)
Theorem sk_roundtrip_iff t : sk_read (sk_written t) = t <-> sk_dense t = true.
Proof.
  unfold sk_dense. rewrite (list_eqb_spec N.eqb N.eqb_eq). split; intros H.
  - rewrite <- H at 1. rewrite read_ids. unfold sk_written. rewrite map_length. reflexivity.
  - unfold sk_read, sk_written. rewrite map_length, <- H. apply combine_fst_snd.
Qed.

Lemma read_dense w : sk_dense (sk_read w) = true.
Proof. apply sk_roundtrip_iff. rewrite written_read. reflexivity. Qed.

Lemma put_committed b uk tag n : committed (fst (sstep b (OPut uk tag n 0 None))) = committed b.
Proof. exact (proj1 (put_queued b uk tag n 0)). Qed.

(* Clauses: 1 the index invariant of C08; 2 the documents of instant-indexed puts live in `temps`, not in the
   engine; 3 vec_enabled as Memvid::open would compute it; 5, 6 what a full rebuild from the table gives, so
   init_tantivy's rebuild branch and doctor reproduce them; 8 nothing below rests on it (where init_tantivy
   rebuilds, clause 5 says what the rebuild gives). *)
Definition PInv (p : pstore) : Prop :=
  let r := live p in let b := base r in let d := dk p in
  IxInv r /\
  tdirty r = false /\
  (dirty b = false -> vec_on r = vec_disk r || has_pemb (pattrs r)) /\
  (delta_nonempty (pending b) = false -> pattrs r = [] /\ temps p = []) /\
  lex r = lex_full (committed b) (attrs r) /\
  tix r = tix_full (committed b) /\
  (k_lex d = lex r /\ k_vec d = vec r /\ k_vec_on d = vec_disk r /\ k_tix d = tix r /\ k_sk d = sk_written (sk p)) /\
  (k_segs d = false -> committed b = []) /\
  Forall (fun t => len (committed b) <= t) (temps p) /\
  (delta_nonempty (pending b) = false -> psk p = []) /\
  (vec_on r = false -> vec r = []) /\ (vec_disk r = false -> vec r = []).

Lemma PInv0 : PInv pstore0.
Proof.
  unfold PInv. cbn. split; [exact IxInv0|]. repeat split; auto.
Qed.

Lemma PInv_ix p : PInv p -> IxInv (live p).
Proof. intros (H & _). exact H. Qed.

Lemma PInv_clean p : PInv p -> tdirty (live p) = false.
Proof. intros (_ & H & _). exact H. Qed.

Lemma PInv_vec_on p :
  PInv p -> dirty (base (live p)) = false -> vec_on (live p) = vec_disk (live p) || has_pemb (pattrs (live p)).
Proof. intros (_ & _ & H & _). exact H. Qed.

Lemma PInv_nothing_queued p :
  PInv p -> delta_nonempty (pending (base (live p))) = false -> pattrs (live p) = [] /\ temps p = [].
Proof. intros (_ & _ & _ & H & _). exact H. Qed.

Lemma PInv_lex p : PInv p -> lex (live p) = lex_full (committed (base (live p))) (attrs (live p)).
Proof. intros (_ & _ & _ & _ & H & _). exact H. Qed.

Lemma PInv_tix p : PInv p -> tix (live p) = tix_full (committed (base (live p))).
Proof. intros (_ & _ & _ & _ & _ & H & _). exact H. Qed.

Lemma PInv_image p :
  PInv p ->
  k_lex (dk p) = lex (live p) /\ k_vec (dk p) = vec (live p) /\ k_vec_on (dk p) = vec_disk (live p) /\
  k_tix (dk p) = tix (live p) /\ k_sk (dk p) = sk_written (sk p).
Proof. intros (_ & _ & _ & _ & _ & _ & H & _). exact H. Qed.

Lemma PInv_temps_above p : PInv p -> Forall (fun t => len (committed (base (live p))) <= t) (temps p).
Proof. intros (_ & _ & _ & _ & _ & _ & _ & _ & H & _). exact H. Qed.

Lemma PInv_vec_off p : PInv p -> vec_on (live p) = false -> vec (live p) = [].
Proof. intros (_ & _ & _ & _ & _ & _ & _ & _ & _ & _ & H & _). exact H. Qed.

(* of the store PInv reads the table, the log and (clause 3) the dirty flag: bump and the counter reset after a
   crash keep it *)
Lemma PInv_set_base p b' :
  committed b' = committed (base (live p)) -> pending b' = pending (base (live p)) ->
  (dirty b' = false -> vec_on (live p) = vec_disk (live p) || has_pemb (pattrs (live p))) ->
  PInv p -> PInv (set_live p (set_base (live p) b')).
Proof.
  intros C P Hd (HI & Htd & _ & H).
  unfold PInv, set_live, set_base. cbn [live temps sk psk dk base attrs pattrs lex tdirty vec vec_on vec_disk tix].
  rewrite C, P.
  split; [apply (IxInv_frame (live p)); [exact C|exact P|reflexivity..|exact HI]|].
  split; [exact Htd|]. split; [exact Hd|exact H].
Qed.

Lemma PInv_bump p extra : PInv p -> PInv (set_live p (set_base (live p) (bump (base (live p)) extra))).
Proof. intros HP. apply PInv_set_base; [reflexivity|reflexivity|exact (PInv_vec_on p HP)|exact HP]. Qed.

Lemma PInv_queued p r1 tmp ps :
  PInv p -> Queues (live p) r1 -> lex r1 = lex (live p) -> tdirty r1 = tdirty (live p) ->
  Forall (fun t => len (committed (base (live p))) <= t) tmp ->
  PInv (mkP r1 tmp (sk p) ps (dk p)).
Proof.
  intros HP HQ Elx Etd Htmp. pose proof (IxInv_queued _ _ (PInv_ix p HP) HQ) as HI1.
  destruct HP as (_ & Htd & _ & _ & Hlex & Htix & HK & Hseg & _ & _ & Hv1 & Hv2).
  destruct HQ as (b1 & pa & lx & td & von & -> & (C & D & N & _) & Hvon & _). cbn [lex tdirty] in Elx, Etd. subst lx td.
  unfold PInv. cbn [live temps sk psk dk base attrs pattrs lex tdirty vec vec_on vec_disk tix]. rewrite C, D, N.
  split; [exact HI1|].
  split; [exact Htd|].
  split; [discriminate|].
  split; [discriminate|].
  split; [exact Hlex|]. split; [exact Htix|]. split; [exact HK|].
  split; [exact Hseg|]. split; [exact Htmp|].
  split; [discriminate|].
  split; [intros H; apply Hv1, Hvon, H|exact Hv2].
Qed.

Lemma init_tantivy_agree {d frames al lx} :
  k_lex d = lx -> lx = lex_full frames al -> fst (init_tantivy d frames al) = lx.
Proof.
  intros H1 H2. unfold init_tantivy. destruct (k_segs d) eqn:Es; [exact H1|].
  destruct ((0 <? k_count d) && (k_count d =? N.of_nat (length (k_lex d)))); cbn [fst]; [exact H1|].
  symmetry. exact H2.
Qed.

Lemma PInv_engine_loaded p :
  PInv p -> fst (init_tantivy (dk p) (committed (base (live p))) (attrs (live p))) = lex (live p).
Proof.
  intros HP. destruct (PInv_image p HP) as (K1 & _).
  exact (init_tantivy_agree K1 (PInv_lex p HP)).
Qed.

Lemma psync_live p e : live (psync p e) = sync (live p) e.
Proof. reflexivity. Qed.

Lemma PInv_psync p e : PInv p -> PInv (psync p e).
Proof.
  intros (HI & Htd & Hvd & Hpa & Hlex & Htix & (K1 & K2 & K3 & K4 & K5) & Hseg & Htmp & Hpsk & Hv1 & Hv2).
  pose proof (sync_inv (live p) e HI) as HI'.
  unfold PInv, psync, persist_sync. cbn [live temps sk psk dk].
  destruct (delta_nonempty (pending (base (live p)))) eqn:Ed.
  - (* rebuild_indexes: sets and image are written together *)
    rewrite (sync_delta _ e Ed) in *.
    cbn [base attrs pattrs lex tdirty vec vec_on vec_disk tix do_commit committed pending dirty has_pemb existsb
         k_lex k_vec k_vec_on k_tix k_sk k_segs].
    rewrite orb_false_r. split; [exact HI'|].
    split; [reflexivity|]. split; [reflexivity|]. split; [split; reflexivity|].
    split; [reflexivity|]. split; [reflexivity|].
    split; [repeat split; reflexivity|].
    split; [discriminate|]. split; [constructor|]. split; [reflexivity|].
    (* sync builds the index as `if vec_on then .. else []` and persists vec_on as the manifest flag *)
    split; intros H; rewrite H; reflexivity.
  - (* only lex records: table, sets and image stay, and nothing was queued (Hpa) *)
    destruct (Hpa eq_refl) as [Hp Ht].
    rewrite (sync_nodelta _ e Ed) in *. rewrite Htd.
    cbn [base attrs pattrs lex tdirty vec vec_on vec_disk tix do_commit committed pending dirty has_pemb existsb
         k_lex k_vec k_vec_on k_tix k_sk k_segs].
    rewrite (view_no_frame_records _ Ed), Hp, app_nil_r, orb_false_r in *.
    split; [exact HI'|]. split; [reflexivity|]. split; [reflexivity|]. split; [split; [reflexivity|exact Ht]|].
    split; [exact Hlex|]. split; [exact Htix|].
    (* the image keeps lex, vec and tix; the manifest flag and the sketch track are rewritten *)
    split; [exact (conj K1 (conj K2 (conj eq_refl (conj K4 eq_refl))))|].
    split; [exact Hseg|]. split; [exact Htmp|]. split; [reflexivity|]. split; exact Hv1.
Qed.

(* Memvid::open with the let-bound pair of init_tantivy projected *)
Lemma popen_eq p :
  popen p =
    let r := live p in
    let d := dk p in
    let it := init_tantivy d (committed (base r)) (attrs r) in
    mkP (mkR (base r) (attrs r) (pattrs r) (fst it) false (k_vec d) (k_vec_on d || has_pemb (pattrs r)) (k_vec_on d) (k_tix d))
        [] (sk_read (k_sk d)) (psk p)
        match pending (base r) with [] => if snd it then flush d (fst it) else d | _ => d end.
Proof. unfold popen. destruct (init_tantivy _ _ _). reflexivity. Qed.

(* the right-hand side is the state RCrash starts from *)
Lemma popen_live p :
  PInv p ->
  live (popen p) = mkR (base (live p)) (attrs (live p)) (pattrs (live p)) (lex (live p)) (tdirty (live p))
                       (vec (live p)) (vec_disk (live p) || has_pemb (pattrs (live p))) (vec_disk (live p)) (tix (live p)).
Proof.
  intros HP. destruct (PInv_image p HP) as (_ & K2 & K3 & K4 & _).
  rewrite popen_eq. cbn [live]. rewrite (PInv_engine_loaded p HP), K2, K3, K4, (PInv_clean p HP). reflexivity.
Qed.

Lemma popen_live_clean p : PInv p -> dirty (base (live p)) = false -> live (popen p) = live p.
Proof.
  intros HP Hd. rewrite (popen_live p HP), <- (PInv_vec_on p HP Hd). destruct (live p). reflexivity.
Qed.

Lemma PInv_popen p : PInv p -> PInv (popen p).
Proof.
  intros HP. pose proof (popen_live p HP) as HL.
  destruct HP as (HI & Htd & Hvd & Hpa & Hlex & Htix & (K1 & K2 & K3 & K4 & K5) & Hseg & Htmp & Hpsk & Hv1 & Hv2).
  unfold PInv. rewrite HL. rewrite popen_eq.
  cbn [live temps sk psk dk base attrs pattrs lex tdirty vec vec_on vec_disk tix].
  rewrite (init_tantivy_agree K1 Hlex), written_read.
  split; [apply (IxInv_frame (live p)); [reflexivity..|exact HI]|].
  split; [exact Htd|]. split; [reflexivity|]. split; [intros H; split; [apply (Hpa H)|reflexivity]|].
  split; [exact Hlex|]. split; [exact Htix|].
  split.
  { (* recover_wal flushes a rebuilt engine: segments appear, the documents stay *)
    destruct (pending _); [destruct (snd _)|]; cbn [flush k_lex k_vec k_vec_on k_tix k_sk].
    - exact (conj eq_refl (conj K2 (conj K3 (conj K4 eq_refl)))).
    - exact (conj K1 (conj K2 (conj K3 (conj K4 eq_refl)))).
    - exact (conj K1 (conj K2 (conj K3 (conj K4 eq_refl)))). }
  split.
  { destruct (pending _); [destruct (snd _)|]; cbn [flush k_segs].
    - discriminate.
    - exact Hseg.
    - exact Hseg. }
  split; [constructor|]. split; [exact Hpsk|]. split; [|exact Hv2].
  intros H. apply orb_false_iff in H as [H _]. exact (Hv2 H).
Qed.

Lemma strip_keeps op : is_mut (strip op) = is_mut op /\ auto_of (strip op) = auto_of op /\ strip (strip op) = strip op.
Proof. destruct op; repeat split. Qed.

Lemma output_of_live p' r' (res : outcome N) :
  live p' = r' -> observe (base (live p')) res = observe (base r') res.
Proof. intros <-. reflexivity. Qed.

(* rop_of strips instant_index: it lives in `temps` *)
Theorem pstep_refines p x :
  PInv p ->
  PInv (fst (pstep p x)) /\
  live (fst (pstep p x)) = fst (rstep (live p) (rop_of x)) /\
  snd (pstep p x) = snd (rstep (live p) (rop_of x)).
Proof.
  intros HP. destruct x as [op bits|extra|extra|extra]; cbn [pstep rop_of].
  - destruct (is_mut op) eqn:Hm; [|split; [exact HP|split; reflexivity]].
    destruct (strip_keeps op) as (Hm' & Ha & Hs). rewrite <- Hm' in Hm.
    (* the call of Model/Reads.v is the call without checkpoint, then the checkpoint: pstep's order *)
    pose proof (rstep_mut (live p) (strip op) Hm) as H. rewrite Ha in H.
    destruct (rstep (live p) (no_auto (strip op))) as [r1 o1]. destruct H as [-> H].
    destruct (acked o1); [|split; [exact HP|split; reflexivity]].
    destruct (H eq_refl) as [HQ Hlx]. destruct (Hlx Hs) as [Elx Etd].
    set (tmp := if instant_of op then _ else _).
    assert (HP1 : PInv (mkP r1 tmp (sk p) (psk p ++ bits) (dk p))).
    { apply PInv_queued; [exact HP|exact HQ|exact Elx|exact Etd|].
      (* put_internal reads next_frame_id before the append *)
      pose proof (PInv_temps_above p HP) as Ht. subst tmp. destruct (instant_of op); [|exact Ht].
      apply Forall_app. split; [exact Ht|]. repeat constructor. unfold next_frame_id. lia. }
    destruct (auto_of op) as [e1|]; cbn [fst snd].
    + split; [apply PInv_psync, HP1|]. split; reflexivity.
    + split; [exact HP1|]. split; reflexivity.
  - (* commit *)
    cbn [rstep fst snd].
    destruct (pending (base (live p))) eqn:Ep; [destruct (dirty (base (live p))) eqn:Ed|].
    + split; [apply PInv_psync, HP|]. split; reflexivity.
    + (* nothing to commit: the log sequence moves *)
      split; [apply PInv_bump, HP|]. split; reflexivity.
    + split; [apply PInv_psync, HP|]. split; reflexivity.
  - (* reopen: drop leaves a committed handle, which open reads back unchanged *)
    cbn [rstep fst snd].
    set (p1 := if dirty (base (live p)) then psync p extra else _).
    assert (H1 : PInv p1 /\ dirty (base (live p1)) = false /\
                 live p1 = if dirty (base (live p)) then sync (live p) extra else set_base (live p) (bump (base (live p)) extra)).
    { subst p1. destruct (dirty (base (live p))) eqn:Ed.
      - split; [apply PInv_psync, HP|]. split; [rewrite psync_live, sync_base; reflexivity|reflexivity].
      - split; [apply PInv_bump, HP|split; [exact Ed|reflexivity]]. }
    destruct H1 as (HP1 & Hd1 & <-). pose proof (PInv_popen p1 HP1) as HP2.
    pose proof (popen_live_clean p1 HP1 Hd1) as HL. rewrite HL.
    destruct (pending (base (live p1))).
    + split; [exact HP2|]. split; [exact HL|apply output_of_live, HL].
    + (* open replays what drop left in the log *)
      assert (HL2 : live (psync (popen p1) 0) = sync (live p1) 0) by (rewrite psync_live, HL; reflexivity).
      split; [apply PInv_psync, HP2|]. split; [exact HL2|apply output_of_live, HL2].
  - (* crash + replay: open builds the state RCrash starts from *)
    cbn [rstep fst snd].
    pose proof (popen_live p HP) as HL. pose proof (PInv_popen p HP) as HP2.
    destruct (pending (base (live p))) eqn:Ep.
    + (* empty log: the counters are reset; p3, r3 are the two states after the reset *)
      match goal with |- PInv ?p3 /\ live ?p3 = ?r3 /\ _ =>
        assert (HL3 : live p3 = r3) by (cbn [set_live live]; rewrite HL; reflexivity) end.
      split; [|split; [exact HL3|apply output_of_live, HL3]].
      apply PInv_set_base; [rewrite HL; reflexivity|rewrite HL; symmetry; exact Ep|intros _; rewrite HL; reflexivity|exact HP2].
    + assert (HL3 : live (psync (popen p) extra) = sync (live (popen p)) extra) by apply psync_live.
      rewrite HL in HL3. split; [apply PInv_psync, HP2|]. split; [exact HL3|apply output_of_live, HL3].
Qed.

Theorem prun_refines ops : forall p,
  PInv p ->
  PInv (fst (prun p ops)) /\
  live (fst (prun p ops)) = fst (rrun (live p) (map rop_of ops)) /\
  map snd (snd (prun p ops)) = map snd (snd (rrun (live p) (map rop_of ops))) /\
  Forall (fun po => PInv (fst po)) (snd (prun p ops)).
Proof.
  induction ops as [|x ops IH]; intros p HP; cbn [prun rrun map fst snd].
  { split; [exact HP|]. split; [reflexivity|]. split; [reflexivity|constructor]. }
  destruct (pstep_refines p x HP) as (H1 & H2 & H3).
  destruct (pstep p x) as [p1 o]. destruct (rstep (live p) (rop_of x)) as [r1 o']. cbn [fst snd] in *. subst r1 o'.
  destruct (IH p1 H1) as (I1 & I2 & I3 & I4).
  destruct (prun p1 ops) as [p2 os]. destruct (rrun (live p1) (map rop_of ops)) as [r2 os']. cbn [fst snd map] in *.
  split; [exact I1|]. split; [exact I2|]. split; [f_equal; exact I3|]. constructor; [exact H1|exact I4].
Qed.

Definition Quiet (p : pstore) : Prop := pending (base (live p)) = [] /\ dirty (base (live p)) = false.

Lemma quiet_facts p :
  PInv p -> Quiet p -> temps p = [] /\ vec_disk (live p) = vec_on (live p).
Proof.
  intros HP [Hq Hd]. destruct (PInv_nothing_queued p HP) as [Hp Ht]; [rewrite Hq; reflexivity|].
  rewrite (PInv_vec_on p HP Hd), Hp. cbn [has_pemb existsb]. rewrite orb_false_r.
  split; [exact Ht|reflexivity].
Qed.

Lemma handle_live_quiet p :
  PInv p -> Quiet p ->
  handle_live p = mkHV (committed (base (live p))) (lex (live p)) (vec (live p)) (vec_on (live p)) (tix (live p)) (sk p).
Proof.
  intros HP HQ. destruct (quiet_facts p HP HQ) as [Ht _].
  unfold handle_live, view_of. rewrite Ht, app_nil_r. reflexivity.
Qed.

Lemma handle_ro_quiet p :
  PInv p -> Quiet p ->
  handle_ro p = mkHV (committed (base (live p))) (lex (live p)) (vec (live p)) (vec_on (live p)) (tix (live p))
                     (sk_read (sk_written (sk p))).
Proof.
  intros HP HQ. destruct (quiet_facts p HP HQ) as [_ Hv].
  destruct (PInv_image p HP) as (_ & K2 & K3 & K4 & K5).
  unfold handle_ro, open_ro. rewrite (PInv_engine_loaded p HP), K2, K3, K4, K5, Hv. reflexivity.
Qed.

Lemma view_of_popen p :
  PInv p ->
  view_of (popen p) = mkHV (committed (base (live p))) (lex (live p)) (vec (live p))
                           (vec_disk (live p) || has_pemb (pattrs (live p))) (tix (live p)) (sk_read (sk_written (sk p))).
Proof.
  intros HP. unfold view_of. rewrite (popen_live p HP), popen_eq.
  destruct (PInv_image p HP) as (_ & _ & _ & _ & K5).
  cbn [temps sk base lex vec vec_on tix]. rewrite K5, app_nil_r. reflexivity.
Qed.

(* reopened read-write: drop has nothing to commit, open nothing to replay *)
Lemma handle_rw_quiet p extra : PInv p -> Quiet p -> handle_rw p extra = handle_ro p.
Proof.
  intros HP HQ. rewrite (handle_ro_quiet p HP HQ). destruct HQ as [Hq Hd].
  unfold handle_rw, pstep. rewrite Hd.
  set (p1 := set_live p (set_base (live p) (bump (base (live p)) extra))).
  assert (HP1 : PInv p1) by apply PInv_bump, HP.
  rewrite (popen_live_clean p1 HP1 Hd). cbn [p1 set_live set_base live base bump pending]. rewrite Hq. cbn [fst].
  rewrite (view_of_popen p1 HP1), <- (PInv_vec_on p1 HP1 Hd). reflexivity.
Qed.

Theorem readonly_same p :
  PInv p -> Quiet p ->
  same_idx (handle_ro p) (handle_live p) /\ v_sk (handle_ro p) = sk_read (sk_written (sk p)).
Proof.
  intros HP HQ. rewrite (handle_ro_quiet p HP HQ), (handle_live_quiet p HP HQ). repeat split; reflexivity.
Qed.

Theorem reopen_same p extra :
  PInv p -> Quiet p ->
  same_idx (handle_rw p extra) (handle_live p) /\ v_sk (handle_rw p extra) = sk_read (sk_written (sk p)).
Proof. intros HP HQ. rewrite (handle_rw_quiet p extra HP HQ). apply readonly_same; assumption. Qed.

(* doctor{rebuild_lex_index, rebuild_time_index, rebuild_vec_index}; rebuild_vec_index also leaves vector search enabled *)
Theorem doctor_sets p lexf timef vecf :
  PInv p -> Quiet p ->
  let h := handle_doctor p lexf timef vecf in
  v_frames h = v_frames (handle_live p) /\ v_lex h = v_lex (handle_live p) /\ v_vec h = v_vec (handle_live p) /\
  v_tix h = v_tix (handle_live p) /\ v_vec_on h = vecf || v_vec_on (handle_live p) /\
  v_sk h = sk_read (sk_written (sk p)).
Proof.
  intros HP HQ. cbv zeta. rewrite (handle_live_quiet p HP HQ). cbn [v_frames v_lex v_vec v_vec_on v_tix].
  destruct (lexf || timef || vecf) eqn:Ef.
  2:{ replace (handle_doctor p lexf timef vecf) with (handle_ro p)
        by (unfold handle_doctor, handle_ro, doctor; rewrite Ef; reflexivity).
      rewrite (handle_ro_quiet p HP HQ). apply orb_false_iff in Ef as [_ ->]. repeat split; reflexivity. }
  destruct (quiet_facts p HP HQ) as [_ Hv].
  destruct (PInv_ix p HP) as (_ & _ & Hvec & _). destruct (PInv_image p HP) as (_ & K2 & K3 & _ & K5).
  pose proof (PInv_lex p HP) as Hlex. pose proof (PInv_tix p HP) as Htix. pose proof (PInv_vec_off p HP) as Hv1.
  unfold handle_doctor, doctor. rewrite Ef. unfold open_ro, init_tantivy.
  cbn [k_segs k_lex k_vec k_vec_on k_tix k_sk fst v_frames v_lex v_vec v_vec_on v_tix v_sk].
  rewrite <- Hlex, <- Htix, K2, K3, K5, written_read, Hv.
  repeat split; try reflexivity.
  (* build_vec_artifact keeps the Active entries, and every entry is Active *)
  destruct (vecf || vec_on (live p)) eqn:Evd.
  - apply filter_all. exact Hvec.
  - apply orb_false_iff in Evd as [_ Evd]. symmetry. exact (Hv1 Evd).
Qed.

Theorem doctor_same p lexf timef vecf :
  PInv p -> Quiet p -> (vecf = true -> vec_on (live p) = true) ->
  same_idx (handle_doctor p lexf timef vecf) (handle_live p) /\
  v_sk (handle_doctor p lexf timef vecf) = sk_read (sk_written (sk p)).
Proof.
  intros HP HQ Hv. destruct (doctor_sets p lexf timef vecf HP HQ) as (Hfr & Hlex & Hvec & Htix & Hon & Hsk).
  split; [|exact Hsk]. unfold same_idx. repeat split; try assumption.
  rewrite Hon. cbn [handle_live view_of v_vec_on]. destruct vecf; [rewrite (Hv eq_refl)|]; reflexivity.
Qed.

Section AnswersProofs.
  Variable query : Type.
  Variable engine_search : list N -> option (list N) -> query -> list N.
  Variable post_hit : frame -> query -> bool.
  Variable sk_pass : N -> query -> bool.
  Variable has_text : query -> bool.
  Variable vec_rank : list (N * N) -> query -> nat -> list N.

  Lemma psearch_equal a b no_sketch q :
    v_frames a = v_frames b -> v_lex a = v_lex b -> (no_sketch = true \/ v_sk a = v_sk b) ->
    psearch query engine_search post_hit sk_pass has_text a no_sketch q =
    psearch query engine_search post_hit sk_pass has_text b no_sketch q.
  Proof.
    intros Hfr Hlex Hs. unfold psearch. rewrite Hfr, Hlex. destruct Hs as [Hs|Hs]; rewrite Hs; [|reflexivity].
    cbn [negb]. rewrite !andb_false_r. reflexivity.
  Qed.

  Lemma ptimeline_equal a b keep rev lim :
    v_frames a = v_frames b -> v_tix a = v_tix b -> ptimeline a keep rev lim = ptimeline b keep rev lim.
  Proof. intros Hfr Htix. unfold ptimeline. rewrite Hfr, Htix. reflexivity. Qed.

  Lemma answers_equal a b no_sketch :
    same_idx a b -> (no_sketch = true \/ v_sk a = v_sk b) ->
    (forall q, psearch query engine_search post_hit sk_pass has_text a no_sketch q =
               psearch query engine_search post_hit sk_pass has_text b no_sketch q) /\
    (forall q n, pvec query vec_rank a q n = pvec query vec_rank b q n) /\
    (forall keep rev lim, ptimeline a keep rev lim = ptimeline b keep rev lim).
  Proof.
    intros (Hfr & Hlex & Hvec & Hon & Htix) Hs. split; [|split].
    - intros q. apply psearch_equal; assumption.
    - intros q n. unfold pvec. rewrite Hvec, Hon. reflexivity.
    - intros keep rev lim. apply ptimeline_equal; assumption.
  Qed.

  (* known_class: the class of F-C39-1.  Last clause: when doctor rebuilds the vector index of a memory that has
     none, vector search answers over the (empty) live index. *)
  Theorem same_answers p extra lexf timef vecf no_sketch :
    PInv p -> Quiet p -> known_class p no_sketch = false ->
    (forall h, h = handle_rw p extra \/ h = handle_ro p \/
               (h = handle_doctor p lexf timef vecf /\ (vecf = true -> v_vec_on (handle_live p) = true)) ->
      (forall q, psearch query engine_search post_hit sk_pass has_text h no_sketch q =
                 psearch query engine_search post_hit sk_pass has_text (handle_live p) no_sketch q) /\
      (forall q n, pvec query vec_rank h q n = pvec query vec_rank (handle_live p) q n) /\
      (forall keep rev lim, ptimeline h keep rev lim = ptimeline (handle_live p) keep rev lim)) /\
    (let h := handle_doctor p lexf timef true in
     (forall q, psearch query engine_search post_hit sk_pass has_text h no_sketch q =
                psearch query engine_search post_hit sk_pass has_text (handle_live p) no_sketch q) /\
     (forall keep rev lim, ptimeline h keep rev lim = ptimeline (handle_live p) keep rev lim) /\
     (forall q n, pvec query vec_rank h q n = Some (vec_rank (v_vec (handle_live p)) q n))).
  Proof.
    intros HP HQ HK.
    assert (HS : forall h, v_sk h = sk_read (sk_written (sk p)) -> no_sketch = true \/ v_sk h = v_sk (handle_live p)).
    { intros h Hk. unfold known_class in HK. destruct no_sketch; [left; reflexivity|right]. cbn [negb andb] in HK.
      rewrite Hk. cbn [handle_live view_of v_sk]. apply sk_roundtrip_iff. destruct (sk_dense (sk p)); [reflexivity|discriminate]. }
    split.
    - intros h Hh.
      assert (Hsame : same_idx h (handle_live p) /\ v_sk h = sk_read (sk_written (sk p))).
      { destruct Hh as [->|[->|[-> Hv]]].
        - apply reopen_same; assumption.
        - apply readonly_same; assumption.
        - apply doctor_same; assumption. }
      destruct Hsame as [Hidx Hsk]. apply answers_equal; [exact Hidx|exact (HS h Hsk)].
    - destruct (doctor_sets p lexf timef true HP HQ) as (Dfr & Dlex & Dvec & Dtix & Don & Dsk). cbv zeta. split; [|split].
      + intros q. apply psearch_equal; [exact Dfr|exact Dlex|exact (HS _ Dsk)].
      + intros keep rev lim. apply ptimeline_equal; [exact Dfr|exact Dtix].
      + intros q n. unfold pvec. rewrite Don, Dvec. reflexivity.
  Qed.

  (* with temps_unresolved below: a document the engine holds under an id not (yet) in the table is never returned *)
  Lemma psearch_hits_evaluated v ns q i :
    In i (psearch query engine_search post_hit sk_pass has_text v ns q) ->
    exists f, get (v_frames v) i = Some f /\ post_hit f q = true.
  Proof.
    unfold psearch. intros H. apply in_flat_map in H as (j & _ & Hj).
    destruct (get (v_frames v) j) as [f|] eqn:Eg; [|destruct Hj].
    destruct (post_hit f q) eqn:Ep; [|destruct Hj]. destruct Hj as [<-|[]]. exists f. split; assumption.
  Qed.
End AnswersProofs.

Lemma temps_unresolved p t : PInv p -> In t (temps p) -> get (committed (base (live p))) t = None.
Proof.
  intros HP Ht. pose proof (proj1 (Forall_forall _ _) (PInv_temps_above p HP) t Ht) as H. cbn beta in H.
  apply nth_error_None. unfold len in H. lia.
Qed.

Theorem prun_inv ops : PInv (fst (prun pstore0 ops)).
Proof. destruct (prun_refines ops pstore0 PInv0) as (H & _). exact H. Qed.

Theorem prun_is_rrun ops : live (fst (prun pstore0 ops)) = fst (rrun rstore0 (map rop_of ops)).
Proof. destruct (prun_refines ops pstore0 PInv0) as (_ & H & _). exact H. Qed.

Theorem prun_inv_all ops : Forall (fun po => PInv (fst po)) (snd (prun pstore0 ops)).
Proof. destruct (prun_refines ops pstore0 PInv0) as (_ & _ & _ & H). exact H. Qed.

Lemma lex_full_nil al : lex_full [] al = [].
Proof. reflexivity. Qed.

Lemma sk_apply_nil t n0 : sk_apply t n0 [] = t.
Proof. reflexivity. Qed.
