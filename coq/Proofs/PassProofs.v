(* One replace_all pass on marked text (ra_m of Model/Regex.v), up to pass_pullback.  A code point of the
   output that this pass did not insert was copied, and behind it the walk starts afresh (resume_after_kept);
   where the output begins with such a code point (head_kept) the walk replaced nothing there (kept_head,
   kept_prefix). *)
From MV Require Import Base.Prelude Model.Regex Proofs.RegexProofs.

Lemma lasto_default_irrel {A} (d : option A) a b : lasto None a = lasto None b -> lasto d a = lasto d b.
Proof.
  intros H. destruct a as [|x a].
  - symmetry in H. apply lasto_none_inv in H. subst b. reflexivity.
  - destruct b as [|z b].
    + apply lasto_none_inv in H. discriminate.
    + exact H.
Qed.

Section Pass.
  Variables is_digit is_space is_word : N -> bool.
  Notation match_at := (match_at is_digit is_space is_word).
  Notation ra_m := (ra_m is_digit is_space is_word).
  Variable n : nat.
  Variable r : regex.
  Variable tokj : mtext.
  Variable j : nat.
  Hypothesis tok_ne : tokj <> [].
  Hypothesis tok_mark : forall y, In y tokj -> snd y = j.

  Notation walk p ms skip after := (ra_m n r tokj p (map fst ms%list) ms%list skip after).

  Lemma ra_m_nil p s skip after :
    (ra_m n r tokj p s [] skip after = [] /\ (skip <> 0 \/ after = true \/ match_at n r p [] = None))
    \/ ra_m n r tokj p s [] skip after = tokj.
  Proof.
    cbn. destruct skip as [|j'].
    - destruct after.
      + left. split; [reflexivity|]. right. left. reflexivity.
      + destruct (match_at n r p []).
        * right. reflexivity.
        * left. split; [reflexivity|]. right. right. reflexivity.
    - left. split; [reflexivity|]. left. discriminate.
  Qed.

  Lemma ra_m_cons p s xm ms after :
    (ra_m n r tokj p s (xm :: ms) 0 after = xm :: ra_m n r tokj (Some (fst xm)) (tl s) ms 0 false
     /\ (after = true \/ match_at n r p s = None))
    \/ (exists X, ra_m n r tokj p s (xm :: ms) 0 after = tokj ++ X
                  /\ (X = xm :: ra_m n r tokj (Some (fst xm)) (tl s) ms 0 false
                      \/ exists l, X = ra_m n r tokj (Some (fst xm)) (tl s) ms l true)).
  Proof.
    cbn. destruct (match_at n r p s) as [rest|].
    - destruct (length s - length rest) as [|l].
      + (* an empty match: replaced unless the previous match ended here *)
        destruct after.
        * left. split; [reflexivity|]. left. reflexivity.
        * right. eexists. split; [reflexivity|]. left. reflexivity.
      + right. eexists. split; [reflexivity|]. right. exists l. reflexivity.
    - left. split; [reflexivity|]. right. reflexivity.
  Qed.

  Lemma ra_m_step p s xm ms skip after :
    exists T K k aft,
      ra_m n r tokj p s (xm :: ms) skip after = T ++ K ++ ra_m n r tokj (Some (fst xm)) (tl s) ms k aft
      /\ (T = [] \/ T = tokj) /\ (K = [] \/ K = [xm] /\ k = 0 /\ aft = false).
  Proof.
    destruct skip as [|k]; [|exists [], [], k, true; repeat split; auto].
    destruct (ra_m_cons p s xm ms after) as [[E _]|(X & E & [->|(l & ->)])]; rewrite E.
    - exists [], [xm], 0, false. repeat split; auto.
    - exists tokj, [xm], 0, false. repeat split; auto.
    - exists tokj, [], l, true. repeat split; auto.
  Qed.

  Lemma ra_m_marks : forall ms p s skip after y,
    In y (ra_m n r tokj p s ms skip after) -> In y ms \/ In y tokj.
  Proof.
    induction ms as [|xm ms IH]; intros p s skip after y H.
    - destruct (ra_m_nil p s skip after) as [[E0 _]|E0]; rewrite E0 in H; [destruct H|right; exact H].
    - destruct (ra_m_step p s xm ms skip after) as (T & K & k & aft & E & HT & HK). rewrite E in H.
      apply in_app_or in H as [H|H].
      + destruct HT as [->| ->]; [destruct H|]. right. exact H.
      + apply in_app_or in H as [H|H].
        * destruct HK as [->|[-> _]]; [destruct H|]. destruct H as [<-|[]]. left. left. reflexivity.
        * destruct (IH (Some (fst xm)) (tl s) k aft y H) as [H1|H1]; [left; right; exact H1|right; exact H1].
  Qed.

  Definition head_kept (l : mtext) : Prop := forall y, hd_error l = Some y -> snd y <> j.

  Lemma head_marked (T X : mtext) : T <> [] -> (forall t, In t T -> snd t = j) -> ~ head_kept (T ++ X).
  Proof. destruct T as [|t T]; [congruence|]. intros _ HT H. exact (H t eq_refl (HT t (or_introl eq_refl))). Qed.

  Lemma marked_prefix (T : mtext) : (forall t, In t T -> snd t = j) ->
    forall {X u y w}, T ++ X = u ++ y :: w -> snd y <> j -> exists u1, X = u1 ++ y :: w.
  Proof.
    induction T as [|t T IH]; intros HT X u y w E Hy; [exists u; exact E|].
    destruct u as [|a u]; injection E as -> E.
    - exfalso. apply Hy, HT. left. reflexivity.
    - exact (IH (fun z Hz => HT z (or_intror Hz)) X u y w E Hy).
  Qed.

  Lemma resume_after_kept : forall {ms p skip after u y w},
    walk p ms skip after = u ++ y :: w -> snd y <> j ->
    exists u' ms', ms = u' ++ y :: ms' /\ walk (Some (fst y)) ms' 0 false = w.
  Proof.
    induction ms as [|xm ms IH]; intros p skip after u y w E Hy.
    - exfalso. cbn [map] in E. destruct (ra_m_nil p [] skip after) as [[E0 _]|E0]; rewrite E0 in E.
      + destruct u; discriminate.
      + apply Hy, tok_mark. rewrite E. apply in_elt.
    - destruct (ra_m_step p (map fst (xm :: ms)) xm ms skip after) as (T & K & k & aft & E0 & HT & HK).
      rewrite E0 in E.
      assert (exists u1, K ++ walk (Some (fst xm)) ms k aft = u1 ++ y :: w) as (u1 & E1).
      { destruct HT as [->| ->]; [exists u; exact E|exact (marked_prefix tokj tok_mark E Hy)]. }
      assert (Below : forall u2, walk (Some (fst xm)) ms k aft = u2 ++ y :: w ->
                        exists u' ms', xm :: ms = u' ++ y :: ms' /\ walk (Some (fst y)) ms' 0 false = w).
      { intros u2 E2. destruct (IH (Some (fst xm)) k aft u2 y w E2 Hy) as (u' & ms' & -> & Hw).
        exists (xm :: u'), ms'. split; [reflexivity|exact Hw]. }
      destruct HK as [->|(-> & -> & ->)]; [exact (Below u1 E1)|].
      destruct u1 as [|a u2]; injection E1 as -> E1; [|exact (Below u2 E1)].
      exists [], ms. split; [reflexivity|exact E1].
  Qed.

  Lemma kept_head {p ms after l} :
    walk p ms 0 after = l -> head_kept l ->
    (after = true \/ match_at n r p (map fst ms) = None)
    /\ match ms with [] => l = [] | xm :: ms' => l = xm :: walk (Some (fst xm)) ms' 0 false end.
  Proof.
    intros E Hl. destruct ms as [|xm ms].
    - cbn [map] in E. destruct (ra_m_nil p [] 0 after) as [[E0 Hn]|E0]; rewrite E0 in E; subst l.
      + split; [|reflexivity]. destruct Hn as [Hn|Hn]; [congruence|exact Hn].
      + exfalso. apply (head_marked tokj [] tok_ne tok_mark). rewrite app_nil_r. exact Hl.
    - destruct (ra_m_cons p (map fst (xm :: ms)) xm ms after) as [[E0 Hn]|(X & E0 & _)];
        rewrite E0 in E; subst l.
      + split; [exact Hn|reflexivity].
      + exfalso. exact (head_marked tokj X tok_ne tok_mark Hl).
  Qed.

  Lemma kept_prefix : forall {c ms p after v},
    walk p ms 0 after = c ++ v -> (forall y, In y c -> snd y <> j) -> head_kept v ->
    exists v', ms = c ++ v' /\ hd_error v' = hd_error v.
  Proof.
    induction c as [|y c IH]; intros ms p after v E Hc Hv.
    - cbn [app] in E. exists ms. split; [reflexivity|]. destruct (kept_head E Hv) as [_ H].
      destruct ms; rewrite H; reflexivity.
    - assert (Hh : head_kept ((y :: c) ++ v)) by (intros z [= <-]; apply Hc; left; reflexivity).
      destruct (kept_head E Hh) as [_ H]. destruct ms as [|xm ms]; [discriminate|].
      injection H as <- H.
      destruct (IH ms _ _ v (eq_sym H) (fun z Hz => Hc z (or_intror Hz)) Hv) as (v' & -> & Hh').
      exists v'. split; [reflexivity|exact Hh'].
  Qed.

  (* no match at c in the input: the walk would have replaced it *)
  Theorem pass_pullback ms p u c v :
    walk p ms 0 false = u ++ c ++ v ->
    (forall y, lasto None u = Some y -> snd y <> j) -> (forall y, In y c -> snd y <> j) -> head_kept v ->
    exists u' v', ms = u' ++ c ++ v' /\ lasto None u' = lasto None u /\ hd_error v' = hd_error v /\
                  match_at n r (lasto p (map fst u')) (map fst (c ++ v')) = None.
  Proof.
    intros E Hu Hc Hv.
    (* c starts at the top, or behind a kept code point where the walk starts afresh *)
    assert (exists u' ms', ms = u' ++ ms' /\ lasto None u' = lasto None u
                           /\ walk (lasto p (map fst u')) ms' 0 false = c ++ v) as (u' & ms' & -> & Hl & E').
    { destruct (lasto None u) as [y|] eqn:El.
      - pose proof (Hu y eq_refl) as Hy. apply lasto_some_snoc in El as (u0 & ->).
        rewrite <- app_assoc in E. destruct (resume_after_kept E Hy) as (u' & ms' & -> & E').
        exists (u' ++ [y]), ms'. rewrite <- app_assoc, map_app. cbn [map]. rewrite !lasto_snoc. auto.
      - apply lasto_none_inv in El. subst u. exists [], ms. auto. }
    destruct (kept_prefix E' Hc Hv) as (v' & -> & Hh).
    exists u', v'. split; [reflexivity|]. split; [exact Hl|]. split; [exact Hh|].
    assert (Hcv : head_kept (c ++ v)).
    { destruct c as [|y c]; [exact Hv|]. intros z [= <-]. apply Hc. left. reflexivity. }
    destruct (kept_head E' Hcv) as [[Hf|Hm] _]; [discriminate|exact Hm].
  Qed.
End Pass.
