(* What the statements of C18 (Properties/C18.v) rest on, about Model/ReadOnly.v: the footer search (the
   doubling window loop, on every file, the empty one included), the image a commit leaves (its tail
   snapshot is that commit), and the invariants of a read-only open and session, all instances of one
   scheme (Section Invariant). *)
From MV Require Import Base.Prelude Base.Facts Model.Footer Model.Header Model.FsProto Model.ReadOnly.
From MV Require Import Proofs.FooterProofs.
Local Open Scope N_scope.

Lemma slice_skipn {A} (b : list A) st off len : slice (skipn st b) off len = slice b (st + off) len.
Proof. unfold slice. rewrite skipn_skipn. reflexivity. Qed.

Lemma pair_eq {A B} (p : A * B) a b : fst p = a -> snd p = b -> p = (a, b).
Proof. intros <- <-. apply surjective_pairing. Qed.

Section LocateProofs.
  Variable H : bytes -> bytes.
  Variable maxw : N.
  Notation locate_loop := (locate_loop H).
  Notation locate_footer_window := (locate_footer_window H maxw).
  Notation commit_image := (commit_image H).

  Lemma valid_in_suffix (b : bytes) st p s :
    valid_at H (skipn st b) p = true -> slice_at (skipn st b) p = Some s ->
    valid_at H b (st + p) = true /\
    slice_at b (st + p) = Some (mkSlice (st + p) (st + fs_toc_offset s) (fs_footer s) (fs_toc_bytes s)).
  Proof.
    unfold valid_at, slice_at. rewrite skipn_length, !slice_skipn.
    destruct (footer_decode (slice b (st + p) FOOTER_SIZE)) as [f|]; [|discriminate].
    intros Hv [= <-]. cbn [fs_footer fs_footer_offset fs_toc_offset fs_toc_bytes].
    apply andb_true_iff in Hv as [Hl Hm]. apply andb_true_iff in Hm as [Hm Hh]. apply andb_true_iff in Hm as [Hz Hle].
    rewrite slice_skipn in *.
    (* the TOC offset shifts by st as well *)
    replace (st + (p - N.to_nat (toc_len f)))%nat with (st + p - N.to_nat (toc_len f))%nat in * by lia.
    split; [|reflexivity]. rewrite Hz, Hh. cbn [andb]. rewrite andb_true_r. apply andb_true_iff; split; lia.
  Qed.

  Lemma locate_window_loop b :
    locate_footer_window b = locate_loop (S (length b)) b (N.min maxw (N.of_nat (length b))).
  Proof.
    destruct b as [|x b]; [|reflexivity]. cbn [ReadOnly.locate_footer_window ReadOnly.locate_loop length].
    rewrite skipn_nil, N.min_0_r. reflexivity.
  Qed.

  (* None: the window (empty only on the empty file) grows by at least one byte per round, so with fuel
     beyond |b| - w the last round scanned the whole file *)
  Lemma locate_loop_spec fuel : forall b w r,
    locate_loop fuel b w = r ->
    match r with
    | Some (s, st) => find_last_valid_footer H (skipn st b) = Some s
    | None => (w = 0 -> length b = 0%nat) -> w <= N.of_nat (length b) -> N.of_nat (length b) - w < N.of_nat fuel ->
              forall q, valid_at H b q = false
    end.
  Proof.
    induction fuel as [|k IH]; intros b w r <-; cbn [ReadOnly.locate_loop]; [intros; lia|].
    destruct (find_last_valid_footer H (skipn (N.to_nat (N.of_nat (length b) - w)) b)) as [s|] eqn:EF.
    - exact EF.
    - destruct (w =? N.of_nat (length b)) eqn:EW.
      + intros _ _ _. apply N.eqb_eq in EW. subst w. rewrite N.sub_diag in EF.
        change (N.to_nat 0) with 0%nat in EF. cbn [skipn] in EF.
        apply find_last_valid_footer_none; exact EF.
      + apply N.eqb_neq in EW. specialize (IH b (N.min (w * 2) (N.of_nat (length b))) _ eq_refl).
        destruct (locate_loop k b (N.min (w * 2) (N.of_nat (length b)))) as [[s st]|]; [exact IH|].
        intros H1 H2 H3. apply IH; lia.
  Qed.

  Lemma locate_loop_sound fuel b w s st : locate_loop fuel b w = Some (s, st) ->
    valid_at H b (st + fs_footer_offset s) = true /\
    slice_at b (st + fs_footer_offset s) = Some (mkSlice (st + fs_footer_offset s) (st + fs_toc_offset s) (fs_footer s) (fs_toc_bytes s)).
  Proof.
    intros E. apply locate_loop_spec in E.
    apply find_last_valid_footer_some in E as (pos & Hv & Hs & _).
    destruct (slice_at_describes _ _ _ Hs) as [-> _]. apply valid_in_suffix; assumption.
  Qed.

  Lemma locate_loop_none_all fuel b w :
    (forall q, valid_at H b q = false) -> locate_loop fuel b w = None.
  Proof.
    intros Hall. destruct (locate_loop fuel b w) as [[s st]|] eqn:E; [|reflexivity].
    apply locate_loop_sound in E as [Hv _]. rewrite Hall in Hv. discriminate.
  Qed.

  Section Image.
    Variables (tb : bytes) (g : N).
    Hypothesis Htb : tb <> [].
    Hypothesis Hlen : N.of_nat (length tb) < 2 ^ 64.
    Hypothesis Hg : g < 2 ^ 64.
    Hypothesis Hh : length (H tb) = 32%nat.

    Let f := mkFooter (N.of_nat (length tb)) (H tb) g.

    Lemma commit_footer_length : length (footer_encode f) = FOOTER_SIZE.
    Proof. unfold footer_encode. rewrite !app_length, !le_encode_length. cbn [toc_hash f]. rewrite Hh. reflexivity. Qed.

    Lemma commit_image_length (pre : bytes) : length (commit_image pre tb g) = (length pre + length tb + FOOTER_SIZE)%nat.
    Proof. unfold ReadOnly.commit_image. fold f. rewrite !app_length, commit_footer_length. lia. Qed.

    Lemma scan_commit_image (pre : bytes) :
      find_last_valid_footer H (commit_image pre tb g) =
        Some (mkSlice (length pre + length tb) (length pre) f tb).
    Proof.
      apply find_last_valid_footer_some. exists (length pre + length tb)%nat.
      assert (HS1 : slice (commit_image pre tb g) (length pre + length tb) FOOTER_SIZE = footer_encode f).
      { unfold ReadOnly.commit_image. rewrite app_assoc, <- app_length, <- commit_footer_length. apply slice_app_tail. }
      assert (HD : footer_decode (footer_encode f) = Some f) by (apply footer_decode_encode; assumption).
      assert (HS2 : slice (commit_image pre tb g) (length pre) (length tb) = tb) by apply slice_app_exact.
      assert (Hnz : length tb <> 0%nat) by (destruct tb; [contradiction | discriminate]).
      assert (Hsub : (length pre + length tb - N.to_nat (toc_len f) = length pre)%nat) by (cbn [toc_len f]; lia).
      split; [|split].
      - unfold valid_at. rewrite commit_image_length, HS1, HD, Hsub. cbn [toc_len f]. rewrite Nat2N.id, HS2.
        unfold hash_matches. cbn [toc_hash]. rewrite bytes_eqb_refl.
        apply andb_true_iff; split; [lia|].
        replace (N.of_nat (length tb) =? 0) with false by lia.
        replace (N.of_nat (length tb) <=? N.of_nat (length pre + length tb)) with true by lia. reflexivity.
      - unfold slice_at. rewrite HS1, HD, Hsub. cbn [toc_len f]. rewrite Nat2N.id, HS2. reflexivity.
      - intros q Hq. apply valid_at_in_range in Hq. rewrite commit_image_length in Hq. lia.
    Qed.

    (* the first window cuts the file inside `pre`; what it keeps is again a commit image *)
    Lemma locate_commit_image (pre : bytes) :
      N.of_nat (length tb + FOOTER_SIZE) <= maxw ->
      exists adj fo to, locate_footer_window (commit_image pre tb g) = Some (mkSlice fo to f tb, adj) /\
                        (fo + adj = length pre + length tb)%nat.
    Proof.
      intros Hw. rewrite locate_window_loop. pose proof (commit_image_length pre) as HL. cbn [ReadOnly.locate_loop].
      set (st := N.to_nat (_ - _)).
      assert (Hst : (st <= length pre)%nat) by (unfold st; lia).
      replace (skipn st (commit_image pre tb g)) with (commit_image (skipn st pre) tb g).
      2:{ unfold ReadOnly.commit_image. rewrite skipn_app. replace (st - length pre)%nat with 0%nat by lia. reflexivity. }
      rewrite scan_commit_image. do 3 eexists. split; [reflexivity|]. rewrite skipn_length. lia.
    Qed.
  End Image.

End LocateProofs.

Section ROProofs.
  Variable H : bytes -> bytes.
  Variable toc_decode : bytes -> option rtoc.
  Variable toc_reencode : rtoc -> bytes * bytes.
  Variable maxw : N.

  Notation load_tail_snapshot := (load_tail_snapshot H toc_decode maxw).
  Notation align_footer := (align_footer H toc_reencode).
  Notation materialize := (materialize H toc_reencode).
  Notation init_tantivy := (init_tantivy H toc_reencode).
  Notation open_ro_gen := (open_ro_gen H toc_decode toc_reencode maxw).
  Notation open_ro_on := (open_ro_on H toc_decode toc_reencode maxw).
  Notation open_ro := (open_ro H toc_decode toc_reencode maxw).
  Notation ro_step := (ro_step H toc_decode toc_reencode maxw).
  Notation ro_run := (ro_run H toc_decode toc_reencode maxw).
  Notation ro_session := (ro_session H toc_decode toc_reencode maxw).
  Notation commit_image := (commit_image H).

  (* e2af843: a read-only handle is not aligned *)
  Lemma align_noop hd s : hd_read_only hd = true -> align_footer hd s = (false, hd, s).
  Proof. unfold ReadOnly.align_footer. intros ->. reflexivity. Qed.

  (* ced2099: read_without_repair never touches the file *)
  Lemma ro_header_read_pure s : snd (ro_header_read s) = s.
  Proof. unfold ro_header_read. destruct (Nat.ltb _ _); reflexivity. Qed.

  (* Apart from the header reader handed to open_ro_gen, all that happens to handle and file is
     set_header and emit in align_footer (since e2af843 only on a handle that is not read-only) and
     set_tantivy: a PH kept by the two setters and a Q kept by every emit a PH-handle allows are
     kept up to a whole session. *)
  Section Invariant.
    Variable PH : handle -> Prop.
    Variable Q : fstate -> Prop.
    Hypothesis header_inv : forall hd h, PH hd -> PH (set_header hd h).
    Hypothesis tantivy_inv : forall hd b, PH hd -> PH (set_tantivy hd b).
    Hypothesis emit_inv : forall hd s e, PH hd -> hd_read_only hd = false -> Q s -> Q (emit s e).

    Lemma align_inv hd s : PH hd -> Q s -> let '(_, hd1, s1) := align_footer hd s in PH hd1 /\ Q s1.
    Proof.
      intros HP HQ. destruct (hd_read_only hd) eqn:Ero; [rewrite (align_noop hd s Ero); split; assumption|].
      unfold ReadOnly.align_footer. rewrite Ero. destruct (_ <=? _); [split; assumption|].
      destruct (toc_reencode (hd_toc hd)) as [tb ck]. split; [apply header_inv, HP|].
      destruct (header_encode _); repeat apply (emit_inv hd); assumption.
    Qed.

    Lemma materialize_inv segs : forall fl dl hd s,
      PH hd -> Q s -> let '(_, hd1, s1) := materialize segs fl dl hd s in PH hd1 /\ Q s1.
    Proof.
      induction segs as [|[off len] segs IH]; intros fl dl hd s HP HQ; cbn [ReadOnly.materialize]; [split; assumption|].
      destruct (len =? 0); [apply IH; assumption|].
      destruct (2 ^ 64 <=? off + len); [split; assumption|].
      destruct ((fl <? off + len) || (dl <? off + len)); [|apply IH; assumption].
      pose proof (align_inv hd s HP HQ) as Ha. destruct (align_footer hd s) as [[al hd1] s1]. destruct Ha.
      destruct (_ || _); [split; assumption | apply IH; assumption].
    Qed.

    Lemma init_tantivy_inv hd s : PH hd -> Q s -> let '(hd1, s1) := init_tantivy hd s in PH hd1 /\ Q s1.
    Proof.
      intros HP HQ. unfold ReadOnly.init_tantivy. destruct (negb (hd_lex hd)); [split; [apply tantivy_inv|]; assumption|].
      pose proof (materialize_inv (rt_segs (hd_toc hd)) (N.of_nat (length (fs_bytes s))) (h_footer_offset (hd_header hd)) hd s HP HQ) as Hm.
      destruct (materialize _ _ _ hd s) as [[r hd1] s1]. destruct Hm. split; [apply tantivy_inv|]; assumption.
    Qed.

    Lemma open_ro_gen_inv hread flag lf s :
      (forall s', Q s' -> Q (snd (hread s'))) ->
      (forall t h w, load_tail_snapshot (fs_bytes s) = Ok t ->
         PH (mkHandle h (t_toc t) (t_footer_offset t) (t_generation t) w (rt_lex (t_toc t)) false flag)) ->
      Q s -> let '(r, s1) := open_ro_gen hread flag lf s in Q s1 /\ forall hd, r = Ok hd -> PH hd.
    Proof.
      intros Hhr Hnew HQ. unfold ReadOnly.open_ro_gen.
      destruct (load_tail_snapshot (fs_bytes s)) as [t|e|p] eqn:Et; [|split; [assumption | discriminate]..].
      specialize (Hhr s HQ). destruct (hread s) as [[h0|e|p] s1]; cbn [snd] in Hhr; [|split; [assumption | discriminate]..].
      destruct (negb lf); [split; [assumption | discriminate]|].
      destruct (ro_wal_open H (fs_bytes s1) _) as [w|e|p]; [|split; [assumption | discriminate]..].
      match goal with |- context [init_tantivy ?hd s1] => pose proof (init_tantivy_inv hd s1 (Hnew t _ _ eq_refl) Hhr) as Hi end.
      destruct (init_tantivy _ s1) as [hd1 s2]. destruct Hi. split; [assumption|]. intros hd E. inversion E; subst. assumption.
    Qed.

    (* from here on the current code: the handle is built read-only *)
    Hypothesis new_inv : forall h t d g w l, PH (mkHandle h t d g w l false true).

    Lemma open_ro_on_inv lf s : Q s -> let '(r, s1) := open_ro_on lf s in Q s1 /\ forall hd, r = Ok hd -> PH hd.
    Proof.
      apply open_ro_gen_inv; [|intros t h w _; apply new_inv]. intros s' HQ. rewrite ro_header_read_pure. exact HQ.
    Qed.

    Lemma ro_step_inv lf hd s op : PH hd -> Q s -> let '((hd1, s1), _) := ro_step lf (hd, s) op in PH hd1 /\ Q s1.
    Proof.
      intros HP HQ. destruct op; cbn [ReadOnly.ro_step]; try (split; assumption).
      - (* search: the engine is opened on first use *)
        destruct (negb (hd_lex hd)); [split; assumption|]. destruct (hd_tantivy hd); [split; assumption|].
        pose proof (init_tantivy_inv hd s HP HQ) as Hi. destruct (init_tantivy hd s). exact Hi.
      - (* verify: a second open, whose handle is dropped *)
        pose proof (open_ro_on_inv lf s HQ) as Ho.
        destruct (open_ro_on lf s) as [[hv|e|p] s1]; destruct Ho; split; assumption.
    Qed.

    Lemma ro_run_inv lf ops : forall hd s, PH hd -> Q s -> let '((hd1, s1), _) := ro_run lf (hd, s) ops in PH hd1 /\ Q s1.
    Proof.
      induction ops as [|op ops IH]; intros hd s HP HQ; cbn [ReadOnly.ro_run]; [split; assumption|].
      pose proof (ro_step_inv lf hd s op HP HQ) as Hs. destruct (ro_step lf (hd, s) op) as [[hd1 s1] o]. destruct Hs as [HP1 HQ1].
      specialize (IH hd1 s1 HP1 HQ1). destruct (ro_run lf (hd1, s1) ops) as [[hd2 s2] outs]. exact IH.
    Qed.

    Theorem ro_session_inv lf file ops : Q (mkFS file []) -> Q (snd (ro_session lf file ops)).
    Proof.
      intros HQ. unfold ReadOnly.ro_session, ReadOnly.open_ro.
      pose proof (open_ro_on_inv lf (mkFS file []) HQ) as Ho.
      destruct (open_ro_on lf (mkFS file [])) as [[hd|e|p] s]; destruct Ho as [HQ1 HP]; [|assumption..].
      pose proof (ro_run_inv lf ops hd s (HP hd eq_refl) HQ1) as Hr.
      destruct (ro_run lf (hd, s) ops) as [[hd2 s2] outs]. apply Hr.
    Qed.
  End Invariant.

  (* the invariant: the handle is flagged read-only (so nothing is emitted) and the file state is the
     initial one *)
  Theorem ro_session_no_write lf file ops :
    snd (ro_session lf file ops) = mkFS file [].
  Proof.
    apply (ro_session_inv (fun hd => hd_read_only hd = true) (fun s => s = mkFS file [])).
    - intros hd h Hro. exact Hro.
    - intros hd b Hro. exact Hro.
    - intros hd s e Hro Hrw. congruence.
    - reflexivity.
    - reflexivity.
  Qed.

  Corollary open_ro_no_write lf file : snd (open_ro lf file) = mkFS file [].
  Proof.
    pose proof (ro_session_no_write lf file []) as Hs. unfold ReadOnly.ro_session in Hs.
    destruct (open_ro lf file) as [[hd|e|p] s]; exact Hs.
  Qed.

  Corollary open_ro_result lf file r : fst (open_ro lf file) = r -> open_ro lf file = (r, mkFS file []).
  Proof. intros <-. apply pair_eq; [reflexivity | apply open_ro_no_write]. Qed.

  Definition consistent (f0 : bytes) (s : fstate) : Prop := fs_bytes s = apply_trace f0 (fs_trace s).

  Lemma apply_trace_snoc f t e : apply_trace f (t ++ [e]) = apply_wev (apply_trace f t) e.
  Proof. unfold apply_trace. rewrite fold_left_app. reflexivity. Qed.

  Lemma emit_consistent f0 s e : consistent f0 s -> consistent f0 (emit s e).
  Proof. unfold consistent, emit. cbn [fs_bytes fs_trace]. intros ->. rewrite apply_trace_snoc. reflexivity. Qed.

  (* so an empty trace means untouched bytes; does not use that the handle is read-only *)
  Theorem ro_session_trace_explains lf file ops :
    let s := snd (ro_session lf file ops) in fs_bytes s = apply_trace file (fs_trace s).
  Proof.
    apply (ro_session_inv (fun _ => True) (consistent file)).
    - intros. exact I.
    - intros. exact I.
    - intros _ s e _ _. apply emit_consistent.
    - intros. exact I.
    - reflexivity.
  Qed.

  (* /repo before ced2099 and e2af843: the code writes, and its trace still explains its byte changes *)
  Lemma open_ro_unfixed_trace_explains lf file :
    let s := snd (open_ro_unfixed H toc_decode toc_reencode maxw lf file) in fs_bytes s = apply_trace file (fs_trace s).
  Proof.
    cbn zeta. unfold ReadOnly.open_ro_unfixed.
    assert (Hi : let '(r, s1) := open_ro_gen header_read_repair false lf (mkFS file []) in
                 consistent file s1 /\ forall hd, r = Ok hd -> True).
    { apply (open_ro_gen_inv (fun _ => True) (consistent file)).
      - intros. exact I.
      - intros. exact I.
      - intros _ s e _ _. apply emit_consistent.
      - intros s' Hc. unfold header_read_repair. destruct (Nat.ltb _ _); [exact Hc|].
        destruct (legacy_dirty _); [apply emit_consistent|]; exact Hc.
      - intros. exact I.
      - reflexivity. }
    destruct (open_ro_gen _ _ _ _) as [r s1]. apply Hi.
  Qed.

  (* before ced2099 the repair of a legacy-dirty header was written before the lock was asked for *)
  Lemma open_ro_unfixed_lock_refused file t h0 :
    legacy_trigger file = true -> load_tail_snapshot file = Ok t ->
    header_decode (clear_legacy (firstn HEADER_SIZE file)) = Ok h0 ->
    open_ro_unfixed H toc_decode toc_reencode maxw false file =
      (Err E_LOCK, emit (mkFS file []) (WWrite 0 (clear_legacy (firstn HEADER_SIZE file)))).
  Proof.
    unfold legacy_trigger, ReadOnly.open_ro_unfixed, ReadOnly.open_ro_gen, header_read_repair. cbn [fs_bytes].
    intros Hl Ht Hd. apply andb_true_iff in Hl as [Hlen Hdirty]. apply Nat.leb_le, Nat.ltb_ge in Hlen.
    rewrite Ht, Hlen, Hdirty, Hd. reflexivity.
  Qed.

  (* nothing of the log enters the TOC a read-only open shows *)
  Lemma open_ro_shows_tail lf file hd s :
    open_ro lf file = (Ok hd, s) ->
    exists t, load_tail_snapshot file = Ok t /\ hd_toc hd = t_toc t /\ hd_generation hd = t_generation t.
  Proof.
    intros Ho.
    set (PH := fun hd => exists t, load_tail_snapshot file = Ok t /\ hd_toc hd = t_toc t /\ hd_generation hd = t_generation t).
    assert (Hi : let '(r, s1) := open_ro lf file in True /\ forall hd, r = Ok hd -> PH hd).
    { apply (open_ro_gen_inv PH (fun _ => True)).
      - intros hd' h Hk. exact Hk.
      - intros hd' b Hk. exact Hk.
      - intros. exact I.
      - intros. exact I.
      - intros t h w Ht. exists t. split; [exact Ht | split; reflexivity].
      - exact I. }
    rewrite Ho in Hi. apply Hi. reflexivity.
  Qed.

  Lemma load_tail_commit_image (pre tb : bytes) g :
    tb <> [] -> N.of_nat (length tb) < 2 ^ 64 -> g < 2 ^ 64 -> length (H tb) = 32%nat ->
    N.of_nat (length tb + FOOTER_SIZE) <= maxw ->
    load_tail_snapshot (commit_image pre tb g) =
      match toc_decode tb with
      | Some t => Ok (mkTail t tb (N.of_nat (length pre + length tb)) g)
      | None => Err E_TOC
      end.
  Proof.
    intros Htb Hlen Hg Hh Hw.
    destruct (locate_commit_image H maxw tb g Htb Hlen Hg Hh pre Hw) as (adj & fo & to & Hloc & Hsum).
    unfold ReadOnly.load_tail_snapshot. rewrite Hloc. cbn [fs_toc_bytes fs_footer_offset fs_footer generation].
    rewrite Hsum. reflexivity.
  Qed.

  (* `pre` is ANY bytes before the TOC: header, log region with records pending or not, payloads,
     stale TOC images *)
  Theorem open_ro_commit_image lf pre tb g t hd s :
    tb <> [] -> N.of_nat (length tb) < 2 ^ 64 -> g < 2 ^ 64 -> length (H tb) = 32%nat ->
    N.of_nat (length tb + FOOTER_SIZE) <= maxw ->
    toc_decode tb = Some t ->
    open_ro lf (commit_image pre tb g) = (Ok hd, s) ->
    ro_view hd = rt_frames t /\ hd_generation hd = g.
  Proof.
    intros Htb Hlen Hg Hh Hw Hdec Hopen.
    apply open_ro_shows_tail in Hopen as (t' & Ht & Htoc & Hgen).
    rewrite load_tail_commit_image, Hdec in Ht by assumption. inversion Ht; subst t'.
    unfold ro_view. rewrite Htoc, Hgen. split; reflexivity.
  Qed.
End ROProofs.

(* for C18_writes_before_toc_keep_image *)
Lemma pwrite_inside_prefix (a r d : bytes) off :
  (off + length d <= length a)%nat -> pwrite (a ++ r) off d = pwrite a off d ++ r.
Proof.
  intros Hle. unfold pwrite.
  replace (off - length (a ++ r))%nat with 0%nat by (rewrite app_length; lia).
  replace (off - length a)%nat with 0%nat by lia.
  cbn [repeat]. rewrite !app_nil_r.
  rewrite firstn_app. replace (off - length a)%nat with 0%nat by lia. cbn [firstn]. rewrite app_nil_r.
  rewrite skipn_app. replace (off + length d - length a)%nat with 0%nat by lia. cbn [skipn].
  rewrite <- !app_assoc. reflexivity.
Qed.
