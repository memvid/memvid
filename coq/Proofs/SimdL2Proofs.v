(* Carrier-generic facts about the SIMD L2 kernel of Model/SimdL2.v (no floats here, so
   nothing in this file depends on an axiom).  The kernel is first rewritten as a function of the
   squared differences alone (body_eq: body a b = body_terms (term a b) (length a)); what is proved
   is proved of body_terms.  Each Section states, as hypotheses, exactly the laws of the carrier it
   needs; Proofs/SimdL2Float.v proves those laws for IEEE binary32 from Flocq, Properties/C38.v
   instantiates the exact-arithmetic one at Z.  The file must not load Base/Facts.v: with its Zify
   instances in scope `lia` generalises over the section variables fsub, fmul, fsqrt, and the
   closed statements of body_terms_ext, body_sym and simd_sq_sym gain arguments.  Hence its own
   fold_left_inv (fold_left_invariant_In of Base/Facts.v). *)
From MV Require Import Base.Prelude Model.SimdL2.

Lemma fold_left_ext_in :
  forall (A B : Type) (f g : A -> B -> A) (l : list B) (a0 : A),
    (forall a x, In x l -> f a x = g a x) -> fold_left f l a0 = fold_left g l a0.
Proof.
  intros A B f g l. induction l as [|x l IH]; intros a0 Hfg; cbn [fold_left]; [reflexivity|].
  rewrite Hfg by (left; reflexivity). apply IH. intros a y Hy. apply Hfg. right; exact Hy.
Qed.

Lemma fold_left_inv :
  forall (A B : Type) (P : A -> Prop) (f : A -> B -> A) (l : list B) (a0 : A),
    P a0 -> (forall a x, In x l -> P a -> P (f a x)) -> P (fold_left f l a0).
Proof.
  intros A B P f l. induction l as [|x l IH]; intros a0 H0 Hstep; cbn [fold_left]; [exact H0|].
  apply IH.
  - apply Hstep; [left; reflexivity | exact H0].
  - intros a y Hy. apply Hstep. right; exact Hy.
Qed.

Lemma map_seq_shift :
  forall (A : Type) (g : nat -> A) (off n s : nat),
    map (fun k => g (off + k)) (seq s n) = map g (seq (off + s) n).
Proof.
  intros A g off n. induction n as [|n IH]; intros s; cbn [seq map]; [reflexivity|].
  f_equal. rewrite IH. replace (off + S s) with (S (off + s)) by lia. reflexivity.
Qed.

Lemma div8_total : forall len, len / 8 * 8 + len mod 8 = len.
Proof. intros len. rewrite Nat.mul_comm. symmetry. apply Nat.div_mod. discriminate. Qed.

Lemma div8_bound : forall len i k, i < len / 8 -> k < 8 -> i * 8 + k < len.
Proof. intros len i k Hi Hk. pose proof (div8_total len). lia. Qed.

Lemma rem8_bound : forall len i, i < len mod 8 -> len / 8 * 8 + i < len.
Proof. intros len i Hi. pose proof (div8_total len). lia. Qed.

Section Generic.
  Variable F : Type.
  Variables fzero sum_init : F.
  Variables fadd fsub fmul : F -> F -> F.
  Variable fsqrt : F -> F.

  Notation sqd := (sqdiff F fsub fmul).
  Notation zipw := (zipw F).
  Notation ZERO8 := (ZERO8 F fzero).
  Notation body := (l2sq_body F fzero sum_init fadd fsub fmul).
  Notation simd_sq := (l2_distance_squared_simd F fzero sum_init fadd fsub fmul).
  Notation simd := (l2_distance_simd F fzero sum_init fadd fsub fmul fsqrt).
  Notation scalar_sq := (l2sq_scalar F sum_init fadd fsub fmul).

  Definition term (a b : list F) (i : nat) : F := sqd (nth i a fzero) (nth i b fzero).

  Definition body_terms (t : nat -> F) (len : nat) : F :=
    let chunks := len / 8 in
    let sum := fold_left (fun s i => zipw fadd s (map (fun k => t (i * 8 + k)) (seq 0 8)))
                         (seq 0 chunks) ZERO8 in
    let total := fold_left fadd sum sum_init in
    fold_left (fun tot i => fadd tot (t (chunks * 8 + i))) (seq 0 (len mod 8)) total.

  Lemma zipw_map_same :
    forall (f : F -> F -> F) (g h : nat -> F) (l : list nat),
      zipw f (map g l) (map h l) = map (fun k => f (g k) (h k)) l.
  Proof.
    intros f g h l. unfold SimdL2.zipw. induction l as [|x l IH]; cbn [map combine fst snd]; [reflexivity|].
    f_equal. exact IH.
  Qed.

  Lemma chunk_step_terms :
    forall a b sum i,
      chunk_step F fzero fadd fsub fmul a b sum i =
      zipw fadd sum (map (fun k => term a b (i * 8 + k)) (seq 0 8)).
  Proof.
    intros a b sum i. unfold chunk_step, load8. cbv zeta. rewrite !zipw_map_same. reflexivity.
  Qed.

  Lemma body_eq : forall a b, body a b = body_terms (term a b) (length a).
  Proof.
    intros a b. unfold l2sq_body, body_terms. cbv zeta.
    rewrite (fold_left_ext_in _ _ (chunk_step F fzero fadd fsub fmul a b)
               (fun s i => zipw fadd s (map (fun k => term a b (i * 8 + k)) (seq 0 8)))).
    - reflexivity.
    - intros s i _. apply chunk_step_terms.
  Qed.

  Lemma body_terms_ext :
    forall t t' len, (forall i, i < len -> t i = t' i) -> body_terms t len = body_terms t' len.
  Proof.
    intros t t' len Htt. unfold body_terms. cbv zeta.
    rewrite (fold_left_ext_in _ _
               (fun s i => zipw fadd s (map (fun k => t (i * 8 + k)) (seq 0 8)))
               (fun s i => zipw fadd s (map (fun k => t' (i * 8 + k)) (seq 0 8)))).
    - apply fold_left_ext_in. intros tot i Hi. apply in_seq in Hi.
      rewrite Htt; [reflexivity|]. apply rem8_bound. lia.
    - intros s i Hi. apply in_seq in Hi. f_equal. apply map_ext_in. intros k Hk. apply in_seq in Hk.
      apply Htt. apply div8_bound; lia.
  Qed.

  (* with equal lengths the debug assertion passes *)
  Lemma simd_sq_ok : forall a b, length a = length b -> simd_sq a b = Ok (body a b).
  Proof. intros a b Hl. unfold l2_distance_squared_simd. rewrite Hl, Nat.eqb_refl. reflexivity. Qed.

  Lemma simd_ok : forall a b, length a = length b -> simd a b = Ok (fsqrt (body a b)).
  Proof. intros a b Hl. unfold l2_distance_simd. rewrite (simd_sq_ok a b Hl). reflexivity. Qed.

  Section Symmetry.
    Hypothesis sqd_sym : forall x y, sqd x y = sqd y x.

    Lemma body_sym : forall a b, length a = length b -> body a b = body b a.
    Proof.
      intros a b Hlen. rewrite !body_eq, <- Hlen. apply body_terms_ext.
      intros i _. unfold term. apply sqd_sym.
    Qed.

    Theorem simd_sq_sym : forall a b, simd_sq a b = simd_sq b a.
    Proof.
      intros a b. unfold l2_distance_squared_simd.
      rewrite (Nat.eqb_sym (length b) (length a)).
      destruct (Nat.eqb (length a) (length b)) eqn:E; cbn [negb]; [|reflexivity].
      apply Nat.eqb_eq in E. rewrite (body_sym a b E). reflexivity.
    Qed.

    Theorem simd_sym : forall a b, simd a b = simd b a.
    Proof. intros a b. unfold l2_distance_simd. rewrite (simd_sq_sym a b). reflexivity. Qed.

    Theorem scalar_sq_sym : forall a b, scalar_sq a b = scalar_sq b a.
    Proof.
      intros a b. unfold l2sq_scalar. f_equal.
      revert b. induction a as [|x a IH]; intros [|y b]; cbn [combine map fst snd]; try reflexivity.
      rewrite sqd_sym, IH. reflexivity.
    Qed.
  End Symmetry.

  Lemma zipw_length8 : forall f x y, length x = 8 -> length y = 8 -> length (zipw f x y) = 8.
  Proof. intros f x y Hx Hy. unfold SimdL2.zipw. rewrite map_length, combine_length. lia. Qed.

  Lemma lanes_length8 : forall (t : nat -> F) l,
    length (fold_left (fun s i => zipw fadd s (map (fun k => t (i * 8 + k)) (seq 0 8))) l ZERO8) = 8.
  Proof.
    intros t l. apply fold_left_inv; [reflexivity|]. intros s i _ Hs.
    apply zipw_length8; [exact Hs|]. rewrite map_length, seq_length. reflexivity.
  Qed.

  Lemma fold_left_add_map :
    forall (g : nat -> F) l t0, fold_left (fun tot i => fadd tot (g i)) l t0 = fold_left fadd (map g l) t0.
  Proof. intros g l. induction l as [|x l IH]; intros t0; cbn [fold_left map]; [reflexivity | apply IH]. Qed.

  (* A property of the terms that every addition of the kernel preserves holds of its result.
     sum_init need not have it (-0.0 on floats is neither "zero" nor "sign bit clear"): P_init asks
     only that adding it to a lane keeps it, which is why the first of the 8 lanes is singled out. *)
  Section Closed.
    Variable P : F -> Prop.
    Hypothesis P_add : forall x y, P x -> P y -> P (fadd x y).
    Hypothesis P_zero : P fzero.
    Hypothesis P_init : forall x, P x -> P (fadd sum_init x).

    Lemma zipw_closed : forall x y, Forall P x -> Forall P y -> Forall P (zipw fadd x y).
    Proof.
      unfold SimdL2.zipw. intros x. induction x as [|u x IH]; intros [|v y] Hx Hy; cbn [combine map]; try constructor.
      - cbn [fst snd]. apply P_add; [inversion Hx | inversion Hy]; assumption.
      - apply IH; [inversion Hx | inversion Hy]; assumption.
    Qed.

    Lemma fold_add_closed : forall l t, P t -> Forall P l -> P (fold_left fadd l t).
    Proof.
      intros l. induction l as [|x l IH]; intros t Ht Hl; cbn [fold_left]; [exact Ht|].
      apply IH; [apply P_add; [exact Ht | inversion Hl; assumption] | inversion Hl; assumption].
    Qed.

    Lemma body_terms_closed : forall t len, (forall i, i < len -> P (t i)) -> P (body_terms t len).
    Proof.
      intros t len Ht. unfold body_terms. cbv zeta.
      pose proof (lanes_length8 t (seq 0 (len / 8))) as Hl.
      set (sum := fold_left _ (seq 0 (len / 8)) ZERO8) in *.
      assert (Hs : Forall P sum).
      { subst sum. apply fold_left_inv.
        - unfold SimdL2.ZERO8. cbn [repeat]. repeat constructor; exact P_zero.
        - intros s i Hi Hs. apply in_seq in Hi.
          apply zipw_closed; [exact Hs|]. apply Forall_forall. intros v Hv.
          apply in_map_iff in Hv. destruct Hv as [k [Hk Hin]]. apply in_seq in Hin. subst v.
          apply Ht. apply div8_bound; lia. }
      apply fold_left_inv.
      - destruct sum as [|s0 rest]; [discriminate Hl|]. cbn [fold_left].
        apply fold_add_closed; [apply P_init; inversion Hs; assumption | inversion Hs; assumption].
      - intros tot i Hi Htot. apply in_seq in Hi. apply P_add; [exact Htot|].
        apply Ht. apply rem8_bound. lia.
    Qed.
  End Closed.

  Section Zero.
    Variable good : F -> Prop.                       (* "finite" *)
    Hypothesis sub_self : forall x, good x -> fsub x x = fzero.
    Hypothesis mul_zero : fmul fzero fzero = fzero.
    Hypothesis add_zero : fadd fzero fzero = fzero.
    Hypothesis init_zero : fadd sum_init fzero = fzero.

    (* every term is zero, and "is zero" survives the additions *)
    Theorem body_self_zero : forall a, Forall good a -> body a a = fzero.
    Proof.
      intros a Ha. rewrite body_eq. apply (body_terms_closed (fun x => x = fzero)).
      - intros x y -> ->. exact add_zero.
      - reflexivity.
      - intros x ->. exact init_zero.
      - intros i Hi. unfold term, sqdiff. cbv zeta.
        rewrite sub_self; [exact mul_zero|].
        rewrite Forall_forall in Ha. apply Ha. apply nth_In. exact Hi.
    Qed.

    Theorem simd_sq_self_zero : forall a, Forall good a -> simd_sq a a = Ok fzero.
    Proof. intros a Ha. rewrite (simd_sq_ok a a eq_refl), (body_self_zero a Ha). reflexivity. Qed.
  End Zero.

  Section NonNeg.
    Variable good : F -> Prop.                       (* "finite" *)
    Variable not_neg : F -> Prop.                         (* "not NaN and sign bit clear" *)
    Hypothesis not_neg_sqd : forall x y, good x -> good y -> not_neg (sqd x y).
    Hypothesis not_neg_add : forall x y, not_neg x -> not_neg y -> not_neg (fadd x y).
    Hypothesis not_neg_zero : not_neg fzero.
    Hypothesis not_neg_init : forall x, not_neg x -> not_neg (fadd sum_init x).

    Theorem body_not_neg :
      forall a b, length a = length b -> Forall good a -> Forall good b -> not_neg (body a b).
    Proof.
      intros a b Hlen Ha Hb. rewrite body_eq. apply (body_terms_closed not_neg not_neg_add not_neg_zero not_neg_init).
      intros i Hi. unfold term. rewrite Forall_forall in Ha, Hb.
      apply not_neg_sqd; [apply Ha | apply Hb]; apply nth_In; lia.
    Qed.
  End NonNeg.

  Section Exact.
    Hypothesis add_comm : forall x y, fadd x y = fadd y x.
    Hypothesis add_assoc : forall x y z, fadd x (fadd y z) = fadd (fadd x y) z.
    Hypothesis add_0_l : forall x, fadd fzero x = x.
    Hypothesis init_is_zero : sum_init = fzero.

    Definition fsum (l : list F) : F := fold_right fadd fzero l.

    Local Lemma add_0_r : forall x, fadd x fzero = x.
    Proof. intros x. rewrite add_comm. apply add_0_l. Qed.

    Local Lemma add4 : forall a b c d, fadd (fadd a b) (fadd c d) = fadd (fadd a c) (fadd b d).
    Proof.
      intros a b c d.
      rewrite <- (add_assoc a b (fadd c d)), (add_assoc b c d), (add_comm b c),
              <- (add_assoc c b d), (add_assoc a c (fadd b d)). reflexivity.
    Qed.

    Lemma fsum_app : forall l1 l2, fsum (l1 ++ l2) = fadd (fsum l1) (fsum l2).
    Proof.
      intros l1 l2. induction l1 as [|x l1 IH]; cbn [app fsum fold_right].
      - symmetry. apply add_0_l.
      - fold (fsum (l1 ++ l2)). fold (fsum l1). rewrite IH. apply add_assoc.
    Qed.

    Lemma fsum_zipw : forall x y, length x = length y -> fsum (zipw fadd x y) = fadd (fsum x) (fsum y).
    Proof.
      unfold SimdL2.zipw. intros x. induction x as [|u x IH]; intros [|v y] Hl; try discriminate Hl;
        cbn [combine map fsum fold_right fst snd].
      - symmetry. apply add_0_l.
      - fold (fsum x). fold (fsum y). fold (fsum (map (fun p => fadd (fst p) (snd p)) (combine x y))).
        rewrite IH by (injection Hl; auto). apply add4.
    Qed.

    Lemma fold_left_fsum : forall l t, fold_left fadd l t = fadd t (fsum l).
    Proof.
      intros l. induction l as [|x l IH]; intros t; cbn [fold_left fsum fold_right].
      - symmetry. apply add_0_r.
      - fold (fsum l). rewrite IH. symmetry. apply add_assoc.
    Qed.

    Lemma fsum_ZERO8 : fsum ZERO8 = fzero.
    Proof. unfold SimdL2.ZERO8. cbn [repeat fsum fold_right]. rewrite !add_0_l. reflexivity. Qed.

    Lemma chunks_fsum :
      forall (t : nat -> F) c,
        fsum (fold_left (fun s i => zipw fadd s (map (fun k => t (i * 8 + k)) (seq 0 8))) (seq 0 c) ZERO8)
        = fsum (map t (seq 0 (c * 8))).
    Proof.
      intros t c. induction c as [|c IH].
      - cbn [seq fold_left Nat.mul map]. apply fsum_ZERO8.
      - rewrite (seq_S c 0), fold_left_app. cbn [fold_left Nat.add].
        rewrite fsum_zipw by (rewrite lanes_length8, map_length, seq_length; reflexivity).
        rewrite IH, (map_seq_shift F t (c * 8) 8 0).
        replace (S c * 8) with (c * 8 + 8) by lia.
        rewrite seq_app, map_app, fsum_app. replace (c * 8 + 0) with (0 + c * 8) by lia. reflexivity.
    Qed.

    Lemma body_terms_exact :
      forall t len, body_terms t len = fold_left fadd (map t (seq 0 len)) fzero.
    Proof.
      intros t len. unfold body_terms. cbv zeta.
      rewrite fold_left_add_map, !fold_left_fsum, chunks_fsum, init_is_zero, !add_0_l.
      (* terms 0 .. len/8*8 - 1 from the lanes, then the len mod 8 of the remainder loop: seq 0 len *)
      rewrite (map_seq_shift F t (len / 8 * 8) (len mod 8) 0).
      rewrite <- fsum_app, <- map_app.
      replace (len / 8 * 8 + 0) with (0 + len / 8 * 8) by lia.
      rewrite <- seq_app, div8_total. reflexivity.
    Qed.

    Lemma combine_terms :
      forall a b, length a = length b ->
        map (fun p => sqd (fst p) (snd p)) (combine a b) = map (term a b) (seq 0 (length a)).
    Proof.
      intros a. induction a as [|x a IH]; intros [|y b] Hl; try discriminate Hl; cbn [combine map length seq fst snd].
      - reflexivity.
      - f_equal. rewrite <- seq_shift, map_map. rewrite IH by (injection Hl; auto).
        apply map_ext. intros i. reflexivity.
    Qed.

    Theorem body_exact : forall a b, length a = length b -> body a b = scalar_sq a b.
    Proof.
      intros a b Hl. rewrite body_eq, body_terms_exact. unfold l2sq_scalar.
      rewrite combine_terms by exact Hl. rewrite init_is_zero. reflexivity.
    Qed.

    Theorem simd_sq_exact :
      forall a b, length a = length b -> simd_sq a b = Ok (scalar_sq a b).
    Proof. intros a b Hl. rewrite (simd_sq_ok a b Hl), (body_exact a b Hl). reflexivity. Qed.
  End Exact.
End Generic.
