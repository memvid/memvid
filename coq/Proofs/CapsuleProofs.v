(* Proofs about Model/Capsule.v (byte instance).  Lock's write loop has a normal form: it writes
   the `records` of the `chunks` of the file (lock_loop_spec).  So has unlock's read loop:
   `frames` cuts a body into records without decrypting anything, `finish` decrypts them in order
   and then looks at how the cut ended (unlock_loop_frames).  The AEAD is the functions kdf, enc,
   dec; each section says what it assumes of them.  Section Integrity, where the AEAD is ideal,
   reads an accepted capsule back, record by record, as a prefix of what was issued (`unforged`,
   decrypt_all_authentic).  A "frame" in this file is one length-prefixed record of a capsule body
   (`frame`, `frames`), not a memvid frame. *)
From MV Require Import Base.Prelude Base.Facts Model.Capsule.
Local Open Scope N_scope.

Lemma be_encode_inj i j : i < 2 ^ 64 -> j < 2 ^ 64 -> be_encode 8 i = be_encode 8 j -> i = j.
Proof.
  intros Hi Hj E. unfold be_encode in E.
  apply (f_equal (@rev N)) in E. rewrite !rev_involutive in E.
  apply (f_equal le_decode) in E.
  rewrite !le_decode_encode in E; auto.
Qed.

Lemma be_encode_length n v : length (be_encode n v) = n.
Proof. unfold be_encode. rewrite rev_length. apply le_encode_length. Qed.

Lemma chunk_nonce_inj b b' i j :
  length b = NONCE_SIZE -> length b' = NONCE_SIZE -> i < 2 ^ 64 -> j < 2 ^ 64 ->
  chunk_nonce b i = chunk_nonce b' j -> firstn 4 b = firstn 4 b' /\ i = j.
Proof.
  intros Hb Hb' Hi Hj E. unfold chunk_nonce in E.
  change (NONCE_SIZE - 8)%nat with 4%nat in E.
  apply app_inv_length in E.
  - destruct E as [E1 E2]. split; [assumption | apply be_encode_inj; assumption].
  - rewrite !firstn_length. unfold NONCE_SIZE in *. lia.
Qed.

Lemma chunk_nonce_ext b b' i : firstn 4 b = firstn 4 b' -> chunk_nonce b i = chunk_nonce b' i.
Proof. intros E. unfold chunk_nonce. change (NONCE_SIZE - 8)%nat with 4%nat. rewrite E. reflexivity. Qed.

Definition std_header (salt base : bytes) (size : N) (reserved : bytes) : header :=
  mkHeader MV2E_MAGIC MV2E_VERSION KDF_ARGON2ID CIPHER_AES_256_GCM salt base size reserved.

Lemma header_encode_length h : header_wf h -> length (header_encode h) = 64%nat.
Proof.
  intros (Hm & Hver & Hkdf & Hcipher & Hs & Hn & Hsize & Hr). unfold header_encode.
  rewrite !app_length, !le_encode_length, Hm, Hs, Hn, Hr. reflexivity.
Qed.

Lemma header_decode_encode salt base size reserved :
  length salt = SALT_SIZE -> length base = NONCE_SIZE -> size < 2 ^ 64 -> length reserved = 4%nat ->
  header_decode (header_encode (std_header salt base size reserved)) = Ok (std_header salt base size reserved).
Proof.
  intros Hs Hn Hz Hr.
  set (fs := [MV2E_MAGIC; le_encode 2 MV2E_VERSION; [KDF_ARGON2ID]; [CIPHER_AES_256_GCM];
              salt; base; le_encode 8 size; reserved]).
  assert (E : header_encode (std_header salt base size reserved) = concat fs).
  { unfold header_encode. cbn [concat fs std_header h_magic h_version h_kdf h_cipher h_salt h_nonce h_size h_reserved].
    rewrite app_nil_r. reflexivity. }
  assert (F : map (@length N) fs = [4; 2; 1; 1; 32; 12; 8; 4]%nat).
  { cbn [map fs]. rewrite !le_encode_length, Hs, Hn, Hr. reflexivity. }
  rewrite E. unfold header_decode.
  rewrite (field_at fs _ 0 0 4 F), (field_at fs _ 1 4 2 F), (field_at fs _ 4 8 32 F),
    (field_at fs _ 5 40 12 F), (field_at fs _ 6 52 8 F), (field_at fs _ 7 60 4 F) by reflexivity.
  rewrite (nth_of_slice _ 6 KDF_ARGON2ID 0 (field_at fs _ 2 6 1 F eq_refl eq_refl)),
    (nth_of_slice _ 7 CIPHER_AES_256_GCM 0 (field_at fs _ 3 7 1 F eq_refl eq_refl)).
  cbn [nth fs]. rewrite !le_decode_encode by (try assumption; reflexivity).
  reflexivity.
Qed.

(* how unlock_file_stream's loop cuts a body into records, independently of decryption *)
Inductive ending := Clean (tail : bytes) | Short | NoFuel.

Fixpoint frames (fuel : nat) (s : bytes) : list bytes * ending :=
  match fuel with
  | O => ([], NoFuel)
  | S fu =>
      if 4 <=? blen s then
        let clen := le_decode (firstn 4 s) in
        let s1 := skipn 4 s in
        if clen <=? blen s1 then
          let '(r, e) := frames fu (skipn (N.to_nat clen) s1) in
          (firstn (N.to_nat clen) s1 :: r, e)
        else ([], Short)
      else ([], Clean s)
  end.

(* a record as lock writes it (chunk_len = len as u32) *)
Definition frame (c : bytes) : bytes := le_encode 4 (blen c mod 2 ^ 32) ++ c.

Lemma frames_prefix fuel n s :
  n < 2 ^ 32 ->
  frames (S fuel) (le_encode 4 n ++ s) =
  if n <=? blen s
  then (firstn (N.to_nat n) s :: fst (frames fuel (skipn (N.to_nat n) s)),
        snd (frames fuel (skipn (N.to_nat n) s)))
  else ([], Short).
Proof.
  intros Hn. cbn [frames].
  assert (E4 : 4 <=? blen (le_encode 4 n ++ s) = true).
  { apply N.leb_le. unfold blen. rewrite app_length, le_encode_length. lia. }
  rewrite E4, firstn_app_exact, skipn_app_exact by (rewrite le_encode_length; reflexivity).
  rewrite le_decode_encode by exact Hn.
  destruct (n <=? blen s); [|reflexivity]. destruct (frames fuel _); reflexivity.
Qed.

Lemma frames_one fuel (c rest : bytes) :
  blen c < 2 ^ 32 ->
  frames (S fuel) (frame c ++ rest) = (c :: fst (frames fuel rest), snd (frames fuel rest)).
Proof.
  intros Hc. unfold frame. rewrite N.mod_small, <- app_assoc, frames_prefix by assumption.
  assert (El : blen c <=? blen (c ++ rest) = true).
  { apply N.leb_le. unfold blen. rewrite app_length. lia. }
  rewrite El. replace (N.to_nat (blen c)) with (length c) by (unfold blen; lia).
  rewrite firstn_app_exact, skipn_app_exact by reflexivity. reflexivity.
Qed.

Lemma frames_cut fuel (c : bytes) x :
  blen c < 2 ^ 32 -> (x < length c)%nat ->
  frames (S fuel) (le_encode 4 (blen c) ++ firstn x c) = ([], Short).
Proof.
  intros Hc Hx. rewrite frames_prefix by assumption.
  assert (El : blen c <=? blen (firstn x c) = false).
  { apply N.leb_gt. unfold blen. rewrite firstn_length. lia. }
  rewrite El. reflexivity.
Qed.

Lemma frames_tail fuel tail : (length tail < 4)%nat -> frames (S fuel) tail = ([], Clean tail).
Proof.
  intros Ht. cbn [frames].
  assert (E : 4 <=? blen tail = false) by (unfold blen; apply N.leb_gt; lia).
  rewrite E. reflexivity.
Qed.

Lemma frames_count fuel : forall s, (length (fst (frames fuel s)) <= length s)%nat.
Proof.
  induction fuel as [|fu IH]; intros s; cbn [frames]; [cbn; lia|].
  destruct (4 <=? blen s) eqn:E4; [|cbn; lia].
  destruct (le_decode (firstn 4 s) <=? blen (skipn 4 s)) eqn:El; [|cbn; lia].
  specialize (IH (skipn (N.to_nat (le_decode (firstn 4 s))) (skipn 4 s))).
  destruct (frames fu _) as [r e]. cbn [fst length] in *.
  rewrite !skipn_length in IH. apply N.leb_le in E4. unfold blen in E4. lia.
Qed.

(* each turn consumes its 4-byte prefix *)
Lemma frames_enough : forall fuel fuel' s,
  (length s < fuel)%nat -> (length s < fuel')%nat -> frames fuel s = frames fuel' s.
Proof.
  induction fuel as [|fu IH]; intros [|fu'] s H H'; try lia. cbn [frames].
  destruct (4 <=? blen s) eqn:E4; [|reflexivity]. apply N.leb_le in E4. unfold blen in E4.
  destruct (le_decode (firstn 4 s) <=? blen (skipn 4 s)); [|reflexivity].
  rewrite (IH fu') by (rewrite !skipn_length; lia). reflexivity.
Qed.

(* a record's length prefix is a u32, hence the bound *)
Lemma frames_framed : forall (cts : list bytes) fuel rest,
  Forall (fun c => blen c < 2 ^ 32) cts ->
  frames (length cts + fuel) (concat (map frame cts) ++ rest) =
  (cts ++ fst (frames fuel rest), snd (frames fuel rest)).
Proof.
  induction cts as [|c r IH]; intros fuel rest Hc.
  - cbn. destruct (frames fuel rest); reflexivity.
  - inversion Hc as [|? ? Hc1 Hr]; subst.
    cbn [length Nat.add map concat]. rewrite <- app_assoc, frames_one by exact Hc1.
    rewrite IH by exact Hr. reflexivity.
Qed.

Lemma framed_length_ge : forall cts : list bytes, (length cts <= length (concat (map frame cts)))%nat.
Proof.
  induction cts as [|c r IH]; cbn [map concat length]; [lia|].
  unfold frame at 1. rewrite !app_length, le_encode_length. lia.
Qed.

Lemma read_header_eq caps :
  read_header blen bsplit (@Some bytes) caps =
  if 64 <=? blen caps then
    match header_decode (firstn 64 caps) with
    | Ok h => Ok (h, skipn 64 caps)
    | Err e => Err e
    | Panic s => Panic s
    end
  else Err E_IO.
Proof.
  unfold read_header, read_exact, bsplit. change (N.to_nat MV2E_HEADER_SIZE) with 64%nat.
  change MV2E_HEADER_SIZE with 64. destruct (64 <=? blen caps); reflexivity.
Qed.

Lemma read_header_ok t h body :
  read_header blen bsplit (@Some bytes) t = Ok (h, body) ->
  (length body <= length t)%nat /\ length (h_nonce h) = NONCE_SIZE.
Proof.
  rewrite read_header_eq. destruct (64 <=? blen t) eqn:E64; [|discriminate].
  apply N.leb_le in E64. unfold blen in E64.
  assert (Hhb : length (firstn 64 t) = 64%nat) by (rewrite firstn_length; lia).
  assert (Hrest : (length (skipn 64 t) <= length t)%nat) by (rewrite skipn_length; lia).
  revert Hhb Hrest. generalize (firstn 64 t) (skipn 64 t). intros hb rest Hhb Hrest.
  unfold header_decode. repeat (destruct (negb _); [discriminate|]).
  intros [= <- <-]. cbn [h_nonce]. split; [exact Hrest|].
  apply slice_length. rewrite Hhb. unfold NONCE_SIZE. lia.
Qed.

Lemma read_header_std salt base size rsv body :
  length salt = SALT_SIZE -> length base = NONCE_SIZE -> size < 2 ^ 64 -> length rsv = 4%nat ->
  read_header blen bsplit (@Some bytes) (header_encode (std_header salt base size rsv) ++ body) =
  Ok (std_header salt base size rsv, body).
Proof.
  intros Hs Hn Hz Hr. rewrite read_header_eq.
  assert (L : length (header_encode (std_header salt base size rsv)) = 64%nat).
  { apply header_encode_length. unfold header_wf, std_header; cbn. repeat split; try assumption; reflexivity. }
  assert (E : 64 <=? blen (header_encode (std_header salt base size rsv) ++ body) = true).
  { apply N.leb_le. unfold blen. rewrite app_length, L. lia. }
  rewrite E, firstn_app_exact, skipn_app_exact by (symmetry; exact L).
  rewrite header_decode_encode by assumption. reflexivity.
Qed.

(* what lock's loop reads from a regular file *)
Fixpoint chunks (fuel : nat) (cs : nat) (f : bytes) : list bytes :=
  match fuel with
  | O => []
  | S fu =>
      let n := Nat.min cs (length f) in
      match n with
      | O => []
      | S _ => firstn n f :: chunks fu cs (skipn n f)
      end
  end.

Lemma chunks_concat fuel cs : forall f, (0 < cs)%nat -> (length f < fuel)%nat -> concat (chunks fuel cs f) = f.
Proof.
  induction fuel as [|fu IH]; intros f Hc Hf; [lia|].
  cbn [chunks]. destruct (Nat.min cs (length f)) as [|n] eqn:En.
  - destruct f; cbn in *; [reflexivity | lia].
  - cbn [concat]. rewrite IH; [apply firstn_skipn | assumption | rewrite skipn_length; lia].
Qed.

Lemma chunks_bound fuel cs : forall f, Forall (fun p => (0 < length p <= cs)%nat) (chunks fuel cs f).
Proof.
  induction fuel as [|fu IH]; intros f; [constructor|].
  cbn [chunks]. destruct (Nat.min cs (length f)) as [|n] eqn:En; [constructor|].
  constructor; [rewrite firstn_length; lia | apply IH].
Qed.

Definition the_chunks (cs : N) (f : bytes) : list bytes := chunks (S (length f)) (N.to_nat cs) f.

Lemma the_chunks_concat cs f : 0 < cs -> concat (the_chunks cs f) = f.
Proof. intros H. apply chunks_concat; lia. Qed.

Lemma the_chunks_bound cs f : Forall (fun p : bytes => (length p <= N.to_nat cs)%nat) (the_chunks cs f).
Proof. eapply Forall_impl; [|apply chunks_bound]. cbn. intros; lia. Qed.

(* In these sections lia captures section variables and hypotheses its goal does not need, and the lemma then
   asks for them.  Hence one section per set of AEAD functions, with assumptions only where they are used; where
   a statement is to carry a section's assumptions regardless (truncated_is_prefix), `Proof using` says so. *)

Section Reader.
  Context {key : Type}.
  Variable dec : key -> bytes -> bytes -> option bytes.

  Fixpoint decrypt_all (k : key) (base : bytes) (idx : N) (recs : list bytes) (acc : bytes) : option bytes :=
    match recs with
    | [] => Some acc
    | c :: r =>
        match dec k (chunk_nonce base idx) c with
        | None => None
        | Some p => decrypt_all k base (idx + 1) r (acc ++ p)
        end
    end.

  Definition finish (x : list bytes * ending) (k : key) (base : bytes) (idx : N) (acc : bytes) : outcome bytes :=
    match decrypt_all k base idx (fst x) acc with
    | None => Err E_DECRYPT
    | Some out =>
        match snd x with
        | Clean _ => Ok out
        | Short => Err E_IO
        | NoFuel => Err E_FUEL
        end
    end.

  Lemma finish_Ok x k base idx acc out :
    finish x k base idx acc = Ok out ->
    decrypt_all k base idx (fst x) acc = Some out /\ exists tail, snd x = Clean tail.
  Proof.
    unfold finish. destruct (decrypt_all k base idx (fst x) acc); [|discriminate].
    destruct (snd x) as [tail| |]; try discriminate. intros [= ->]. eauto.
  Qed.

  Lemma unlock_loop_S fu k base idx s acc :
    b_unlock_loop dec (S fu) k base idx s acc =
    if 4 <=? blen s then
      if le_decode (firstn 4 s) <=? blen (skipn 4 s) then
        match dec k (chunk_nonce base idx) (firstn (N.to_nat (le_decode (firstn 4 s))) (skipn 4 s)) with
        | None => Err E_DECRYPT
        | Some p => b_unlock_loop dec fu k base (idx + 1)
                                  (skipn (N.to_nat (le_decode (firstn 4 s))) (skipn 4 s)) (acc ++ p)
        end
      else Err E_IO
    else Ok acc.
  Proof.
    unfold b_unlock_loop. cbn [unlock_loop]. unfold read_exact, bsplit.
    change (N.to_nat 4) with 4%nat.
    destruct (4 <=? blen s); [|reflexivity].
    destruct (le_decode (firstn 4 s) <=? blen (skipn 4 s)); reflexivity.
  Qed.

  (* a failing record hides what comes after it: a decryption failure is reported before a later short read *)
  Lemma unlock_loop_frames fuel : forall k base idx s acc,
    b_unlock_loop dec fuel k base idx s acc = finish (frames fuel s) k base idx acc.
  Proof.
    unfold finish. induction fuel as [|fu IH]; intros k base idx s acc.
    - reflexivity.
    - rewrite unlock_loop_S. cbn [frames].
      destruct (4 <=? blen s); [|reflexivity].
      destruct (le_decode (firstn 4 s) <=? blen (skipn 4 s)); [|reflexivity].
      destruct (frames fu (skipn (N.to_nat (le_decode (firstn 4 s))) (skipn 4 s))) as [r e] eqn:Ef.
      cbn [fst snd decrypt_all].
      destruct (dec k (chunk_nonce base idx) _) as [p|]; [|reflexivity].
      rewrite IH, Ef. reflexivity.
  Qed.

  Lemma decrypt_all_app k base : forall cts idx rs acc,
    decrypt_all k base idx (cts ++ rs) acc =
    match decrypt_all k base idx cts acc with
    | Some out => decrypt_all k base (idx + N.of_nat (length cts)) rs out
    | None => None
    end.
  Proof.
    induction cts as [|c r IH]; intros idx rs acc; cbn [decrypt_all app length].
    - f_equal. lia.
    - destruct (dec k (chunk_nonce base idx) c) as [p|]; [|reflexivity].
      rewrite IH. destruct (decrypt_all k base (idx + 1) r (acc ++ p)); [|reflexivity]. f_equal. lia.
  Qed.

  Lemma finish_tail fu tail k b i acc :
    (length tail < 4)%nat -> finish (frames (S fu) tail) k b i acc = Ok acc.
  Proof. intros Ht. rewrite frames_tail by exact Ht. reflexivity. Qed.

  Lemma finish_bad fu c rest k b i acc :
    blen c < 2 ^ 32 -> dec k (chunk_nonce b i) c = None ->
    finish (frames (S fu) (frame c ++ rest)) k b i acc = Err E_DECRYPT.
  Proof.
    intros Hc Hd. rewrite frames_one by exact Hc. unfold finish. cbn [fst decrypt_all].
    rewrite Hd. reflexivity.
  Qed.

  Lemma finish_cut fu c x k b i acc :
    blen c < 2 ^ 32 -> (x < length c)%nat ->
    finish (frames (S fu) (le_encode 4 (blen c) ++ firstn x c)) k b i acc = Err E_IO.
  Proof. intros Hc Hx. rewrite frames_cut by assumption. reflexivity. Qed.
End Reader.

Section Writer.
  Context {key : Type}.
  Variable enc : key -> bytes -> bytes -> bytes.

  Fixpoint cts_from (k : key) (base : bytes) (idx : N) (ps : list bytes) : list bytes :=
    match ps with
    | [] => []
    | p :: r => enc k (chunk_nonce base idx) p :: cts_from k base (idx + 1) r
    end.

  Definition records (k : key) (base : bytes) (idx : N) (ps : list bytes) : bytes :=
    concat (map frame (cts_from k base idx ps)).

  Lemma lock_loop_S cs fu k base idx rest acc :
    b_lock_loop enc cs (S fu) k base idx rest acc =
    let n := N.to_nat (N.min cs (blen rest)) in
    if blen (firstn n rest) =? 0 then Ok acc
    else b_lock_loop enc cs fu k base (idx + 1) (skipn n rest)
                     (acc ++ frame (enc k (chunk_nonce base idx) (firstn n rest))).
  Proof. reflexivity. Qed.

  Lemma lock_loop_spec cs fuel : forall k base idx f acc,
    (length f < fuel)%nat ->
    b_lock_loop enc cs fuel k base idx f acc =
    Ok (acc ++ records k base idx (chunks fuel (N.to_nat cs) f)).
  Proof.
    induction fuel as [|fu IH]; intros k base idx f acc Hf; [lia|].
    rewrite lock_loop_S. cbv zeta.
    assert (En : N.to_nat (N.min cs (blen f)) = Nat.min (N.to_nat cs) (length f)) by (unfold blen; lia).
    rewrite En. cbn [chunks].
    destruct (Nat.min (N.to_nat cs) (length f)) as [|n] eqn:Em.
    - cbn. unfold records. cbn. rewrite app_nil_r. reflexivity.
    - assert (Hl : blen (firstn (S n) f) =? 0 = false).
      { unfold blen. rewrite firstn_length. apply N.eqb_neq. lia. }
      rewrite Hl. rewrite IH; [|rewrite skipn_length; lia].
      unfold records. cbn [cts_from map concat]. rewrite <- app_assoc. reflexivity.
  Qed.

  Lemma cts_from_ext k b b' : firstn 4 b = firstn 4 b' ->
    forall ps idx, cts_from k b idx ps = cts_from k b' idx ps.
  Proof.
    intros E. induction ps as [|p r IH]; intros idx; cbn [cts_from]; [reflexivity|].
    rewrite IH, (chunk_nonce_ext b b' idx E). reflexivity.
  Qed.

  Lemma cts_from_length k b : forall ps idx, length (cts_from k b idx ps) = length ps.
  Proof. induction ps as [|p r IH]; intros idx; cbn [cts_from length]; [reflexivity | rewrite IH; reflexivity]. Qed.

  Lemma records_app k base : forall ps1 ps2 idx,
    records k base idx (ps1 ++ ps2) =
    records k base idx ps1 ++ records k base (idx + N.of_nat (length ps1)) ps2.
  Proof.
    induction ps1 as [|p r IH]; intros ps2 idx; unfold records in *; cbn [cts_from map concat app length].
    - replace (idx + N.of_nat 0) with idx by lia. reflexivity.
    - rewrite IH, <- app_assoc.
      replace (idx + 1 + N.of_nat (length r)) with (idx + N.of_nat (S (length r))) by lia. reflexivity.
  Qed.

  (* with the tag a record still fits its u32 length prefix (ciphertext.len() as u32) *)
  Lemma cts_from_small k base (cs : nat) :
    (forall k n p, length (enc k n p) = (length p + TAG_SIZE)%nat) ->
    forall ps idx,
      Forall (fun p : bytes => (length p <= cs)%nat) ps -> N.of_nat cs + 16 < 2 ^ 32 ->
      Forall (fun c => blen c < 2 ^ 32) (cts_from k base idx ps).
  Proof.
    intros enc_len. induction ps as [|p r IH]; intros idx Hps Hcs; cbn [cts_from]; [constructor|].
    inversion Hps as [|? ? Hp Hr]; subst. constructor; [|apply IH; assumption].
    unfold blen. rewrite enc_len. unfold TAG_SIZE. lia.
  Qed.

  Lemma the_chunks_ct_small k n cs f p :
    (forall k n p, length (enc k n p) = (length p + TAG_SIZE)%nat) ->
    cs + 16 < 2 ^ 32 -> In p (the_chunks cs f) -> blen (enc k n p) < 2 ^ 32.
  Proof.
    intros enc_len Hcs Hp. unfold blen. rewrite enc_len.
    pose proof (the_chunks_bound cs f) as HB. rewrite Forall_forall in HB. specialize (HB p Hp).
    unfold TAG_SIZE. lia.
  Qed.
End Writer.

Section Unlock.
  Context {key : Type}.
  Variable kdf : bytes -> bytes -> key.
  Variable dec : key -> bytes -> bytes -> option bytes.

  Lemma b_unlock_eq pw caps :
    b_unlock kdf dec pw caps =
    match read_header blen bsplit (@Some bytes) caps with
    | Err e => Err e
    | Panic s => Panic s
    | Ok (h, body) =>
        if nth 0 (h_reserved h) 0 =? 1 then
          b_unlock_loop dec (S (length caps)) (kdf pw (h_salt h)) (h_nonce h) 0 body []
        else unlock_file_oneshot blen bsplit (@Some bytes) kdf dec pw h body
    end.
  Proof.
    unfold b_unlock, unlock_file, unlock_file_stream.
    destruct (read_header blen bsplit (@Some bytes) caps) as [[h body]|e|st]; reflexivity.
  Qed.

  (* cts are ANY complete records; original_size and reserved[1..3] do not matter *)
  Lemma unlock_framed pw salt base size r1 r2 r3 (cts : list bytes) rest :
    length salt = SALT_SIZE -> length base = NONCE_SIZE -> size < 2 ^ 64 ->
    Forall (fun c => blen c < 2 ^ 32) cts ->
    b_unlock kdf dec pw (header_encode (std_header salt base size [1; r1; r2; r3]) ++
                         concat (map frame cts) ++ rest) =
    finish dec (cts ++ fst (frames (S (length rest)) rest), snd (frames (S (length rest)) rest))
           (kdf pw salt) base 0 [].
  Proof.
    intros Hs Hn Hz Hc.
    rewrite b_unlock_eq, read_header_std by (try assumption; reflexivity).
    cbn [std_header h_reserved h_salt h_nonce nth]. change (1 =? 1) with true. cbv iota.
    rewrite unlock_loop_frames.
    set (caps := header_encode _ ++ _).
    (* the fuel, one more than the capsule has bytes, covers the records and what rest needs *)
    assert (Hfu : (length cts + length rest < S (length caps))%nat).
    { pose proof (framed_length_ge cts) as Hrl. subst caps. rewrite !app_length. lia. }
    replace (S (length caps)) with (length cts + (S (length caps) - length cts))%nat by lia.
    rewrite frames_framed by exact Hc.
    rewrite (frames_enough _ (S (length rest)) rest) by lia. reflexivity.
  Qed.

  Lemma unlock_resumes pw salt base size r1 r2 r3 (cts : list bytes) out rest :
    length salt = SALT_SIZE -> length base = NONCE_SIZE -> size < 2 ^ 64 ->
    Forall (fun c => blen c < 2 ^ 32) cts ->
    decrypt_all dec (kdf pw salt) base 0 cts [] = Some out ->
    b_unlock kdf dec pw (header_encode (std_header salt base size [1; r1; r2; r3]) ++
                         concat (map frame cts) ++ rest) =
    finish dec (frames (S (length rest)) rest) (kdf pw salt) base (N.of_nat (length cts)) out.
  Proof.
    intros Hs Hn Hz Hc Hd. rewrite unlock_framed by assumption.
    unfold finish. cbn [fst snd]. rewrite decrypt_all_app, Hd. reflexivity.
  Qed.
End Unlock.

Section Honest.
  Context {key : Type}.
  Variable kdf : bytes -> bytes -> key.
  Variable enc : key -> bytes -> bytes -> bytes.
  Variable dec : key -> bytes -> bytes -> option bytes.
  Hypothesis dec_enc : forall k n p, dec k n (enc k n p) = Some p.
  Hypothesis enc_len : forall k n p, length (enc k n p) = (length p + TAG_SIZE)%nat.

  Lemma decrypt_all_cts k base : forall ps idx acc,
    decrypt_all dec k base idx (cts_from enc k base idx ps) acc = Some (acc ++ concat ps).
  Proof.
    induction ps as [|p r IH]; intros idx acc; cbn [cts_from decrypt_all concat].
    - rewrite app_nil_r. reflexivity.
    - rewrite dec_enc, IH, <- app_assoc. reflexivity.
  Qed.

  (* of the header's nonce only the first 4 bytes matter *)
  Lemma unlock_resumes_honest (cs : nat) pw salt base base' size r1 r2 r3 (ps : list bytes) rest :
    length salt = SALT_SIZE -> length base' = NONCE_SIZE -> firstn 4 base' = firstn 4 base ->
    size < 2 ^ 64 ->
    Forall (fun p : bytes => (length p <= cs)%nat) ps -> N.of_nat cs + 16 < 2 ^ 32 ->
    b_unlock kdf dec pw (header_encode (std_header salt base' size [1; r1; r2; r3]) ++
                         records enc (kdf pw salt) base 0 ps ++ rest) =
    finish dec (frames (S (length rest)) rest) (kdf pw salt) base' (N.of_nat (length ps)) (concat ps).
  Proof.
    intros Hs Hn' Hb Hz Hps Hcs.
    rewrite <- (cts_from_length enc (kdf pw salt) base ps 0).
    apply unlock_resumes; try assumption.
    - apply (cts_from_small enc _ _ cs enc_len); assumption.
    - rewrite (cts_from_ext enc (kdf pw salt) base base' (eq_sym Hb)). apply decrypt_all_cts.
  Qed.
End Honest.

Section Integrity.
  Context {key : Type}.
  Variable kdf : bytes -> bytes -> key.
  Variable enc : key -> bytes -> bytes -> bytes.
  Variable dec : key -> bytes -> bytes -> option bytes.
  Hypothesis dec_enc : forall k n p, dec k n (enc k n p) = Some p.
  Hypothesis dec_sound : forall k n c p, dec k n c = Some p -> c = enc k n p.
  Hypothesis enc_bind : forall k n p k' n' p', enc k n p = enc k' n' p' -> k = k' /\ n = n'.

  Lemma enc_inj k n p p' : enc k n p = enc k n p' -> p = p'.
  Proof.
    intros E. pose proof (dec_enc k n p) as H1. rewrite E, dec_enc in H1. congruence.
  Qed.

  Definition issued (k : key) (base : bytes) (ps : list bytes) (c : bytes) : Prop :=
    exists i p, nth_error ps i = Some p /\ c = enc k (chunk_nonce base (N.of_nat i)) p.

  Definition unforged (k : key) (base : bytes) (ps : list bytes) (c : bytes) : Prop :=
    issued k base ps c \/ forall k' n, dec k' n c = None.

  Lemma issue_inj k base i p k' base' j p' :
    length base = NONCE_SIZE -> length base' = NONCE_SIZE -> N.of_nat i < 2 ^ 64 -> N.of_nat j < 2 ^ 64 ->
    enc k (chunk_nonce base (N.of_nat i)) p = enc k' (chunk_nonce base' (N.of_nat j)) p' ->
    k = k' /\ firstn 4 base = firstn 4 base' /\ i = j /\ p = p'.
  Proof.
    intros Hb Hb' Hi Hj E. destruct (enc_bind _ _ _ _ _ _ E) as [-> En].
    apply chunk_nonce_inj in En as [E4 Eij]; try assumption. apply Nat2N.inj in Eij as ->.
    rewrite (chunk_nonce_ext base base' _ E4) in E. apply enc_inj in E. auto.
  Qed.

  Lemma decrypt_all_authentic k base (ps : list bytes) k' base' :
    length base = NONCE_SIZE -> length base' = NONCE_SIZE ->
    N.of_nat (length ps) < 2 ^ 64 ->
    forall (recs : list bytes) j acc out,
      (forall c, In c recs -> unforged k base ps c) ->
      N.of_nat j + N.of_nat (length recs) < 2 ^ 64 ->
      decrypt_all dec k' base' (N.of_nat j) recs acc = Some out ->
      recs = cts_from enc k base (N.of_nat j) (slice ps j (length recs)) /\
      out = acc ++ concat (slice ps j (length recs)) /\
      (length recs <> 0%nat -> (j + length recs <= length ps)%nat /\ k' = k /\ firstn 4 base' = firstn 4 base).
  Proof.
    intros Hb Hb' Hps. induction recs as [|c r IH]; intros j acc out Hun Hj Hd; cbn [decrypt_all length] in *.
    - injection Hd as <-. unfold slice. cbn. rewrite app_nil_r. repeat split; congruence.
    - destruct (dec k' (chunk_nonce base' (N.of_nat j)) c) as [p'|] eqn:Ed; [|discriminate].
      (* c decrypts, so it is no forgery but the ciphertext issued for some position i: that is j *)
      destruct (Hun c (or_introl eq_refl)) as [(i & p & Hi & ->) | Hnone]; [|rewrite Hnone in Ed; discriminate].
      assert (Hil : (i < length ps)%nat) by (apply nth_error_Some; congruence).
      apply dec_sound, issue_inj in Ed as (<- & E4 & -> & <-); try assumption; try lia.
      replace (N.of_nat j + 1) with (N.of_nat (S j)) in * by lia.
      destruct (IH (S j) (acc ++ p) out (fun c0 H => Hun c0 (or_intror H)) ltac:(lia) Hd) as (R1 & -> & R3).
      rewrite (slice_S ps j (length r) [] Hil), (nth_error_nth ps j [] Hi). cbn [cts_from concat].
      replace (N.of_nat j + 1) with (N.of_nat (S j)) by lia. rewrite <- R1, <- app_assoc.
      repeat split; auto. destruct (length r); [lia|]. destruct R3; [discriminate | lia].
  Qed.

  (* the streaming path, any presented capsule t; m may be smaller than the number of chunks: see C29_refuted *)
  Theorem unlock_stream_ok_is_chunk_prefix pw salt base (ps : list bytes) pw' t h body out :
    length base = NONCE_SIZE -> N.of_nat (length t) < 2 ^ 64 -> N.of_nat (length ps) < 2 ^ 64 ->
    read_header blen bsplit (@Some bytes) t = Ok (h, body) ->
    nth 0 (h_reserved h) 0 = 1 ->
    (forall c, In c (fst (frames (S (length t)) body)) -> unforged (kdf pw salt) base ps c) ->
    b_unlock kdf dec pw' t = Ok out ->
    let m := length (fst (frames (S (length t)) body)) in
    (m <= length ps)%nat /\ out = concat (firstn m ps) /\
    fst (frames (S (length t)) body) = cts_from enc (kdf pw salt) base 0 (firstn m ps) /\
    (exists tail, snd (frames (S (length t)) body) = Clean tail) /\
    (m <> 0%nat -> kdf pw' (h_salt h) = kdf pw salt /\ firstn 4 (h_nonce h) = firstn 4 base).
  Proof.
    intros Hb Ht Hps Hh Hr Hun Hok m.
    rewrite b_unlock_eq, Hh, Hr in Hok. change (1 =? 1) with true in Hok. cbv iota in Hok.
    rewrite unlock_loop_frames in Hok. apply finish_Ok in Hok as (Ed & tail & Ee).
    destruct (read_header_ok t h body Hh) as [Hbody Hn'].
    pose proof (frames_count (S (length t)) body) as Hc.
    destruct (decrypt_all_authentic (kdf pw salt) base ps (kdf pw' (h_salt h)) (h_nonce h) Hb Hn' Hps
                _ 0%nat [] out Hun ltac:(lia) Ed) as (R1 & R2 & R3).
    fold m in R1, R2, R3.
    split; [destruct m; [lia | apply R3; discriminate]|].
    split; [exact R2|]. split; [exact R1|]. split; [exists tail; exact Ee|]. intros Hm. apply R3, Hm.
  Qed.
End Integrity.

Definition is_mv2 (f : bytes) : Prop := firstn 4 f = MV2_MAGIC.

Section Final.
  Context {key : Type}.
  Variable kdf : bytes -> bytes -> key.
  Variable enc : key -> bytes -> bytes -> bytes.

  Definition capsule_header (salt base : bytes) (f : bytes) : bytes :=
    header_encode (std_header salt base (blen f) [1; 0; 0; 0]).
  Definition capsule_of (cs : N) (pw salt base f : bytes) : bytes :=
    capsule_header salt base f ++ records enc (kdf pw salt) base 0 (the_chunks cs f).

  Lemma lock_ok cs pw salt base f :
    is_mv2 f -> b_lock kdf enc cs pw salt base f = Ok (capsule_of cs pw salt base f).
  Proof.
    intros Hf. unfold b_lock, lock_file_stream, validate_mv2_file, read_exact, bsplit.
    change (N.to_nat 4) with 4%nat.
    assert (L4 : (4 <= length f)%nat).
    { unfold is_mv2 in Hf. pose proof (f_equal (@length N) Hf) as Hl. rewrite firstn_length in Hl. unfold MV2_MAGIC in Hl. cbn [length] in Hl. lia. }
    assert (E4 : 4 <=? blen f = true) by (apply N.leb_le; unfold blen; lia).
    rewrite E4. cbn [fst snd]. rewrite Hf, bytes_eqb_refl.
    exact (lock_loop_spec enc cs (S (length f)) (kdf pw salt) base 0 f _ (Nat.lt_succ_diag_r _)).
  Qed.

  Variable dec : key -> bytes -> bytes -> option bytes.
  Hypothesis dec_enc : forall k n p, dec k n (enc k n p) = Some p.
  Hypothesis enc_len : forall k n p, length (enc k n p) = (length p + TAG_SIZE)%nat.

  Lemma unlock_after_chunks cs pw salt base base' size r1 r2 r3 f m rest :
    cs + 16 < 2 ^ 32 -> length salt = SALT_SIZE -> length base' = NONCE_SIZE ->
    firstn 4 base' = firstn 4 base -> size < 2 ^ 64 ->
    b_unlock kdf dec pw (header_encode (std_header salt base' size [1; r1; r2; r3]) ++
                         records enc (kdf pw salt) base 0 (firstn m (the_chunks cs f)) ++ rest) =
    finish dec (frames (S (length rest)) rest) (kdf pw salt) base'
           (N.of_nat (length (firstn m (the_chunks cs f)))) (concat (firstn m (the_chunks cs f))).
  Proof.
    intros Hcs2 Hs Hb' Hp Hz.
    apply (unlock_resumes_honest kdf enc dec dec_enc enc_len (N.to_nat cs)); try assumption.
    - apply Forall_firstn, the_chunks_bound.
    - lia.
  Qed.

  (* the_chunks_nonempty and truncated_is_prefix go with C29_truncated_or_edited_capsule_accepted
     and are stated, like it, under all of the section's assumptions *)
  Lemma the_chunks_nonempty cs f : Forall (fun p : bytes => (0 < length p)%nat) (the_chunks cs f).
  Proof. eapply Forall_impl; [|apply chunks_bound]. cbn. intros; lia. Qed.

  Lemma truncated_is_prefix cs pw salt base f m :
    capsule_header salt base f ++ records enc (kdf pw salt) base 0 (firstn m (the_chunks cs f)) =
    firstn (length (capsule_header salt base f) +
            length (records enc (kdf pw salt) base 0 (firstn m (the_chunks cs f))))
           (capsule_of cs pw salt base f).
  Proof using kdf enc dec dec_enc enc_len.
    unfold capsule_of.
    rewrite <- (firstn_skipn m (the_chunks cs f)) at 3.
    rewrite (records_app enc), app_assoc.
    rewrite firstn_app_exact; [reflexivity | rewrite app_length; reflexivity].
  Qed.
End Final.
