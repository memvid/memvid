(* src/io/header.rs (Model/Header.v).  Encoding and decoding are each stated as a two-way
   alternative (header_encode_cases, header_decode_cases): all checks pass and the answer is Ok of
   header_image h (of header_fields b), or some check fails and the answer is an Err.  The round
   trip and the canonical form are the two directions of "header_image and header_fields are
   inverse".  Reading is decoding the first HEADER_SIZE bytes, the scrub of the legacy lock region
   touching only padding (header_read_eq). *)
From MV Require Import Base.Prelude Base.Facts Model.Header.
Local Open Scope N_scope.

Lemma layout (m v sp f w s c q k z : bytes) :
  length m = 4%nat -> length v = 2%nat -> length sp = 2%nat -> length f = 8%nat -> length w = 8%nat ->
  length s = 8%nat -> length c = 8%nat -> length q = 8%nat -> length k = 32%nat ->
  let b := m ++ v ++ sp ++ f ++ w ++ s ++ c ++ q ++ k ++ z in
  slice b 0 4 = m /\ slice b VERSION_OFFSET 2 = v /\
  nth SPEC_BYTES_OFFSET b 0 = nth 0 sp 0 /\ nth (SPEC_BYTES_OFFSET + 1) b 0 = nth 1 sp 0 /\
  slice b FOOTER_OFFSET_POS 8 = f /\ slice b WAL_OFFSET_POS 8 = w /\ slice b WAL_SIZE_POS 8 = s /\
  slice b WAL_CHECKPOINT_POS 8 = c /\ slice b WAL_SEQUENCE_POS 8 = q /\ slice b TOC_CHECKSUM_POS 32 = k /\
  firstn TOC_CHECKSUM_END b = m ++ v ++ sp ++ f ++ w ++ s ++ c ++ q ++ k /\
  skipn TOC_CHECKSUM_END b = z.
Proof.
  intros Hm Hv Hsp Hf Hw Hs Hc Hq Hk. cbv zeta.
  pose proof (fields_at_app [m; v; sp; f; w; s; c; q; k] [] z) as E.
  cbn [fields_at fold_right app length] in E.
  rewrite Hm, Hv, Hsp, Hf, Hw, Hs, Hc, Hq, Hk in E. cbn [Nat.add] in E.
  set (b := m ++ _) in *. destruct E as (Em & Ev & Esp & Ef & Ew & Es & Ec & Eq & Ek & _).
  (* the two spec bytes are read one by one *)
  assert (Hn : forall i, (i < 2)%nat -> nth (SPEC_BYTES_OFFSET + i) b 0 = nth i sp 0).
  { intros i Hi. rewrite <- Esp. symmetry. apply nth_slice, Hi. }
  assert (Hb : b = (m ++ v ++ sp ++ f ++ w ++ s ++ c ++ q ++ k) ++ z)
    by (unfold b; rewrite <- !app_assoc; reflexivity).
  assert (HL : length (m ++ v ++ sp ++ f ++ w ++ s ++ c ++ q ++ k) = TOC_CHECKSUM_END)
    by (rewrite !app_length, Hm, Hv, Hsp, Hf, Hw, Hs, Hc, Hq, Hk; reflexivity).
  repeat split; try assumption.
  - exact (Hn 0%nat ltac:(lia)).
  - exact (Hn 1%nat ltac:(lia)).
  - rewrite Hb. apply firstn_app_exact. symmetry; exact HL.
  - rewrite Hb. apply skipn_app_exact. symmetry; exact HL.
Qed.

Lemma header_zeros_length n : length (zeros n) = n.
Proof. apply repeat_length. Qed.

Lemma header_wf_fields h :
  header_wf h = true ->
  length (h_magic h) = 4%nat /\ h_version h < 2 ^ 16 /\ h_footer_offset h < 2 ^ 64 /\
  h_wal_offset h < 2 ^ 64 /\ h_wal_size h < 2 ^ 64 /\ h_wal_checkpoint_pos h < 2 ^ 64 /\
  h_wal_sequence h < 2 ^ 64 /\ length (h_toc_checksum h) = 32%nat /\
  bytes_ok (h_magic h) = true /\ bytes_ok (h_toc_checksum h) = true.
Proof.
  unfold header_wf. rewrite !andb_true_iff, !Nat.eqb_eq, !N.ltb_lt. tauto.
Qed.

(* the Ok branch of header_encode *)
Definition header_image (h : header) : bytes :=
  h_magic h ++ le_encode 2 (h_version h) ++ [SPEC_MAJOR; SPEC_MINOR] ++
  le_encode 8 (h_footer_offset h) ++ le_encode 8 (h_wal_offset h) ++
  le_encode 8 (h_wal_size h) ++ le_encode 8 (h_wal_checkpoint_pos h) ++
  le_encode 8 (h_wal_sequence h) ++ h_toc_checksum h ++
  zeros (HEADER_SIZE - TOC_CHECKSUM_END).

Lemma header_encode_cases h :
  (header_valid h = true /\ header_encode h = Ok (header_image h)) \/
  (header_valid h = false /\ exists k, header_encode h = Err k).
Proof.
  unfold header_encode, header_valid.
  destruct (bytes_eqb (h_magic h) MAGIC); cbn [negb andb]; [|right; split; [|eexists]; reflexivity].
  destruct (h_version h =? EXPECTED_VERSION); cbn [negb andb]; [|right; split; [|eexists]; reflexivity].
  destruct (h_wal_offset h <? WAL_OFFSET); cbn [negb andb]; [right; split; [|eexists]; reflexivity|].
  destruct (h_wal_size h =? 0); cbn [negb andb]; [right; split; [|eexists]; reflexivity|].
  left. split; reflexivity.
Qed.

Lemma header_encode_no_panic h s : header_encode h <> Panic s.
Proof. destruct (header_encode_cases h) as [[_ ->]|[_ [k ->]]]; discriminate. Qed.

Lemma header_encode_error_kind h :
  header_encode h =
    if negb (bytes_eqb (h_magic h) MAGIC) then Err E_MAGIC
    else if negb (h_version h =? EXPECTED_VERSION) then Err E_VERSION
    else if h_wal_offset h <? WAL_OFFSET then Err E_WAL_OFFSET
    else if h_wal_size h =? 0 then Err E_WAL_SIZE
    else header_encode h.
Proof.
  unfold header_encode.
  destruct (negb _); [reflexivity|]. destruct (negb _); [reflexivity|].
  destruct (_ <? _); [reflexivity|]. destruct (_ =? _); reflexivity.
Qed.

Lemma header_image_length h : header_wf h = true -> length (header_image h) = HEADER_SIZE.
Proof.
  intros Hwf. apply header_wf_fields in Hwf as (Hm & Hver & Hfo & Hwo & Hws & Hcp & Hsq & Hc & Hokm & Hokc).
  unfold header_image. rewrite !app_length, !le_encode_length, header_zeros_length, Hm, Hc. reflexivity.
Qed.

Lemma header_decode_cases b :
  (length b = HEADER_SIZE /\ header_checks b = true /\ header_decode b = Ok (header_fields b)) \/
  ((length b <> HEADER_SIZE \/ header_checks b = false) /\ exists k, header_decode b = Err k).
Proof.
  unfold header_decode, header_checks, header_fields.
  destruct (Nat.eqb (length b) HEADER_SIZE) eqn:EL; cbn [negb].
  2:{ apply Nat.eqb_neq in EL. right. split; [left; exact EL | eexists; reflexivity]. }
  apply Nat.eqb_eq in EL.
  destruct (bytes_eqb (slice b 0 4) MAGIC); cbn [negb andb]; [|right; split; [right|eexists]; reflexivity].
  destruct (_ =? EXPECTED_VERSION); cbn [negb andb]; [|right; split; [right|eexists]; reflexivity].
  destruct (_ =? SPEC_MAJOR); cbn [negb andb orb]; [|right; split; [right|eexists]; reflexivity].
  destruct (_ =? SPEC_MINOR); cbn [negb andb orb]; [|right; split; [right|eexists]; reflexivity].
  destruct (_ <? WAL_OFFSET); cbn [negb andb]; [right; split; [right|eexists]; reflexivity|].
  destruct (_ =? 0); cbn [negb andb]; [right; split; [right|eexists]; reflexivity|].
  left. split; [exact EL|]. split; reflexivity.
Qed.

Lemma header_decode_ok_iff b h :
  header_decode b = Ok h <->
  length b = HEADER_SIZE /\ header_checks b = true /\ h = header_fields b.
Proof.
  destruct (header_decode_cases b) as [(HL & Hc & ->)|[Hn [k ->]]].
  - split; [intros [= <-]; auto | intros (_ & _ & ->); reflexivity].
  - split; [discriminate | intros (HL & Hc & _)]. destruct Hn; congruence.
Qed.

Lemma header_decode_err_iff b :
  (exists k, header_decode b = Err k) <-> (length b <> HEADER_SIZE \/ header_checks b = false).
Proof.
  destruct (header_decode_cases b) as [(HL & Hc & ->)|[Hn E]]; [|tauto].
  split; [intros [? ?]; discriminate | intros [?|?]; congruence].
Qed.

Lemma header_decode_no_panic b s : header_decode b <> Panic s.
Proof. destruct (header_decode_cases b) as [(_ & _ & ->)|[_ [k ->]]]; discriminate. Qed.

Lemma header_decode_rejects_magic b :
  length b = HEADER_SIZE -> firstn 4 b <> MAGIC -> header_decode b = Err E_MAGIC.
Proof.
  intros HL HM. unfold header_decode. rewrite HL, Nat.eqb_refl. cbn [negb].
  destruct (bytes_eqb (slice b 0 4) MAGIC) eqn:E; [|reflexivity].
  apply bytes_eqb_spec in E. contradiction.
Qed.

Lemma header_decode_rejects_version b :
  length b = HEADER_SIZE -> firstn 4 b = MAGIC -> le_decode (slice b VERSION_OFFSET 2) <> EXPECTED_VERSION ->
  header_decode b = Err E_VERSION.
Proof.
  intros HL HM HV. unfold header_decode. rewrite HL, Nat.eqb_refl. cbn [negb].
  change (slice b 0 4) with (firstn 4 b). rewrite HM, bytes_eqb_refl. cbn [negb].
  destruct (_ =? EXPECTED_VERSION) eqn:E; [apply N.eqb_eq in E; contradiction | reflexivity].
Qed.

Lemma header_decode_rejects_spec b :
  length b = HEADER_SIZE -> (nth SPEC_BYTES_OFFSET b 0 <> SPEC_MAJOR \/ nth (SPEC_BYTES_OFFSET + 1) b 0 <> SPEC_MINOR) ->
  exists k, header_decode b = Err k.
Proof.
  intros _ HS. apply header_decode_err_iff. right. unfold header_checks.
  destruct HS as [HS|HS]; apply N.eqb_neq in HS; rewrite HS, ?andb_false_r; reflexivity.
Qed.

Lemma header_decode_rejects_wal_offset b :
  length b = HEADER_SIZE -> le_decode (slice b WAL_OFFSET_POS 8) < WAL_OFFSET -> exists k, header_decode b = Err k.
Proof.
  intros _ HS. apply header_decode_err_iff. right. unfold header_checks.
  apply N.ltb_lt in HS. rewrite HS, ?andb_false_r. reflexivity.
Qed.

Lemma header_decode_rejects_wal_size b :
  length b = HEADER_SIZE -> le_decode (slice b WAL_SIZE_POS 8) = 0 -> exists k, header_decode b = Err k.
Proof.
  intros _ HS. apply header_decode_err_iff. right. unfold header_checks.
  rewrite HS, N.eqb_refl, ?andb_false_r. reflexivity.
Qed.

Lemma header_decode_ignores_padding b b' :
  length b = HEADER_SIZE -> length b' = HEADER_SIZE ->
  firstn TOC_CHECKSUM_END b = firstn TOC_CHECKSUM_END b' -> header_decode b = header_decode b'.
Proof.
  intros HL HL' HF. unfold header_decode. rewrite HL, HL'.
  (* every read, on either side, is a read of the first 80 bytes *)
  rewrite <- !(slice_firstn b TOC_CHECKSUM_END), <- !(nth_firstn_lt b TOC_CHECKSUM_END) by (cbv; lia).
  rewrite <- !(slice_firstn b' TOC_CHECKSUM_END), <- !(nth_firstn_lt b' TOC_CHECKSUM_END) by (cbv; lia).
  rewrite HF. reflexivity.
Qed.

Lemma header_image_decodes h :
  header_wf h = true ->
  header_fields (header_image h) = h /\ header_checks (header_image h) = header_valid h /\
  skipn TOC_CHECKSUM_END (header_image h) = zeros (HEADER_SIZE - TOC_CHECKSUM_END).
Proof.
  intros Hwf. apply header_wf_fields in Hwf as (Hm & Hver & Hfo & Hwo & Hws & Hcp & Hsq & Hc & _ & _).
  destruct (layout (h_magic h) (le_encode 2 (h_version h)) [SPEC_MAJOR; SPEC_MINOR]
                   (le_encode 8 (h_footer_offset h)) (le_encode 8 (h_wal_offset h)) (le_encode 8 (h_wal_size h))
                   (le_encode 8 (h_wal_checkpoint_pos h)) (le_encode 8 (h_wal_sequence h)) (h_toc_checksum h)
                   (zeros (HEADER_SIZE - TOC_CHECKSUM_END))
                   Hm (le_encode_length _ _) eq_refl (le_encode_length _ _) (le_encode_length _ _)
                   (le_encode_length _ _) (le_encode_length _ _) (le_encode_length _ _) Hc)
    as (Lmagic & Lver & Lmaj & Lmin & Lfo & Lwo & Lws & Lcp & Lsq & Lsum & _ & Lpad).
  fold (header_image h) in *. split; [|split; [|exact Lpad]].
  - unfold header_fields. rewrite Lmagic, Lver, Lfo, Lwo, Lws, Lcp, Lsq, Lsum, !le_decode_encode by assumption.
    destruct h; reflexivity.
  - unfold header_checks, header_valid. rewrite Lmagic, Lver, Lmaj, Lmin, Lwo, Lws, !le_decode_encode by assumption.
    cbn [nth]. rewrite !N.eqb_refl, !andb_true_r. reflexivity.
Qed.

Lemma header_decode_image h :
  header_wf h = true -> header_valid h = true -> header_decode (header_image h) = Ok h.
Proof.
  intros Hwf Hv. destruct (header_image_decodes h Hwf) as (Hf & Hc & _).
  apply header_decode_ok_iff. rewrite Hc, Hf. auto using header_image_length.
Qed.

Lemma clear_legacy_length buf : length buf = HEADER_SIZE -> length (clear_legacy buf) = HEADER_SIZE.
Proof.
  intros HL. unfold clear_legacy. rewrite !app_length, firstn_length, skipn_length, header_zeros_length, HL. reflexivity.
Qed.

Lemma clear_legacy_firstn buf :
  length buf = HEADER_SIZE -> firstn TOC_CHECKSUM_END (clear_legacy buf) = firstn TOC_CHECKSUM_END buf.
Proof.
  intros HL. unfold clear_legacy.
  rewrite firstn_app. rewrite firstn_length, HL.
  change (TOC_CHECKSUM_END - Nat.min LEGACY_LOCK_REGION_START HEADER_SIZE)%nat with 0%nat.
  cbn [firstn]. rewrite app_nil_r. rewrite firstn_firstn. reflexivity.
Qed.

(* the scrub rewrites bytes 80..140, which decode never looks at *)
Lemma header_read_eq file :
  header_read file =
  if Nat.ltb (length file) HEADER_SIZE then (Err E_IO, file)
  else (header_decode (firstn HEADER_SIZE file),
        if legacy_dirty (firstn HEADER_SIZE file)
        then write_at0 file (clear_legacy (firstn HEADER_SIZE file)) else file).
Proof.
  unfold header_read. destruct (Nat.ltb (length file) HEADER_SIZE) eqn:EL; [reflexivity|]. cbv zeta.
  assert (HB : length (firstn HEADER_SIZE file) = HEADER_SIZE) by (rewrite firstn_length; lia).
  destruct (legacy_dirty _); [f_equal|reflexivity].
  apply header_decode_ignores_padding; [apply clear_legacy_length; exact HB | exact HB | apply clear_legacy_firstn; exact HB].
Qed.

Lemma header_read_short file : (length file < HEADER_SIZE)%nat -> header_read file = (Err E_IO, file).
Proof. intros HL. rewrite header_read_eq. replace (Nat.ltb (length file) HEADER_SIZE) with true by lia. reflexivity. Qed.

(* the lock region 80..140 lies in the padding *)
Lemma legacy_clean buf :
  skipn TOC_CHECKSUM_END buf = zeros (HEADER_SIZE - TOC_CHECKSUM_END) -> legacy_dirty buf = false.
Proof.
  intros E. unfold legacy_dirty, slice. change LEGACY_LOCK_REGION_START with TOC_CHECKSUM_END.
  rewrite E. reflexivity.
Qed.

Lemma header_read_written file b :
  length b = HEADER_SIZE -> legacy_dirty b = false ->
  header_read (write_at0 file b) = (header_decode b, write_at0 file b).
Proof.
  intros HL Hc. rewrite header_read_eq.
  replace (Nat.ltb _ HEADER_SIZE) with false by (unfold write_at0; rewrite app_length; lia).
  rewrite (firstn_app_exact b _ _ (eq_sym HL) : firstn HEADER_SIZE (write_at0 file b) = b), Hc. reflexivity.
Qed.

Lemma header_checks_valid b : header_checks b = true -> header_valid (header_fields b) = true.
Proof.
  unfold header_checks, header_valid, header_fields; cbn [h_magic h_version h_wal_offset h_wal_size].
  rewrite !andb_true_iff. tauto.
Qed.

Lemma header_image_fields b :
  bytes_ok b = true -> (TOC_CHECKSUM_END <= length b)%nat ->
  nth SPEC_BYTES_OFFSET b 0 = SPEC_MAJOR -> nth (SPEC_BYTES_OFFSET + 1) b 0 = SPEC_MINOR ->
  header_image (header_fields b) = firstn TOC_CHECKSUM_END b ++ zeros (HEADER_SIZE - TOC_CHECKSUM_END).
Proof.
  intros Hok HL H6 H7.
  unfold header_image, header_fields; cbn [h_magic h_version h_footer_offset h_wal_offset h_wal_size
                                           h_wal_checkpoint_pos h_wal_sequence h_toc_checksum].
  replace [SPEC_MAJOR; SPEC_MINOR] with (slice b SPEC_BYTES_OFFSET 2).
  2:{ unfold TOC_CHECKSUM_END in HL. unfold SPEC_BYTES_OFFSET in *. cbn [Nat.add] in H7.
      rewrite (slice_S b 6 1 0), (slice_S b 7 0 0), H6, H7 by lia. reflexivity. }
  unfold VERSION_OFFSET, FOOTER_OFFSET_POS, WAL_OFFSET_POS, WAL_SIZE_POS, WAL_CHECKPOINT_POS,
    WAL_SEQUENCE_POS, TOC_CHECKSUM_END in *.
  rewrite !le_encode_decode_slice by (exact Hok || lia).
  exact (chop_app [4; 2; 2; 8; 8; 8; 8; 8; 32]%nat 0 b _).
Qed.

Lemma header_decode_canonical b h :
  bytes_ok b = true -> header_decode b = Ok h ->
  header_encode h = Ok (firstn TOC_CHECKSUM_END b ++ zeros (HEADER_SIZE - TOC_CHECKSUM_END)).
Proof.
  intros Hok Hd. apply header_decode_ok_iff in Hd as (HL & Hc & ->).
  destruct (header_encode_cases (header_fields b)) as [[_ ->]|[E _]];
    [|rewrite header_checks_valid in E by exact Hc; discriminate].
  unfold header_checks in Hc. rewrite !andb_true_iff, !N.eqb_eq in Hc.
  destruct Hc as (((((Hmagic & Hver) & Hmaj) & Hmin) & Hwo) & Hws).
  f_equal. apply (header_image_fields b Hok); [| exact Hmaj | exact Hmin].
  (* 80 <= 4096 by evaluating Nat.leb, which stops after 80 steps; lia's certificate would
     translate all of the unary numeral HEADER_SIZE *)
  rewrite HL. apply Nat.leb_le. reflexivity.
Qed.

Lemma header_decode_injective b b' h :
  bytes_ok b = true -> bytes_ok b' = true -> header_decode b = Ok h -> header_decode b' = Ok h ->
  firstn TOC_CHECKSUM_END b = firstn TOC_CHECKSUM_END b'.
Proof.
  intros Hb Hb' Hd Hd'.
  pose proof (header_decode_canonical b h Hb Hd) as E1.
  rewrite (header_decode_canonical b' h Hb' Hd') in E1. injection E1 as E1.
  apply app_inv_tail in E1. symmetry. exact E1.
Qed.
