(* Model/AsOf.v (C11), the time-travel candidate-filter composition.  Filters are ordered by inclusion
   (cf_le, None on top).  Each stage before the sketch hands on the meet of its input and the set
   it is given, or exits if that is the empty set (guards), so pre_sketch is the meet `pre` of the
   date, temporal and replay sets behind one emptiness test.  What the theorems need of it are
   order facts: with a cut-off pre is below the replay set, and a weaker cut-off gives a larger
   pre.  The sketch stage only narrows, hence no hit from the future; those theorems are about the
   code as of d76304f.  The revision before it (fx = false in the model) is the same outside one
   branch, sketch_disjoint; either request of a monotonicity theorem may be in that branch, so
   those (_gen) are stated over fx. *)
From MV Require Import Base.Prelude Base.Facts Model.AsOf.

Lemma is_nil_true {A} (l : list A) : is_nil l = true <-> l = [].
Proof. destruct l; cbn; split; congruence. Qed.

Lemma is_nil_false {A} (l : list A) : is_nil l = false <-> l <> [].
Proof. destruct l; cbn; split; congruence. Qed.

Lemma is_nil_false_In {A} (x : A) l : In x l -> is_nil l = false.
Proof. destruct l; [intros [] | reflexivity]. Qed.

Lemma mem_id_In x l : mem_id x l = true <-> In x l.
Proof. exact (existsb_eqb_In N.eqb N.eqb_eq x l). Qed.

Lemma keep_in_In s e x : In x (keep_in s e) <-> In x e /\ In x s.
Proof. unfold keep_in. rewrite filter_In, mem_id_In. reflexivity. Qed.

Lemma keep_in_nil e : keep_in [] e = [].
Proof. induction e as [|x e IH]; [reflexivity | exact IH]. Qed.

Lemma NoDup_map_In_inj {A B} (f : A -> B) l a b :
  NoDup (map f l) -> In a l -> In b l -> f a = f b -> a = b.
Proof.
  induction l as [|c l IH]; cbn [map]; intros Hnd Ha Hb E; [destruct Ha|].
  apply NoDup_cons_iff in Hnd as [Hc Hnd].
  destruct Ha as [->|Ha], Hb as [->|Hb]; auto; exfalso; apply Hc.
  - rewrite E. apply in_map, Hb.
  - rewrite <- E. apply in_map, Ha.
Qed.

Lemma replay_keep_spec aof aot f :
  replay_keep aof aot f = true <->
  f_active f = true /\
  (forall c, aof = Some c -> (f_id f <= c)%N) /\
  (forall c, aot = Some c -> (f_ts f <= c)%Z).
Proof.
  unfold replay_keep.
  rewrite <- (option_test_spec _ _ _ aof (fun c => N.ltb_ge c (f_id f))), <- (option_test_spec _ _ _ aot (fun c => Z.ltb_ge c (f_ts f))).
  destruct (f_active f), (match aof with Some c => _ | None => _ end), (match aot with Some c => _ | None => _ end);
    cbn [negb]; intuition discriminate.
Qed.

Lemma replay_ids_spec frames aof aot x :
  In x (replay_ids frames aof aot) <->
  exists f, In f frames /\ f_id f = x /\ f_active f = true /\
            (forall c, aof = Some c -> (f_id f <= c)%N) /\
            (forall c, aot = Some c -> (f_ts f <= c)%Z).
Proof.
  unfold replay_ids. rewrite in_map_iff. split.
  - intros [f [E H]]. apply filter_In in H as [Hin Hk]. apply replay_keep_spec in Hk.
    exists f. tauto.
  - intros [f [Hin [E Hk]]]. exists f. split; [assumption|].
    apply filter_In. split; [assumption|]. apply replay_keep_spec. assumption.
Qed.

Lemma replay_ids_none frames x :
  In x (replay_ids frames None None) <-> exists f, In f frames /\ f_id f = x /\ f_active f = true.
Proof.
  rewrite replay_ids_spec. split.
  - intros (f & Hin & E & Ha & _). exists f. auto.
  - intros (f & Hin & E & Ha). exists f. split; [exact Hin|]. split; [exact E|]. split; [exact Ha|].
    split; intros c Ec; discriminate Ec.
Qed.

Lemma replay_ids_weaker frames aof aot aof' aot' :
  cut_le_N aof aof' = true -> cut_le_Z aot aot' = true ->
  incl (replay_ids frames aof aot) (replay_ids frames aof' aot').
Proof.
  intros Hn Ht x H. apply replay_ids_spec in H as [f [Hin [E [Ha [Hf Hts]]]]].
  apply replay_ids_spec. exists f. repeat split; try assumption.
  - intros c Ec. subst aof'. unfold cut_le_N in Hn. destruct aof as [n|]; [|discriminate].
    specialize (Hf _ eq_refl). apply N.leb_le in Hn. lia.
  - intros c Ec. subst aot'. unfold cut_le_Z in Ht. destruct aot as [t|]; [|discriminate].
    specialize (Hts _ eq_refl). apply Z.leb_le in Ht. lia.
Qed.

Lemma replay_ids_antitone frames n n' t t' :
  (n <= n')%N -> (t <= t')%Z ->
  incl (replay_ids frames (Some n) (Some t)) (replay_ids frames (Some n') (Some t')).
Proof. intros Hn Ht. apply replay_ids_weaker; [apply N.leb_le | apply Z.leb_le]; assumption. Qed.

Lemma range_contains_spec r ts :
  range_contains r ts = true <->
  (forall s, fst r = Some s -> (s <= ts)%Z) /\ (forall e, snd r = Some e -> (ts <= e)%Z).
Proof.
  unfold range_contains.
  rewrite <- (option_test_spec _ _ _ (fst r) (fun s => Z.ltb_ge ts s)), <- (option_test_spec _ _ _ (snd r) (fun e => Z.ltb_ge e ts)).
  destruct (match fst r with Some s => _ | None => _ end), (match snd r with Some e => _ | None => _ end);
    intuition discriminate.
Qed.

Lemma frame_ids_in_date_range_spec ti r ids x :
  frame_ids_in_date_range ti r = Some ids -> In x ids ->
  exists entries ts, ti = Some entries /\ In (ts, x) entries /\ range_contains r ts = true.
Proof.
  unfold frame_ids_in_date_range. destruct (range_is_empty r).
  - intros [= <-] [].
  - destruct ti as [entries|]; [|discriminate]. intros [= <-] H. apply in_map_iff in H as [[ts y] [Ey H]]. cbn in Ey; subst y.
    apply filter_In in H as [Hin Hc]. exists entries, ts. auto.
Qed.

Definition cf_le (cf cf0 : option (list N)) : Prop :=
  match cf0 with
  | None => True
  | Some l0 => exists l, cf = Some l /\ incl l l0
  end.

Lemma cf_le_refl cf : cf_le cf cf.
Proof. destruct cf as [l|]; cbn; [|exact I]. exists l. split; [reflexivity | apply incl_refl]. Qed.

Lemma cf_le_trans {a b c} : cf_le a b -> cf_le b c -> cf_le a c.
Proof.
  destruct c as [lc|]; cbn; [|auto]. intros Hab [lb [-> Hbc]]. destruct Hab as [la [-> Hab]].
  exists la. split; [reflexivity | eapply incl_tran; eassumption].
Qed.

(* the stages hand on the meet of the filter so far and an optional new set, and never the
   empty set (live) *)
Definition meet (cf s : option (list N)) : option (list N) :=
  match s, cf with
  | None, _ => cf
  | Some s, None => Some s
  | Some s, Some e => Some (keep_in s e)
  end.

Definition live (cf : option (list N)) : Prop := cf <> Some [].

Lemma meet_le_l cf s : cf_le (meet cf s) cf.
Proof.
  destruct s as [s|]; [|apply cf_le_refl]. destruct cf as [e|]; [|exact I].
  exists (keep_in s e). split; [reflexivity|]. intros x H. apply keep_in_In in H. tauto.
Qed.

Lemma meet_le_r cf s : cf_le (meet cf s) s.
Proof.
  destruct s as [s|]; [|exact I]. destruct cf as [e|]; [|apply (cf_le_refl (Some s))].
  exists (keep_in s e). split; [reflexivity|]. intros x H. apply keep_in_In in H. tauto.
Qed.

Lemma meet_glb x cf s : cf_le x cf -> cf_le x s -> cf_le x (meet cf s).
Proof.
  destruct s as [s|]; [|intros Hc _; exact Hc]. intros Hc [l [-> Hs]].
  destruct cf as [e|]; cbn; [|exists l; auto]. destruct Hc as [l' [[= <-] He]].
  exists l. split; [reflexivity|]. intros y Hy. apply keep_in_In. auto.
Qed.

Lemma meet_mono cf cf' s s' : cf_le cf cf' -> cf_le s s' -> cf_le (meet cf s) (meet cf' s').
Proof.
  intros Hc Hs. apply meet_glb; eapply cf_le_trans; [apply meet_le_l | exact Hc | apply meet_le_r | exact Hs].
Qed.

Lemma live_le cf cf0 : cf_le cf cf0 -> live cf -> live cf0.
Proof. intros Hle Hl ->. destruct Hle as [l [-> Hi]]. apply Hl. f_equal. apply incl_l_nil, Hi. Qed.

Lemma is_nil_live l : is_nil l = false <-> live (Some l).
Proof. rewrite is_nil_false. unfold live. split; congruence. Qed.

(* stage s is filter cf behind the emptiness test *)
Definition guards (s : stage) (cf : option (list N)) : Prop :=
  match s with
  | Cont cf' => cf' = cf /\ live cf
  | Exit _ => ~ live cf
  end.

Lemma guards_live s cf : guards s cf -> live cf -> s = Cont cf.
Proof. destruct s as [n|cf']; cbn; [contradiction | intros [-> _] _; reflexivity]. Qed.

Lemma guards_bind s k cf cf' :
  guards s cf -> (live cf' -> live cf) -> (live cf -> guards (k cf) cf') -> guards (bind s k) cf'.
Proof.
  destruct s as [n|c]; cbn.
  - intros Hn Hl _ Hc. exact (Hn (Hl Hc)).
  - intros [-> Hl] _ Hk. exact (Hk Hl).
Qed.

Definition date_set (st : store) (rq : request) : option (list N) :=
  match rq_date rq with
  | None => None
  | Some range => frame_ids_in_date_range (st_time_index st) range
  end.

Definition temporal_set (rq : request) : option (list N) :=
  match rq_temporal rq with Some (Some ids) => Some ids | _ => None end.

Definition replay_set (st : store) (rq : request) : option (list N) :=
  if asof_given rq then Some (replay_ids (st_frames st) (rq_as_of_frame rq) (rq_as_of_ts rq)) else None.

Lemma date_stage_guards st rq : guards (date_stage st rq) (date_set st rq).
Proof.
  unfold date_stage, date_set. destruct (rq_date rq) as [range|]; [|split; [reflexivity | discriminate]].
  unfold frame_ids_in_date_range. destruct (range_is_empty range).
  - intros Hl. apply Hl. reflexivity.
  - destruct (st_time_index st) as [entries|]; [|split; [reflexivity | discriminate]].
    destruct (map snd _) as [|i r]; cbn.
    + intros Hl. apply Hl. reflexivity.
    + split; [reflexivity | discriminate].
Qed.

(* the temporal and the replay stage: exit on an empty set, exit on an empty intersection *)
Lemma inter_stage_guards a b cf s :
  live cf ->
  guards (match s with Some ids => if is_nil ids then Exit a else inter_stage b cf ids | None => Cont cf end)
         (meet cf s).
Proof.
  intros Hl. destruct s as [[|i ids]|]; cbn [is_nil meet].
  - (* the empty set: exit a *)
    intros Hm. apply Hm. destruct cf as [e|]; [rewrite keep_in_nil|]; reflexivity.
  - destruct cf as [e|]; cbn; [|split; [reflexivity | discriminate]].
    destruct (keep_in (i :: ids) e); cbn.
    + intros Hm. apply Hm. reflexivity.
    + split; [reflexivity | discriminate].
  - split; [reflexivity | exact Hl].
Qed.

Lemma temporal_stage_guards rq cf : live cf -> guards (temporal_stage rq cf) (meet cf (temporal_set rq)).
Proof.
  intros Hl. unfold temporal_stage, temporal_set. destruct (rq_temporal rq) as [[ids|]|].
  - exact (inter_stage_guards 3 4 cf (Some ids) Hl).
  - exact (inter_stage_guards 3 4 cf None Hl).
  - exact (inter_stage_guards 3 4 cf None Hl).
Qed.

Lemma replay_stage_guards st rq cf : live cf -> guards (replay_stage st rq cf) (meet cf (replay_set st rq)).
Proof.
  intros Hl. unfold replay_stage, replay_set. destruct (asof_given rq).
  - exact (inter_stage_guards 5 6 cf (Some _) Hl).
  - exact (inter_stage_guards 5 6 cf None Hl).
Qed.

Definition pre (st : store) (rq : request) : option (list N) :=
  meet (meet (date_set st rq) (temporal_set rq)) (replay_set st rq).

Lemma pre_sketch_guards st rq : guards (pre_sketch st rq) (pre st rq).
Proof.
  pose proof (fun cf s => live_le _ _ (meet_le_l cf s)) as Hm.
  apply guards_bind with (1 := date_stage_guards st rq); [intros H; eapply Hm, Hm, H|]. intros Hd.
  apply guards_bind with (1 := temporal_stage_guards rq _ Hd); [apply Hm|]. apply replay_stage_guards.
Qed.

Lemma pre_sketch_cont st rq cf : pre_sketch st rq = Cont cf -> cf = pre st rq /\ live cf.
Proof. intros H. pose proof (pre_sketch_guards st rq) as G. rewrite H in G. destruct G as [-> Hl]. auto. Qed.

Lemma pre_asof st rq :
  asof_given rq = true ->
  cf_le (pre st rq) (Some (replay_ids (st_frames st) (rq_as_of_frame rq) (rq_as_of_ts rq))).
Proof. intros Ha. unfold pre, replay_set. rewrite Ha. apply meet_le_r. Qed.

Lemma cut_le_given {rq aof' aot'} :
  cut_le_N (rq_as_of_frame rq) aof' = true -> cut_le_Z (rq_as_of_ts rq) aot' = true ->
  asof_given (with_as_of rq aof' aot') = true -> asof_given rq = true.
Proof.
  unfold asof_given. cbn [with_as_of rq_as_of_frame rq_as_of_ts]. intros Hn Ht H.
  apply orb_true_iff in H as [H|H]; apply orb_true_iff; [left | right].
  - destruct aof'; [|discriminate]. destruct (rq_as_of_frame rq); [reflexivity | discriminate].
  - destruct aot'; [|discriminate]. destruct (rq_as_of_ts rq); [reflexivity | discriminate].
Qed.

(* the date and the temporal set do not read the cut-off *)
Lemma pre_weaker st rq aof' aot' :
  cut_le_N (rq_as_of_frame rq) aof' = true -> cut_le_Z (rq_as_of_ts rq) aot' = true ->
  cf_le (pre st rq) (pre st (with_as_of rq aof' aot')).
Proof.
  intros Hn Ht. apply meet_mono; [apply cf_le_refl|]. unfold replay_set.
  destruct (asof_given (with_as_of rq aof' aot')) eqn:Ha'; [|exact I].
  rewrite (cut_le_given Hn Ht Ha'). eexists. split; [reflexivity|].
  apply replay_ids_weaker; assumption.
Qed.

Lemma pre_sketch_drop_exit st rq site :
  pre_sketch st (drop_as_of rq) = Exit site -> exists site', pre_sketch st rq = Exit site'.
Proof.
  intros He. destruct (pre_sketch st rq) as [s|cf] eqn:Ep; [eexists; reflexivity|]. exfalso.
  apply pre_sketch_cont in Ep as [-> Hl]. pose proof (pre_sketch_guards st (drop_as_of rq)) as G.
  rewrite He in G. apply G. exact (live_le _ _ (pre_weaker st rq None None eq_refl eq_refl) Hl).
Qed.

Lemma sketch_stage_le {st rq cands cf cf'} : sketch_stage_gen true st rq cands cf = Cont cf' -> cf_le cf' cf.
Proof.
  unfold sketch_stage_gen. destruct (sketch_on st rq); [|intros [= <-]; apply cf_le_refl].
  destruct (is_nil cands); [intros [= <-]; apply cf_le_refl|]. destruct cf as [l|]; [|intros _; exact I].
  destruct (is_nil (keep_in cands l)); intros [= <-].
  - apply cf_le_refl.
  - apply (meet_le_l (Some l) (Some cands)).
Qed.

(* the code before d76304f (fx = false) is the current code outside the empty-intersection branch *)
Lemma gen_outside_disjoint fx st rq cands :
  sketch_disjoint st rq cands = false -> candidate_filter_gen fx st rq cands = candidate_filter st rq cands.
Proof.
  destruct fx; [reflexivity|]. unfold sketch_disjoint, candidate_filter, candidate_filter_gen, bind.
  destruct (pre_sketch st rq) as [s|[l|]]; try reflexivity.
  unfold sketch_stage_gen. destruct (sketch_on st rq); cbn [andb]; [|reflexivity].
  destruct (is_nil cands); cbn [negb andb]; [reflexivity|].
  destruct (is_nil (keep_in cands l)); [discriminate | reflexivity].
Qed.

Theorem filter_subset_replay st rq cands cf :
  asof_given rq = true ->
  candidate_filter st rq cands = Cont cf ->
  cf_le cf (Some (replay_ids (st_frames st) (rq_as_of_frame rq) (rq_as_of_ts rq))).
Proof.
  intros Ha. unfold candidate_filter, candidate_filter_gen, bind.
  destruct (pre_sketch st rq) as [s|cf0] eqn:Ep; [discriminate|].
  apply pre_sketch_cont in Ep as [-> _]. intros Hs.
  exact (cf_le_trans (sketch_stage_le Hs) (pre_asof st rq Ha)).
Qed.

Section Engine.
  Variable engine : option (list N) -> list N.
  (* the engine returns only members of the candidate filter when one is given *)
  Hypothesis engine_sound : forall l x, In x (engine (Some l)) -> In x l.

  Theorem hits_in_replay st rq cands x :
    asof_given rq = true ->
    In x (search_ids engine st rq cands) ->
    In x (replay_ids (st_frames st) (rq_as_of_frame rq) (rq_as_of_ts rq)).
  Proof.
    intros Ha. unfold search_ids, search_ids_gen. fold (candidate_filter st rq cands).
    destruct (candidate_filter st rq cands) as [s|cf] eqn:Ec; [intros []|].
    destruct (filter_subset_replay st rq cands cf Ha Ec) as [l [-> Hl]].
    intros H. apply Hl. eapply engine_sound. exact H.
  Qed.

  Theorem hits_not_future st rq cands x :
    asof_given rq = true ->
    In x (search_ids engine st rq cands) ->
    exists f, In f (st_frames st) /\ f_id f = x /\ f_active f = true /\
              (forall n, rq_as_of_frame rq = Some n -> (x <= n)%N) /\
              (forall t, rq_as_of_ts rq = Some t -> (f_ts f <= t)%Z).
  Proof.
    intros Ha H. apply (hits_in_replay st rq cands x Ha) in H.
    apply replay_ids_spec in H as [f [Hin [E [Hact [Hn Ht]]]]].
    exists f. subst x. auto.
  Qed.

  (* with unique frame ids (frame.id is the table index): THE frame with the hit's id *)
  Theorem hits_not_future_unique st rq cands x f :
    NoDup (map f_id (st_frames st)) ->
    asof_given rq = true ->
    In x (search_ids engine st rq cands) ->
    In f (st_frames st) -> f_id f = x ->
    f_active f = true /\
    (forall n, rq_as_of_frame rq = Some n -> (f_id f <= n)%N) /\
    (forall t, rq_as_of_ts rq = Some t -> (f_ts f <= t)%Z).
  Proof.
    intros Hnd Ha H Hf Ef.
    destruct (hits_not_future st rq cands x Ha H) as [g [Hg [Eg [Hact [Hn Ht]]]]].
    rewrite <- Eg in Ef. apply (NoDup_map_In_inj f_id _ f g Hnd Hf Hg) in Ef. subst g x. auto.
  Qed.

  (* the non-truncating regime: the engine returns every match the filter admits *)
  Hypothesis engine_mono : forall l1 l2, incl l1 l2 -> incl (engine (Some l1)) (engine (Some l2)).
  Hypothesis engine_none : forall l, incl (engine (Some l)) (engine None).

  Lemma engine_le cf cf0 : cf_le cf cf0 -> incl (engine cf) (engine cf0).
  Proof.
    intros Hle. destruct cf0 as [l0|]; cbn in Hle.
    - destruct Hle as [l [-> Hi]]. apply engine_mono. exact Hi.
    - destruct cf as [l|]; [apply engine_none | apply incl_refl].
  Qed.

  (* the sketch has no false negative for this query *)
  Definition sketch_complete (cands : list N) : Prop := forall x, In x (engine None) -> In x cands.

  (* the core of the monotonicity theorems.  sketch_on reads neither cut-off, which gives the
     first hypothesis; the third: outside the empty-intersection branch, or (current code) when
     the sketch has no false negative *)
  Lemma monotone_core fx st rq rq' cands :
    sketch_on st rq' = sketch_on st rq ->
    cf_le (pre st rq) (pre st rq') ->
    sketch_disjoint st rq cands = false \/ (fx = true /\ sketch_complete cands) ->
    incl (search_ids_gen fx engine st rq cands) (search_ids_gen fx engine st rq' cands).
  Proof.
    intros Hso Hle Hk. unfold search_ids_gen, candidate_filter_gen, bind, sketch_disjoint in *.
    destruct (pre_sketch st rq) as [s|cf] eqn:Ep; [intros x []|].
    apply pre_sketch_cont in Ep as [-> Hl].
    rewrite (guards_live _ _ (pre_sketch_guards st rq') (live_le _ _ Hle Hl)).
    clear Hl. revert Hk Hle. generalize (pre st rq), (pre st rq'). intros cf cf0 Hk Hle.
    unfold sketch_stage_gen. rewrite Hso.
    destruct (sketch_on st rq); cbn [andb] in *; [| apply engine_le; exact Hle].
    destruct (is_nil cands) eqn:Ecn; cbn [negb andb] in *.
    { apply engine_le. exact Hle. }
    pose proof (meet_mono cf cf0 (Some cands) (Some cands) Hle (cf_le_refl _)) as Hm.
    destruct cf as [l|].
    - (* filtered request: l ∩ cands *)
      destruct (is_nil (keep_in cands l)) eqn:En.
      + (* empty intersection *)
        destruct Hk as [Hk|[-> Hc]]; [discriminate|].
        (* current code: the filter stays l; every hit is in l, and (sketch complete) in cands *)
        intros x Hx. exfalso.
        assert (Hin : In x (keep_in cands l)).
        { apply keep_in_In. split; [eapply engine_sound; exact Hx|].
          apply Hc. eapply engine_none. exact Hx. }
        apply is_nil_true in En. rewrite En in Hin. destruct Hin.
      + (* the larger filter meets cands as well *)
        apply is_nil_live in En. apply (live_le _ _ Hm) in En.
        destruct cf0 as [l0|]; cbn [meet] in *; [apply is_nil_live in En; rewrite En|]; apply engine_le, Hm.
    - destruct cf0 as [l0|]; cbn in Hle; [destruct Hle as [l [E _]]; discriminate|]. apply incl_refl.
  Qed.

  (* tightening either cut-off (or adding one next to the other) never adds a hit *)
  Theorem monotone_weaker_gen fx st rq aof' aot' cands :
    cut_le_N (rq_as_of_frame rq) aof' = true -> cut_le_Z (rq_as_of_ts rq) aot' = true ->
    sketch_disjoint st rq cands = false \/ (fx = true /\ sketch_complete cands) ->
    incl (search_ids_gen fx engine st rq cands)
         (search_ids_gen fx engine st (with_as_of rq aof' aot') cands).
  Proof.
    intros Hn Ht. apply monotone_core; [reflexivity | apply pre_weaker; assumption].
  Qed.

  (* adding as_of_* never adds a hit: no cut-off is the most permissive one *)
  Theorem monotone_gen fx st rq cands :
    sketch_disjoint st rq cands = false \/ (fx = true /\ sketch_complete cands) ->
    incl (search_ids_gen fx engine st rq cands)
         (search_ids_gen fx engine st (drop_as_of rq) cands).
  Proof. exact (monotone_weaker_gen fx st rq None None cands eq_refl eq_refl). Qed.

  Theorem monotone_no_sketch_gen fx st rq aof' aot' cands :
    sketch_on st rq = false ->
    cut_le_N (rq_as_of_frame rq) aof' = true -> cut_le_Z (rq_as_of_ts rq) aot' = true ->
    incl (search_ids_gen fx engine st rq cands)
         (search_ids_gen fx engine st (with_as_of rq aof' aot') cands).
  Proof.
    intros Hoff Hn Ht. apply monotone_weaker_gen; try assumption. left.
    unfold sketch_disjoint. destruct (pre_sketch st rq) as [s|[l|]]; try reflexivity.
    rewrite Hoff. reflexivity.
  Qed.

End Engine.

(* the empty-intersection branch, for both versions of the code: the filter built so far
   and the sketch set are non-empty and disjoint; the current code (fx = true) hands the
   engine the former, the code before d76304f the latter *)
Lemma disjoint_filter_gen fx st rq cands :
  sketch_disjoint st rq cands = true ->
  exists existing, pre_sketch st rq = Cont (Some existing) /\ existing <> [] /\ cands <> [] /\
    candidate_filter_gen fx st rq cands = Cont (Some (if fx then existing else cands)) /\
    forall x, In x cands -> ~ In x existing.
Proof.
  unfold sketch_disjoint, candidate_filter_gen, bind.
  destruct (pre_sketch st rq) as [s|[l|]] eqn:Ep; try discriminate.
  intros H. apply andb_true_iff in H as [H H3]. apply andb_true_iff in H as [H1 H2].
  exists l. split; [reflexivity|]. split; [intros ->; apply pre_sketch_cont in Ep as [_ Hl]; apply Hl; reflexivity|].
  apply negb_true_iff in H2. split; [apply is_nil_false; assumption|].
  unfold sketch_stage_gen. rewrite H1, H2, H3. split; [destruct fx; reflexivity|].
  intros x Hx Hl. apply is_nil_true in H3.
  assert (Hin : In x (keep_in cands l)) by (apply keep_in_In; auto).
  rewrite H3 in Hin. destruct Hin.
Qed.

(* /repo before d76304f: in its empty-intersection branch with no date /
   temporal filter, the two requests ran with the SAME filter (the sketch set): the
   as_of_* parameters were ignored altogether *)
Theorem old_fallback_ignores_asof st rq cands :
  rq_date rq = None -> rq_temporal rq = None ->
  sketch_disjoint st rq cands = true ->
  candidate_filter_old st rq cands = Cont (Some cands) /\
  candidate_filter_old st (drop_as_of rq) cands = Cont (Some cands).
Proof.
  intros Hd Ht. unfold sketch_disjoint, candidate_filter_old, candidate_filter_gen, bind.
  assert (Ep0 : pre_sketch st (drop_as_of rq) = Cont None).
  { unfold pre_sketch, bind, date_stage, temporal_stage, drop_as_of. cbn. rewrite Hd, Ht. reflexivity. }
  rewrite Ep0.
  destruct (pre_sketch st rq) as [s|[l|]] eqn:Ep; try discriminate.
  intros H. apply andb_true_iff in H as [H H3]. apply andb_true_iff in H as [H1 H2].
  unfold sketch_stage_gen. change (sketch_on st (drop_as_of rq)) with (sketch_on st rq). rewrite H1, H3.
  destruct (is_nil cands); [discriminate|]. split; reflexivity.
Qed.

(* /repo before d76304f: with only as_of_* (no date / temporal filter) the filter built so far IS the
   replay set: the old code handed the engine only ids outside the replay set *)
Theorem old_fallback_all_future st rq cands x :
  rq_date rq = None -> rq_temporal rq = None -> asof_given rq = true ->
  sketch_disjoint st rq cands = true ->
  candidate_filter_old st rq cands = Cont (Some cands) /\
  (In x cands -> ~ In x (replay_ids (st_frames st) (rq_as_of_frame rq) (rq_as_of_ts rq))).
Proof.
  intros Hd Ht Ha Hk. destruct (disjoint_filter_gen false st rq cands Hk) as [l [Ep [_ [_ [Hc Hout]]]]].
  split; [assumption|]. intros Hx.
  assert (l = replay_ids (st_frames st) (rq_as_of_frame rq) (rq_as_of_ts rq)) as <-; [|auto].
  revert Ep. unfold pre_sketch, bind, date_stage, temporal_stage, replay_stage, inter_stage.
  rewrite Hd, Ht, Ha. destruct (is_nil (replay_ids _ _ _)); [discriminate|].
  intros [= <-]. reflexivity.
Qed.

Lemma table_engine_sound U l x : In x (table_engine U (Some l)) -> In x l.
Proof. cbn. intros H. apply filter_In in H as [_ H]. apply mem_id_In. assumption. Qed.

Lemma table_engine_mono U l1 l2 :
  incl l1 l2 -> incl (table_engine U (Some l1)) (table_engine U (Some l2)).
Proof.
  intros Hi x H. cbn in *. apply filter_In in H as [HU H]. apply filter_In. split; [assumption|].
  apply mem_id_In. apply Hi. apply mem_id_In. assumption.
Qed.

Lemma table_engine_none U l : incl (table_engine U (Some l)) (table_engine U None).
Proof. intros x H. cbn in *. apply filter_In in H. tauto. Qed.
