(* C05 proofs, over Model/Wal.v.  The region of a log in use is the images of the records lying in it
   from offset 0 up to the head -- all of them, checkpointed or not -- then a tail that makes the scan
   stop (Inv); the abstract state of Model/WalSpec.v is read off the sequence counters and those records
   (abs).  Every operation that changes the state ends in maybe_write_sentinel, which touches the region
   only and is what re-establishes `stops`: an operation shows the two halves of Inv that do not mention
   the tail (Shape, Books) of the state it hands over, sentinel_inv puts Inv together, and refines_via
   concludes from the specification's step to that state. *)
From MV Require Import Base.Prelude Base.Facts Model.Wal Model.WalSpec.
Local Open Scope N_scope.

Lemma wal_zeros_length n : length (zeros n) = n.
Proof. apply repeat_length. Qed.
Lemma firstn_zeros n m : (n <= m)%nat -> firstn n (zeros m) = zeros n.
Proof.
  revert m; induction n as [|n IH]; intros m Hm; [reflexivity|].
  destruct m as [|m]; [lia|]. cbn. f_equal. apply IH. lia.
Qed.

Lemma write_at_app (a t b : bytes) :
  write_at (a ++ t) (length a) b = a ++ b ++ skipn (length b) t.
Proof.
  unfold write_at. rewrite firstn_app_exact by reflexivity.
  rewrite skipn_app. replace (length a + length b - length a)%nat with (length b) by lia.
  rewrite skipn_all2 by lia. reflexivity.
Qed.

Lemma write_at_length (r b : bytes) pos : (pos + length b <= length r)%nat -> length (write_at r pos b) = length r.
Proof. intros Hl. unfold write_at. rewrite !app_length, firstn_length, skipn_length. lia. Qed.

Section WalProofs.
  Variable H : bytes -> bytes.
  Hypothesis H32 : forall p, length (H p) = 32%nat.

  Definition hdr_of (seq : N) (p : bytes) : bytes :=
    le_encode 8 seq ++ le_encode 4 (N.of_nat (length p)) ++ zeros 4 ++ H p.

  Lemma image_split seq p : image H seq p = hdr_of seq p ++ p.
  Proof. unfold image, hdr_of. rewrite <- !app_assoc. reflexivity. Qed.

  Lemma hdr_length seq p : length (hdr_of seq p) = 48%nat.
  Proof. unfold hdr_of. rewrite !app_length, !le_encode_length, wal_zeros_length, H32. reflexivity. Qed.

  Lemma image_length seq p : length (image H seq p) = (48 + length p)%nat.
  Proof. rewrite image_split, app_length, hdr_length. reflexivity. Qed.

  Definition images (recs : list wrec) : bytes :=
    concat (map (fun r => image H (r_seq r) (r_payload r)) recs).
  Definition total (recs : list wrec) : N := fold_right (fun r a => rec_size r + a) 0 recs.
  Lemma bytes_of_total l : bytes_of l = total l.
  Proof. reflexivity. Qed.

  (* to rewrite with: Prelude makes the N operations `simpl never`, so cbn leaves these folds alone *)
  Lemma total_cons r recs : total (r :: recs) = rec_size r + total recs.
  Proof. reflexivity. Qed.
  Lemma images_cons r recs : images (r :: recs) = image H (r_seq r) (r_payload r) ++ images recs.
  Proof. reflexivity. Qed.
  Lemma rec_size_eq r : rec_size r = 48 + N.of_nat (length (r_payload r)).
  Proof. reflexivity. Qed.

  Lemma images_length recs : N.of_nat (length (images recs)) = total recs.
  Proof.
    induction recs as [|r recs IH]; [reflexivity|].
    rewrite images_cons, total_cons, app_length, image_length, rec_size_eq. lia.
  Qed.

  Lemma images_app a b : images (a ++ b) = images a ++ images b.
  Proof. unfold images. rewrite map_app, concat_app. reflexivity. Qed.

  Lemma total_app a b : total (a ++ b) = total a + total b.
  Proof. induction a as [|x a IH]; [cbn [app]; change (total []) with 0; lia|]. rewrite <- app_comm_cons, !total_cons, IH. lia. Qed.

  (* a record append_entry can have written *)
  Definition rec_ok (r : wrec) : Prop :=
    (0 < length (r_payload r))%nat /\ N.of_nat (length (r_payload r)) <= U32_MAX /\ r_seq r < 2 ^ 64.

  Definition stops (tail : bytes) (head size : N) : Prop :=
    size < head + EH \/ firstn 48 tail = zeros 48.

  Lemma hdr_seq seq p : seq < 2 ^ 64 -> le_decode (firstn 8 (hdr_of seq p)) = seq.
  Proof.
    intros Hs. unfold hdr_of. rewrite firstn_app_exact by (rewrite le_encode_length; reflexivity).
    apply le_decode_encode. exact Hs.
  Qed.
  Lemma hdr_len seq p : N.of_nat (length p) <= U32_MAX ->
    le_decode (slice (hdr_of seq p) 8 4) = N.of_nat (length p).
  Proof.
    intros Hl. unfold hdr_of.
    pose proof (slice_app_exact (le_encode 8 seq) (le_encode 4 (N.of_nat (length p))) (zeros 4 ++ H p)) as HS.
    rewrite !le_encode_length in HS. rewrite HS.
    apply le_decode_encode. unfold U32_MAX in Hl. change (256 ^ N.of_nat 4) with 4294967296. lia.
  Qed.
  Lemma hdr_digest seq p : slice (hdr_of seq p) 16 32 = H p.
  Proof.
    unfold hdr_of. rewrite !app_assoc.
    pose proof (slice_app_tail ((le_encode 8 seq ++ le_encode 4 (N.of_nat (length p))) ++ zeros 4) (H p)) as HS.
    rewrite !app_length, !le_encode_length, wal_zeros_length, H32 in HS. exact HS.
  Qed.

  Lemma scan_from_stop f tail cursor size :
    stops tail cursor size -> scan_from H (S f) tail cursor size = Ok ([], cursor).
  Proof.
    intros Hstop. cbn [scan_from]. destruct (size <? cursor + EH) eqn:E1; [reflexivity|].
    destruct Hstop as [Hs|Hz]; [lia|]. rewrite Hz. reflexivity.
  Qed.

  Lemma scan_from_image f seq p rest cursor size :
    rec_ok (mkRec seq p) -> cursor + rec_size (mkRec seq p) <= size ->
    scan_from H (S f) (image H seq p ++ rest) cursor size =
    match scan_from H f rest (cursor + rec_size (mkRec seq p)) size with
    | Ok (l, c) => Ok (mkRec seq p :: l, c)
    | Err e => Err e
    | Panic s => Panic s
    end.
  Proof.
    intros (Hp0 & Hpmax & Hseq) Hfit. rewrite rec_size_eq in *. cbn [r_seq r_payload] in *.
    rewrite image_split, <- app_assoc. cbn [scan_from]. unfold EH.
    replace (size <? cursor + 48) with false by lia.
    rewrite (firstn_app_exact (hdr_of seq p)) by (rewrite hdr_length; reflexivity).
    rewrite hdr_seq, hdr_len, hdr_digest by assumption.
    replace (N.of_nat (length p) =? 0) with false by lia. rewrite andb_false_r. cbn [orb].
    replace (size <? cursor + 48 + N.of_nat (length p)) with false by lia.
    rewrite Nat2N.id.
    pose proof (slice_app_exact (hdr_of seq p) p rest) as HS. rewrite hdr_length in HS.
    rewrite HS, bytes_eqb_refl. cbn [negb].
    rewrite app_assoc, (skipn_app_exact (hdr_of seq p ++ p)) by (rewrite app_length, hdr_length; reflexivity).
    rewrite N.add_assoc. reflexivity.
  Qed.

  Lemma scan_images recs : forall fuel tail cursor size,
    Forall rec_ok recs ->
    (length recs < fuel)%nat ->
    cursor + total recs <= size ->
    stops tail (cursor + total recs) size ->
    scan_from H fuel (images recs ++ tail) cursor size = Ok (recs, cursor + total recs).
  Proof.
    induction recs as [|[seq p] recs IH]; intros fuel tail cursor size Hok Hfuel Hfit Hstop;
      (destruct fuel as [|f]; [cbn in Hfuel; lia|]).
    - change (total []) with 0 in *. rewrite N.add_0_r in *. apply scan_from_stop, Hstop.
    - inversion Hok as [|? ? Hr Hoks]; subst. rewrite total_cons, N.add_assoc in *.
      rewrite images_cons, <- app_assoc. cbn [r_seq r_payload].
      rewrite scan_from_image; [|exact Hr|lia].
      rewrite (IH f tail _ size Hoks); [reflexivity | cbn in Hfuel; lia | exact Hfit | exact Hstop].
  Qed.

  Lemma length_le_total recs : Forall rec_ok recs -> N.of_nat (length recs) <= total recs.
  Proof.
    induction recs as [|r recs IH]; intros Hok; [cbn; lia|].
    inversion Hok; subst. specialize (IH ltac:(assumption)). rewrite total_cons, rec_size_eq. cbn [length]. lia.
  Qed.

  Record Inv (w : wal) (h : whdr) (recs : list wrec) : Prop := mkInv {
    inv_len : N.of_nat (length (region w)) = wsize w;
    inv_pos : 0 < wsize w;
    inv_region : exists tail, region w = images recs ++ tail /\ stops tail (write_head w) (wsize w);
    inv_head : write_head w = total recs;
    inv_ok : Forall rec_ok recs;
    inv_le : Forall (fun r => r_seq r <= sequence w) recs;
    inv_last : last_seq recs (sequence w) = sequence w;
    inv_nil : recs = [] -> sequence w = ckpt_seq w;
    inv_ck : ckpt_seq w <= sequence w;
    inv_hdr : h_seq h = ckpt_seq w;
    inv_pb : pending_bytes w = pending_sum (ckpt_seq w) recs }.

  Definition pending_after (ck : N) (recs : list wrec) : list wrec := filter (fun e => ck <? r_seq e) recs.

  Lemma pending_sum_cons ck r recs :
    pending_sum ck (r :: recs) = if ck <? r_seq r then rec_size r + pending_sum ck recs else pending_sum ck recs.
  Proof. reflexivity. Qed.
  Lemma pending_after_cons ck r recs :
    pending_after ck (r :: recs) = if ck <? r_seq r then r :: pending_after ck recs else pending_after ck recs.
  Proof. reflexivity. Qed.

  Lemma pending_sum_le ck recs : pending_sum ck recs <= total recs.
  Proof.
    induction recs as [|r recs IH]; [cbn; lia|].
    rewrite pending_sum_cons, total_cons. destruct (ck <? r_seq r); lia.
  Qed.

  Lemma pending_sum_filter ck recs : pending_sum ck recs = total (pending_after ck recs).
  Proof.
    induction recs as [|r recs IH]; [reflexivity|].
    rewrite pending_sum_cons, pending_after_cons. destruct (ck <? r_seq r); [rewrite total_cons|]; lia.
  Qed.

  Lemma pending_sum_zero ck recs : Forall rec_ok recs -> pending_sum ck recs = 0 -> pending_after ck recs = [].
  Proof.
    induction recs as [|r recs IH]; intros Hok Hz; [reflexivity|].
    inversion Hok; subst. rewrite pending_sum_cons in Hz. rewrite pending_after_cons.
    destruct (ck <? r_seq r).
    - rewrite rec_size_eq in Hz. lia.
    - apply IH; assumption.
  Qed.

  Lemma pending_all_le ck recs : Forall (fun r => r_seq r <= ck) recs -> pending_after ck recs = [] /\ pending_sum ck recs = 0.
  Proof.
    induction recs as [|r recs IH]; intros Hle; [split; reflexivity|].
    inversion Hle; subst. rewrite pending_sum_cons, pending_after_cons.
    replace (ck <? r_seq r) with false by lia. apply IH; assumption.
  Qed.

  Definition Shape (w : wal) (recs : list wrec) : Prop :=
    N.of_nat (length (region w)) = wsize w /\ 0 < wsize w /\
    write_head w = total recs /\ exists tail, region w = images recs ++ tail.

  Lemma inv_shape w h recs : Inv w h recs -> Shape w recs.
  Proof.
    intros HI. destruct (inv_region w h recs HI) as (tail & Hr & _).
    split; [exact (inv_len w h recs HI)|]. split; [exact (inv_pos w h recs HI)|].
    split; [exact (inv_head w h recs HI)|]. exists tail. exact Hr.
  Qed.

  Lemma shape_fits w recs : Shape w recs -> total recs <= wsize w.
  Proof. intros (Hlen & _ & _ & tail & Hreg). rewrite <- Hlen, Hreg, app_length, <- images_length. lia. Qed.

  Definition Books (w : wal) (h : whdr) (recs : list wrec) : Prop :=
    Forall rec_ok recs /\ Forall (fun r => r_seq r <= sequence w) recs /\
    last_seq recs (sequence w) = sequence w /\ (recs = [] -> sequence w = ckpt_seq w) /\
    ckpt_seq w <= sequence w /\ h_seq h = ckpt_seq w /\ pending_bytes w = pending_sum (ckpt_seq w) recs.

  Lemma inv_books w h recs : Inv w h recs -> Books w h recs.
  Proof.
    intros HI. split; [exact (inv_ok w h recs HI)|]. split; [exact (inv_le w h recs HI)|].
    split; [exact (inv_last w h recs HI)|]. split; [exact (inv_nil w h recs HI)|].
    split; [exact (inv_ck w h recs HI)|]. split; [exact (inv_hdr w h recs HI) | exact (inv_pb w h recs HI)].
  Qed.

  Lemma inv_scan w h recs : Inv w h recs ->
    scan_records H (region w) (wsize w) = Ok (recs, total recs).
  Proof.
    intros HI. pose proof (shape_fits w recs (inv_shape w h recs HI)) as Hfit.
    pose proof (inv_len w h recs HI) as Hlen. pose proof (inv_ok w h recs HI) as Hok.
    destruct (inv_region w h recs HI) as (tail & Hreg & Hstop).
    unfold scan_records. rewrite Hreg at 2. rewrite (inv_head w h recs HI) in Hstop.
    pose proof (length_le_total recs Hok).
    apply (scan_images recs _ tail 0 (wsize w) Hok); [lia | lia | exact Hstop].
  Qed.

  Lemma write_zeros_at_head recs tail k :
    write_at (images recs ++ tail) (N.to_nat (total recs)) (zeros k) = images recs ++ zeros k ++ skipn k tail.
  Proof.
    rewrite <- images_length, Nat2N.id, write_at_app, wal_zeros_length. reflexivity.
  Qed.

  Lemma sentinel_zeroes w : pending_bytes w <= write_head w <= wsize w ->
    maybe_write_sentinel w =
    set_region w (write_at (region w) (N.to_nat (write_head w)) (zeros (N.to_nat (N.min (wsize w - write_head w) 48)))).
  Proof.
    intros [Hpb Hhd]. destruct w as [rg sz hd ckh pb sq ck ap].
    unfold maybe_write_sentinel, write_zero_header, set_head, set_region, EH.
    cbn [region wsize write_head checkpoint_head pending_bytes sequence ckpt_seq appends] in *.
    assert (E0 : sz <= hd -> write_at rg (N.to_nat hd) (zeros (N.to_nat (N.min (sz - hd) 48))) = rg).
    { intros Hend. replace (N.to_nat (N.min (sz - hd) 48)) with 0%nat by lia.
      unfold write_at. cbn [zeros repeat length app]. rewrite Nat.add_0_r. apply firstn_skipn. }
    destruct (sz =? 0) eqn:Ez.
    { rewrite E0 by lia. reflexivity. }
    destruct (sz <=? pb) eqn:Efull.
    { (* full: pb <= hd <= sz puts the head at the end *) rewrite E0 by lia. reflexivity. }
    replace (N.min hd sz) with hd by lia.
    destruct (sz - hd <? 48) eqn:Erem; [destruct (0 <? sz - hd) eqn:Epos|].
    - replace (N.min (sz - hd) 48) with (sz - hd) by lia. reflexivity.
    - (* none left *) rewrite E0 by lia. reflexivity.
    - replace (N.min (sz - hd) 48) with 48 by lia. reflexivity.
  Qed.

  Definition abs (w : wal) (recs : list wrec) : astate :=
    mkA (pending_after (ckpt_seq w) recs) (sequence w) (ckpt_seq w).

  Definition same_log (w : wal) (h : whdr) (recs : list wrec) (w' : wal) : Prop :=
    Inv w' h recs /\ abs w' recs = abs w recs /\ sequence w' = sequence w /\ wsize w' = wsize w.

  Lemma sentinel_inv w h recs : Shape w recs -> Books w h recs -> same_log w h recs (maybe_write_sentinel w).
  Proof.
    intros (Hlen & Hpos & Hhead & tail & Hreg) (Hok & Hle & Hlast & Hnil & Hck & Hhdr & Hpb).
    assert (Htot : total recs + N.of_nat (length tail) = wsize w).
    { rewrite <- Hlen, Hreg, app_length, <- images_length. lia. }
    pose proof (pending_sum_le (ckpt_seq w) recs) as Hple.
    rewrite sentinel_zeroes by lia. split; [|repeat split].
    (* the fields that do not mention the region are the parts of Shape and Books *)
    constructor; cbn [set_region region wsize write_head pending_bytes sequence ckpt_seq]; try assumption.
    - rewrite write_at_length; [exact Hlen|]. rewrite wal_zeros_length. lia.
    - rewrite Hhead, Hreg, write_zeros_at_head. eexists. split; [reflexivity|].
      destruct (N.lt_ge_cases (wsize w - total recs) 48) as [Hl|Hg].
      + left. unfold EH. lia.
      + right. replace (N.min (wsize w - total recs) 48) with 48 by lia.
        apply firstn_app_exact. rewrite wal_zeros_length. reflexivity.
  Qed.

  Definition refines (w : wal) (recs : list wrec) (op : wop) (res : (wal * whdr) * wout) : Prop :=
    exists recs', spec_step (wsize w) (abs w recs) op (snd res) (abs (fst (fst res)) recs') /\
                  Inv (fst (fst res)) (snd (fst res)) recs' /\
                  sequence (fst (fst res)) <= sequence w + 1 /\ wsize (fst (fst res)) = wsize w.

  Lemma same_log_refl w h recs : Inv w h recs -> same_log w h recs w.
  Proof. intros HI. split; [exact HI | repeat split]. Qed.

  Lemma refines_via w recs op o w1 h1 recs1 w' :
    same_log w1 h1 recs1 w' -> spec_step (wsize w) (abs w recs) op o (abs w1 recs1) ->
    sequence w1 <= sequence w + 1 -> wsize w1 = wsize w -> refines w recs op ((w', h1), o).
  Proof.
    intros (HI & Ea & Es & Ew) S Hs Hw. exists recs1. cbn [fst snd]. rewrite Ea, Es, Ew.
    split; [exact S|]. split; [exact HI|]. split; assumption.
  Qed.

  Lemma refines_same w h recs op w' o :
    same_log w h recs w' -> spec_step (wsize w) (abs w recs) op o (abs w recs) -> refines w recs op ((w', h), o).
  Proof. intros HS S. apply (refines_via w recs op o w h recs w' HS S); [lia | reflexivity]. Qed.

  Lemma pending_after_app ck a b : pending_after ck (a ++ b) = pending_after ck a ++ pending_after ck b.
  Proof. apply filter_app. Qed.
  Lemma last_seq_snoc l r d : last_seq (l ++ [r]) d = r_seq r.
  Proof. unfold last_seq. rewrite map_app. apply last_last. Qed.
  Lemma payload_of_length len fill : N.of_nat (length (payload_of len fill)) = len.
  Proof. unfold payload_of. rewrite repeat_length. lia. Qed.

  (* `keep`: the records that stay in front of the new one (all of recs, or none when the head wrapped to 0) *)
  Lemma append_accept w h recs keep tk len fill :
    Inv w h recs ->
    region w = images keep ++ tk ->
    Forall rec_ok keep -> Forall (fun r => r_seq r <= sequence w) keep ->
    pending_after (ckpt_seq w) keep = pending_after (ckpt_seq w) recs ->
    0 < len -> len <= U32_MAX -> sequence w + 1 < 2 ^ 64 -> total keep + (EH + len) <= wsize w ->
    let p := payload_of len fill in
    let w1 := mkWal (write_at (region w) (N.to_nat (total keep)) (image H (sequence w + 1) p)) (wsize w)
                    (total keep + (EH + len)) (checkpoint_head w) (pending_bytes w + (EH + len))
                    (sequence w + 1) (ckpt_seq w) (appends w + 1) in
    let w' := maybe_write_sentinel w1 in
    refines w recs (WAppend len fill) ((w', h), OSeq (Ok (sequence w + 1))).
  Proof.
    intros HI Hreg Hkok Hkle Hkp Hlen0 Hmax Hseq Hfit p w1 w'. set (new := mkRec (sequence w + 1) p).
    pose proof (inv_len w h recs HI) as Hlen. pose proof (inv_ck w h recs HI) as Hck.
    pose proof (inv_pb w h recs HI) as Hpb.
    pose proof (payload_of_length len fill) as Hp. fold p in Hp.
    assert (Hnew : total (keep ++ [new]) = total keep + (EH + len)).
    { rewrite total_app, total_cons, rec_size_eq. cbn [new r_payload]. change (total []) with 0. unfold EH. lia. }
    assert (Hpend : pending_after (ckpt_seq w) (keep ++ [new]) = pending_after (ckpt_seq w) recs ++ [new]).
    { rewrite pending_after_app, Hkp, pending_after_cons. cbn [new r_seq].
      replace (ckpt_seq w <? sequence w + 1) with true by lia. reflexivity. }
    assert (HS : Shape w1 (keep ++ [new])).
    { pose proof (image_length (sequence w + 1) p) as Himg.
      unfold Shape, w1. cbn [region wsize write_head].
      split; [|split; [|split]].
      - rewrite write_at_length; [exact Hlen|]. unfold EH in Hfit. lia.
      - exact (inv_pos w h recs HI).
      - symmetry. exact Hnew.
      - exists (skipn (length (image H (sequence w + 1) p)) tk).
        rewrite Hreg, <- images_length, Nat2N.id, write_at_app.
        rewrite images_app, images_cons, <- !app_assoc. reflexivity. }
    assert (HB : Books w1 h (keep ++ [new])).
    { unfold Books, w1. cbn [sequence ckpt_seq pending_bytes]. repeat split.
      - apply Forall_app. split; [exact Hkok|]. repeat constructor; cbn [new r_payload r_seq]; lia.
      - apply Forall_app. split; [|repeat constructor; cbn; lia].
        eapply Forall_impl; [|exact Hkle]. cbn beta. intros r Hr. lia.
      - apply last_seq_snoc.
      - destruct keep; discriminate.
      - lia.
      - exact (inv_hdr w h recs HI).
      - rewrite pending_sum_filter, Hpend, total_app, <- pending_sum_filter, <- Hpb, total_cons, rec_size_eq.
        cbn [new r_payload]. change (total []) with 0. unfold EH. lia. }
    apply (refines_via w recs _ _ w1 h (keep ++ [new])); [exact (sentinel_inv w1 h _ HS HB) | | cbn; lia | reflexivity].
    unfold abs at 2. cbn [w1 sequence ckpt_seq]. rewrite Hpend. apply (SAppendOk (wsize w) (abs w recs)). exact Hlen0.
  Qed.

  Lemma append_refines w h recs len fill :
    Inv w h recs -> sequence w + 1 < 2 ^ 64 ->
    let '(w', o) := append_entry H w (payload_of len fill) in refines w recs (WAppend len fill) ((w', h), OSeq o).
  Proof.
    intros HI Hseq.
    assert (Refused : forall k, (k = 1 \/ k = 2 \/ k = 3 \/ k = 6) -> (k = 6 <-> len = 0) -> (k = 3 -> U32_MAX < len) ->
              (k = 1 -> wsize w < EH + len) -> refines w recs (WAppend len fill) ((w, h), OSeq (Err k))).
    { intros k K1 K2 K3 K4. apply refines_same; [apply same_log_refl, HI | apply SAppendRefused; assumption]. }
    unfold append_entry. rewrite payload_of_length.
    destruct (U32_MAX <? len) eqn:E3; [apply (Refused 3); lia|].
    destruct (len =? 0) eqn:E6; [apply (Refused 6); lia|].
    destruct (wsize w <? EH + len) eqn:E1; [apply (Refused 1); lia|].
    destruct (wsize w <? pending_bytes w + (EH + len)) eqn:E2; [apply (Refused 2); lia|].
    destruct (inv_region w h recs HI) as (tail & Hreg & _). pose proof (inv_pb w h recs HI) as Hpb.
    destruct (wsize w <? write_head w + (EH + len)) eqn:EW; cbn [andb].
    - destruct (0 <? pending_bytes w) eqn:EP; [apply (Refused 2); lia|].
      (* wrap with nothing pending: written at offset 0 *)
      apply (append_accept w h recs [] (region w) len fill HI).
      + reflexivity.
      + constructor.
      + constructor.
      + symmetry. apply pending_sum_zero; [exact (inv_ok w h recs HI) | lia].
      + lia.
      + lia.
      + exact Hseq.
      + change (total []) with 0. lia.
    - (* no wrap *)
      pose proof (inv_head w h recs HI) as Hhead. rewrite Hhead.
      apply (append_accept w h recs recs tail len fill HI Hreg (inv_ok w h recs HI) (inv_le w h recs HI) eq_refl); lia.
  Qed.

  (* records_after and open_wal rebuild the state from a scan of the region: the same state up to
     checkpoint_head and appends, of which Inv says nothing *)
  Lemma rescanned w h recs ckh app :
    Inv w h recs ->
    let w1 := mkWal (region w) (wsize w) (N.min (total recs) (wsize w)) ckh
                    (pending_sum (ckpt_seq w) recs) (sequence w) (ckpt_seq w) app in
    same_log w h recs (maybe_write_sentinel w1).
  Proof.
    intros HI w1. pose proof (inv_shape w h recs HI) as HS.
    unfold w1. rewrite N.min_l, <- (inv_head w h recs HI), <- (inv_pb w h recs HI) by exact (shape_fits w recs HS).
    (* Shape and Books read neither checkpoint_head nor appends: those of w convert to those of w2 *)
    set (w2 := mkWal (region w) (wsize w) (write_head w) ckh (pending_bytes w) (sequence w) (ckpt_seq w) app).
    exact (sentinel_inv w2 h recs HS (inv_books w h recs HI)).
  Qed.

  Lemma checkpoint_refines w h recs :
    Inv w h recs ->
    let '(w', h') := record_checkpoint w in refines w recs WCheckpoint ((w', h'), OSeq (Ok (h_seq h'))).
  Proof.
    intros HI. unfold record_checkpoint.
    destruct (inv_books w h recs HI) as (Hok & Hle & Hlast & _).
    destruct (pending_all_le (sequence w) recs Hle) as [Pn Ps].
    set (w1 := mkWal (region w) (wsize w) (write_head w) (write_head w) 0 (sequence w) (sequence w) 0).
    set (h1 := mkHdr (write_head w) (sequence w)).
    apply (refines_via w recs _ _ w1 h1 recs); [apply sentinel_inv | | cbn; lia | reflexivity].
    - (* region, size and head are w's *) exact (inv_shape w h recs HI).
    - unfold Books. cbn [w1 h1 sequence ckpt_seq pending_bytes h_seq].
      split; [exact Hok|]. split; [exact Hle|]. split; [exact Hlast|].
      split; [reflexivity|].
      split; [apply N.le_refl|]. split; [reflexivity|].
      symmetry. exact Ps.
    - unfold abs at 2. cbn [w1 sequence ckpt_seq]. rewrite Pn. apply (SCheckpoint (wsize w) (abs w recs)).
  Qed.

  Lemma records_after_refines w h recs n :
    Inv w h recs ->
    let '(w', o) := records_after H w n in
    o = Ok (filter (fun e => n <? r_seq e) recs) /\ same_log w h recs w'.
  Proof.
    intros HI. unfold records_after. rewrite (inv_scan w h recs HI), (inv_last w h recs HI).
    split; [reflexivity|]. apply rescanned, HI.
  Qed.

  Lemma last_cons_indep {A} (x : A) l d1 d2 : last (x :: l) d1 = last (x :: l) d2.
  Proof.
    revert x. induction l as [|y l IH]; intros x; [reflexivity|]. exact (IH y).
  Qed.

  Lemma reopen_refines w h recs :
    Inv w h recs ->
    exists w', open_wal H (region w) (wsize w) h = Ok w' /\ same_log w h recs w'.
  Proof.
    intros HI. unfold open_wal. pose proof (inv_pos w h recs HI) as Hpos.
    replace (wsize w =? 0) with false by lia. rewrite (inv_scan w h recs HI), (inv_hdr w h recs HI).
    (* the header holds the checkpoint sequence, which the log falls back on when it is empty *)
    assert (Hsq : last_seq recs (ckpt_seq w) = sequence w).
    { destruct recs as [|r recs']; [symmetry; apply (inv_nil w h [] HI); reflexivity|].
      rewrite <- (inv_last w h _ HI). apply last_cons_indep. }
    rewrite Hsq. eexists. split; [reflexivity|]. apply rescanned, HI.
  Qed.

  Lemma filter_comm {A} (f g : A -> bool) l : filter f (filter g l) = filter g (filter f l).
  Proof. rewrite !filter_filter. apply filter_ext. intros x. apply andb_comm. Qed.

  Lemma wstep_refines thr period w h recs op :
    Inv w h recs -> sequence w + 1 < 2 ^ 64 -> refines w recs op (wstep H thr period (w, h) op).
  Proof.
    intros HI Hseq. destruct op as [len fill| | | |n| |]; cbn [wstep].
    - pose proof (append_refines w h recs len fill HI Hseq) as HA.
      destruct (append_entry H w (payload_of len fill)) as [w' o]. exact HA.
    - pose proof (checkpoint_refines w h recs HI) as HA.
      destruct (record_checkpoint w) as [w' h']. exact HA.
    - apply refines_same; [apply same_log_refl, HI|].
      rewrite (inv_pb w h recs HI), pending_sum_filter, <- bytes_of_total. apply (SStats (wsize w) (abs w recs)).
    - pose proof (records_after_refines w h recs (ckpt_seq w) HI) as HA. unfold pending_records.
      destruct (records_after H w (ckpt_seq w)) as [w' o]. destruct HA as [-> HS].
      apply refines_same; [exact HS|]. apply (SPending (wsize w) (abs w recs)).
    - pose proof (records_after_refines w h recs n HI) as HA.
      destruct (records_after H w n) as [w' o]. destruct HA as [-> HS].
      apply refines_same; [exact HS|]. apply SRecordsAfter; [|apply filter_comm].
      apply Forall_forall. intros r Hr. apply filter_In in Hr as [_ Hr]. lia.
    - destruct (reopen_refines w h recs HI) as (w' & -> & HS).
      apply refines_same; [exact HS|]. apply SReopen.
    - apply refines_same; [apply same_log_refl, HI|]. apply SShould.
  Qed.

  Theorem wrun_refines thr period : forall ops w h recs,
    Inv w h recs -> sequence w + N.of_nat (length ops) < 2 ^ 64 ->
    spec_run (wsize w) (abs w recs) ops (wrun H thr period (w, h) ops).
  Proof.
    induction ops as [|op ops IH]; intros w h recs HI Hb; [constructor|].
    cbn [wrun length] in *.
    destruct (wstep_refines thr period w h recs op HI) as (recs' & Ssp & HI' & Hs & Hw); [lia|].
    destruct (wstep H thr period (w, h) op) as [[w' h'] o]. cbn [fst snd] in *.
    econstructor; [exact Ssp|]. rewrite <- Hw. apply (IH w' h' recs' HI'). lia.
  Qed.

  (* opening a fresh (all-zero) region is reopening this log *)
  Lemma blank_inv size :
    0 < size -> Inv (mkWal (zeros (N.to_nat size)) size 0 0 0 0 0 0) (mkHdr 0 0) [].
  Proof.
    intros Hpos. constructor; cbn [region wsize write_head pending_bytes sequence ckpt_seq h_seq].
    - rewrite wal_zeros_length. lia.
    - exact Hpos.
    - exists (zeros (N.to_nat size)). split; [reflexivity|].
      destruct (N.lt_ge_cases size 48) as [Hl|Hg]; [left; unfold EH; lia|].
      right. apply firstn_zeros. lia.
    - reflexivity.
    - constructor.
    - constructor.
    - reflexivity.
    - reflexivity.
    - apply N.le_refl.
    - reflexivity.
    - reflexivity.
  Qed.
End WalProofs.
