(* What the statements of C22 rest on, about Model/OpenSeq.v: totality (no Panic, fuel suffices)
   of the byte-level decoders on the open path.  Hypotheses, where there are any, are what the
   operating system guarantees (a file is shorter than 2^63 bytes, bytes are below 256) or, for
   open_locked, that the components do not panic.  A decoder without a panic site is walked by
   the hint database nopanic.  One whose totality is an argument about ranges is taken apart test
   by test, the path conditions feeding lia, and stated in Base.Facts.post form: what Ok, Err and
   Panic each mean. *)
From MV Require Import Base.Prelude Base.Facts Model.Footer Model.Bincode Model.Toc
  Model.OpenSeq Proofs.BincodeProofs.
From MV Require Model.TimeIndex.
Local Open Scope N_scope.

Lemma add_chk_ok a b : a + b < U64_LIM -> add_chk a b = Ok (a + b).
Proof. intros Hlt. unfold add_chk. destruct (U64_LIM <=? a + b) eqn:E; [lia | reflexivity]. Qed.
Lemma sub_chk_ok a b : b <= a -> sub_chk a b = Ok (a - b).
Proof. intros Hle. unfold sub_chk. destruct (a <? b) eqn:E; [lia | reflexivity]. Qed.
Lemma mul_chk_ok a b : a * b < U64_LIM -> mul_chk a b = Ok (a * b).
Proof. intros Hlt. unfold mul_chk. destruct (U64_LIM <=? a * b) eqn:E; [lia | reflexivity]. Qed.
Lemma rem_chk_ok a b : b <> 0 -> rem_chk a b = Ok (a mod b).
Proof. intros Hne. unfold rem_chk. destruct (b =? 0) eqn:E; [lia | reflexivity]. Qed.
Lemma sat_add_exact a b : a + b < U64_LIM -> sat_add a b = a + b.
Proof. unfold sat_add. lia. Qed.
Lemma sat_mul_exact a b : a * b < U64_LIM -> sat_mul a b = a * b.
Proof. unfold sat_mul. lia. Qed.
Lemma add_chk_not_err a b k : add_chk a b <> Err k.
Proof. unfold add_chk. destruct (U64_LIM <=? a + b); discriminate. Qed.
Lemma add_chk_inv a b c : add_chk a b = Ok c -> c = a + b /\ a + b < U64_LIM.
Proof. unfold add_chk. destruct (U64_LIM <=? a + b) eqn:E; [discriminate|]. intros Hc. inversion Hc. lia. Qed.

(* The shapes the decoders are built from: a test, a lookup, a case on an earlier outcome (Bincode.bind and
   OpenSeq.obind are convertible, so bind_no_panic serves both).  Only the hint for its form applies to a goal
   `body <> Panic s`, so `auto 12 with nopanic` walks a body once without branching, 12 being deeper than any
   body here.  A proof adds what the walk cannot see: an induction, a pair taken apart, a decoder passed as an
   argument. *)
Lemma if_no_panic {A} (c : bool) (x y : outcome A) s : x <> Panic s -> y <> Panic s -> (if c then x else y) <> Panic s.
Proof. destruct c; auto. Qed.
Lemma option_no_panic {A B} (o : option A) (f : A -> outcome B) (y : outcome B) s :
  (forall a, f a <> Panic s) -> y <> Panic s -> match o with Some a => f a | None => y end <> Panic s.
Proof. destruct o; auto. Qed.
Lemma outcome_no_panic {A B} (o : outcome A) (f : A -> outcome B) (g : N -> outcome B) s :
  o <> Panic s -> (forall a, f a <> Panic s) -> (forall k, g k <> Panic s) ->
  match o with Ok a => f a | Err k => g k | Panic p => Panic p end <> Panic s.
Proof. intros Ho Hf Hg. destruct o; [apply Hf | apply Hg | intros E; apply Ho; congruence]. Qed.
Lemma bind_no_panic {A B} (o : outcome A) (f : A -> outcome B) s :
  o <> Panic s -> (forall a, f a <> Panic s) -> Bincode.bind o f <> Panic s.
Proof. intros Ho Hf. apply outcome_no_panic; [exact Ho | exact Hf | discriminate]. Qed.

Create HintDb nopanic discriminated.
#[export] Hint Resolve if_no_panic option_no_panic outcome_no_panic bind_no_panic : nopanic.
#[export] Hint Extern 0 (_ <> Panic _) => discriminate : nopanic.

Lemma le_decode_u32 (b : bytes) : bytes_ok b = true -> (length b <= 4)%nat -> le_decode b < 2 ^ 32.
Proof.
  intros Hb Hl. pose proof (le_decode_bound b Hb) as Hd.
  assert (Hp : 256 ^ N.of_nat (length b) <= 256 ^ 4) by (apply N.pow_le_mono_r; lia).
  change (256 ^ 4) with 4294967296 in Hp. change (2 ^ 32) with 4294967296. lia.
Qed.

Lemma read_at_some file pos n b :
  read_at file pos n = Some b -> b = slice file (N.to_nat pos) (N.to_nat n) /\ pos + n <= N.of_nat (length file).
Proof.
  unfold read_at. destruct (N.of_nat (length file) <? pos + n) eqn:E; [discriminate|].
  intros Hs. inversion Hs. split; [reflexivity | lia].
Qed.

Section WalOpenProofs.
  Variable H : bytes -> bytes.

  (* Err: every round consumes at least 49 bytes.  Panic: a round reads its 48 header bytes at offset + cursor
     before it adds the 32-bit length, so on a file below 2^63 bytes no addition reaches 2^64. *)
  Lemma scan_chk_spec file offset size : forall fuel cursor,
    post (scan_chk H fuel file offset size cursor)
      (fun '(l, c) => cursor + fold_right N.add 0 (map snd l) = c /\ (l = [] \/ offset + c <= N.of_nat (length file)))
      (fun k => (length file - N.to_nat (offset + cursor) < fuel)%nat -> k <> E_FUEL)
      (bytes_ok file = true -> N.of_nat (length file) < 2 ^ 63 -> offset < 2 ^ 64 ->
       ~ (cursor = 0 \/ offset + cursor <= N.of_nat (length file))).
  Proof.
    unfold post.
    assert (Hstop : forall cursor, cursor + fold_right N.add 0 (map snd (@nil (N * N))) = cursor /\ (@nil (N * N) = [] \/ offset + cursor <= N.of_nat (length file))).
    { intros cursor. split; [apply N.add_0_r | left; reflexivity]. }
    assert (Hcur : forall cursor, N.of_nat (length file) < 2 ^ 63 ->
                     (cursor = 0 \/ offset + cursor <= N.of_nat (length file)) -> cursor < 2 ^ 63) by (intros; lia).
    induction fuel as [|f IH]; intros cursor; cbn [scan_chk]; [lia|].
    unfold add_chk, U64_LIM, E_IO, E_WAL_LEN, E_WAL_SUM, E_FUEL.
    destruct (2 ^ 64 <=? cursor + EH) eqn:A1; cbn [obind].
    { intros _ Hlen _ Hinv. pose proof (Hcur cursor Hlen Hinv). unfold EH in A1. lia. }
    destruct (size <? cursor + EH); [apply Hstop|].
    destruct (2 ^ 64 <=? offset + cursor) eqn:A2; cbn [obind].
    { intros _ Hlen Hoff Hinv. lia. }
    destruct (negb (seek_ok (offset + cursor))); [discriminate|].
    destruct (read_at file (offset + cursor) 48) as [hd|] eqn:Ehd; [|discriminate].
    apply read_at_some in Ehd as [-> Hrd]. cbv zeta.
    set (hd := slice file _ _). set (seq := le_decode (firstn 8 hd)). set (len := le_decode (slice hd 8 4)).
    assert (Hl32 : bytes_ok file = true -> len < 2 ^ 32).
    { intros Hok. apply le_decode_u32; [apply bytes_ok_slice, bytes_ok_slice, Hok | apply slice_length_le]. }
    destruct ((seq =? 0) && (len =? 0)); [apply Hstop|].
    destruct (len =? 0) eqn:El0; [discriminate|].
    destruct (2 ^ 64 <=? cursor + EH + len) eqn:A3; cbn [obind].
    { intros Hok Hlen _ Hinv. specialize (Hl32 Hok). pose proof (Hcur cursor Hlen Hinv). unfold EH in A3. lia. }
    destruct (size <? cursor + EH + len); [discriminate|].
    destruct (read_at file (offset + cursor + 48) len) as [payload|] eqn:Epl; [|discriminate].
    apply read_at_some in Epl as [_ Hpl].
    destruct (negb (bytes_eqb (H payload) (slice hd 16 32))); [discriminate|].
    destruct (2 ^ 64 <=? EH + len) eqn:A4; cbn [obind].
    { intros Hok _ _ _. specialize (Hl32 Hok). unfold EH in A4. lia. }
    destruct (2 ^ 64 <=? cursor + (EH + len)) eqn:A5; cbn [obind].
    { (* the sum that passed at A3, associated the other way *)
      unfold EH in A3, A5. lia. }
    specialize (IH (cursor + (EH + len))). unfold EH in *.
    destruct (scan_chk H f file offset size (cursor + (48 + len))) as [[l c]|k|p].
    - (* Ok: Hpl says this entry's bytes were read *)
      destruct IH as [Hs Hb]. cbn [map fold_right snd]. split; [lia|].
      right. destruct Hb as [-> | Hb]; [cbn [map fold_right] in Hs|]; lia.
    - (* Err: at least 49 bytes fewer are left *)
      intros Hm. apply IH. lia.
    - (* Panic: the next round starts where this record's bytes were read *)
      intros Hok Hlen Hoff Hinv. apply (IH Hok Hlen Hoff). right. lia.
  Qed.

  Lemma sizes_filter (p : N * N -> bool) l :
    fold_right N.add 0 (map snd (filter p l)) <= fold_right N.add 0 (map snd l).
  Proof.
    induction l as [|x l IH]; cbn [filter map fold_right]; [lia|].
    destruct (p x); cbn [map fold_right]; lia.
  Qed.

  Lemma sum_chk_spec l : forall acc,
    post (sum_chk l acc) (fun r => r = acc + fold_right N.add 0 l) (fun _ => False)
         (U64_LIM <= acc + fold_right N.add 0 l).
  Proof.
    induction l as [|x l IH]; intros acc; cbn [sum_chk fold_right post]; [lia|].
    unfold add_chk. destruct (U64_LIM <=? acc + x) eqn:Ea; cbn [obind post]; [lia|].
    specialize (IH (acc + x)). destruct (sum_chk l (acc + x)); cbn [post] in *; [lia | exact IH | lia].
  Qed.

  (* EmbeddedWal::open_internal; the region check of 03a10a9 stands in front of the scan.  No Panic: the scan is
     total even without that check, and the sizes it returns add up to at most its cursor, below 2^64. *)
  Lemma wal_open_chk_spec file offset size ckpt_pos ckpt_seq :
    post (wal_open_chk H file offset size ckpt_pos ckpt_seq)
         (fun _ => size <> 0 /\ offset + size <= N.of_nat (length file))
         (fun k => k <> E_FUEL)
         (~ (bytes_ok file = true /\ N.of_nat (length file) < 2 ^ 63)).
  Proof.
    unfold wal_open_chk.
    destruct (size =? 0) eqn:Es; [discriminate|].
    destruct ((U64_LIM <=? offset + size) || (N.of_nat (length file) <? offset + size)) eqn:Eg; [discriminate|].
    unfold U64_LIM in Eg.
    pose proof (scan_chk_spec file offset size (S (length file)) 0) as Hs.
    destruct (scan_chk H (S (length file)) file offset size 0) as [[l c]|k|p]; cbn [obind fst].
    - destruct Hs as [Hs Hb].
      pose proof (sizes_filter (fun e => ckpt_seq <? fst e) l) as Hf.
      pose proof (sum_chk_spec (map snd (filter (fun e => ckpt_seq <? fst e) l)) 0) as Hsum.
      destruct (sum_chk _ 0) as [a|k|p]; cbn [obind post] in Hsum |- *.
      + rewrite rem_chk_ok by lia. cbn [obind post]. lia.
      + destruct Hsum.
      + intros [_ Hlen]. unfold U64_LIM in Hsum. destruct Hb as [-> | Hb]; [cbn [map fold_right] in Hs, Hf|]; lia.
    - apply Hs. lia.
    - intros [Hok Hlen]. apply (Hs Hok Hlen); [lia | left; reflexivity].
  Qed.
End WalOpenProofs.

Lemma get_u64_some b lo : (lo + 8 <= length b)%nat -> get_u64 b lo = Some (le_decode (slice b lo 8)).
Proof. intros Hl. unfold get_u64. destruct (Nat.ltb (length b) (lo + 8)) eqn:E; [apply Nat.ltb_lt in E; lia | reflexivity]. Qed.

Definition toc_prefix_accepted (b : bytes) : Prop :=
  (24 <= length b)%nat /\
  le_decode (slice b 0 8) <= 32 /\ le_decode (slice b 8 8) <= MAX_SEGMENTS /\ le_decode (slice b 16 8) <= MAX_FRAMES /\
  32 * le_decode (slice b 8 8) + 64 * le_decode (slice b 16 8) <= N.of_nat (length b).

(* the lookups are in range once 24 bytes are there; below the two count limits the saturating products are exact *)
Lemma verify_toc_prefix_spec b :
  post (verify_toc_prefix b) (fun _ => toc_prefix_accepted b) (fun _ => ~ toc_prefix_accepted b) False.
Proof.
  unfold verify_toc_prefix, toc_prefix_accepted.
  destruct (Nat.ltb (length b) 24) eqn:E24.
  { apply Nat.ltb_lt in E24. intros (Hl & _). lia. }
  apply Nat.ltb_ge in E24.
  rewrite !get_u64_some by lia.
  set (ver := le_decode (slice b 0 8)). set (segs := le_decode (slice b 8 8)). set (frames := le_decode (slice b 16 8)).
  unfold MAX_SEGMENTS, MAX_FRAMES, MIN_SEGMENT_META_BYTES, MIN_FRAME_BYTES.
  destruct (32 <? ver) eqn:Ev; [intros (_ & Hv & _); lia|].
  destruct (1000000 <? segs) eqn:Es; [intros (_ & _ & Hs & _); lia|].
  destruct (1000000 <? frames) eqn:Ef; [intros (_ & _ & _ & Hf & _); lia|].
  rewrite !sat_mul_exact by (unfold U64_LIM; lia). rewrite sat_add_exact by (unfold U64_LIM; lia).
  destruct (N.of_nat (length b) <? segs * 32 + frames * 64) eqn:Er.
  - intros (_ & _ & _ & _ & Hr). lia.
  - repeat split; lia.
Qed.

Theorem verify_toc_prefix_no_panic b s : verify_toc_prefix b <> Panic s.
Proof. exact (post_no_panic s (verify_toc_prefix_spec b)). Qed.

Section ReadTocProofs.
  Variable H : bytes -> bytes.
  Context {TOC : Type}.
  Variable toc_dec : bytes -> outcome TOC.

  Theorem read_toc_no_panic :
    (forall b s, toc_dec b <> Panic s) ->
    forall file footer_offset s, read_toc H toc_dec file footer_offset <> Panic s.
  Proof.
    intros Hdec file fo s. unfold read_toc.
    destruct (N.of_nat (length file) <? fo) eqn:E1; [discriminate|].
    destruct (negb (seek_ok fo)); [discriminate|].
    rewrite sub_chk_ok by lia. cbn [obind].
    destruct (MAX_INDEX_BYTES <? N.of_nat (length file) - fo); [discriminate|].
    destruct (N.of_nat (length file) - fo <? N.of_nat FOOTER_SIZE) eqn:E3; [discriminate|].
    assert (Hbl : length (skipn (N.to_nat fo) file) = (length file - N.to_nat fo)%nat) by apply skipn_length.
    rewrite sub_chk_ok by (rewrite Hbl; lia). cbn [obind].
    destruct (Nat.ltb (length (skipn (N.to_nat fo) file)) _) eqn:E4.
    { apply Nat.ltb_lt in E4. rewrite Hbl in E4. lia. }
    destruct (footer_decode _) as [f|]; [|discriminate].
    destruct (negb (_ =? toc_len f)); [discriminate|].
    destruct (negb (bytes_eqb _ (toc_hash f))); [discriminate|].
    auto 12 using verify_toc_prefix_no_panic with nopanic.
  Qed.
End ReadTocProofs.

Section LocateProofs.
  Context {A : Type}.
  Variable find : bytes -> option A.

  (* measure: the number k of doublings still needed to cover the file.  Model/ReadOnly.v has the same loop
     without checked arithmetic (ReadOnlyProofs.locate_loop_spec). *)
  Lemma locate_loop_total mmap :
    N.of_nat (length mmap) < 2 ^ 63 ->
    forall fuel (k : nat) window,
      window <= N.of_nat (length mmap) ->
      N.of_nat (length mmap) <= window * 2 ^ N.of_nat k -> (k < fuel)%nat ->
      exists r, locate_loop find fuel mmap window = Ok r.
  Proof.
    intros Hlen. induction fuel as [|f IH]; intros k window Hw Hk Hf; [lia|]. cbn [locate_loop].
    rewrite sub_chk_ok by lia. cbn [obind].
    destruct (Nat.ltb (length mmap) (N.to_nat (N.of_nat (length mmap) - window))) eqn:E1; [apply Nat.ltb_lt in E1; lia|].
    destruct (find _) as [s|]; [eexists; reflexivity|].
    destruct (window =? N.of_nat (length mmap)) eqn:E2; [eexists; reflexivity|].
    rewrite mul_chk_ok by (unfold U64_LIM; lia). cbn [obind].
    destruct k as [|k].
    { change (2 ^ N.of_nat 0) with 1 in Hk. lia. }
    apply (IH k); [lia | | lia].
    rewrite Nat2N.inj_succ, N.pow_succ_r' in Hk.
    assert (Hp : 1 <= 2 ^ N.of_nat k) by (pose proof (N.pow_nonzero 2 (N.of_nat k)); lia).
    (* len <= window * (2 * P) gives len <= min (window * 2) len * P, in either case of the min *)
    set (P := 2 ^ N.of_nat k) in *.
    destruct (N.min_spec (window * 2) (N.of_nat (length mmap))) as [[Hlt ->] | [Hge ->]]; nia.
  Qed.
End LocateProofs.

Lemma overlap_loop_no_panic l : forall file_len ps pe s, overlap_loop l file_len ps pe <> Panic s.
Proof.
  induction l as [|[[a off] len] l IH]; intros file_len ps pe s; cbn [overlap_loop]; auto 12 with nopanic.
Qed.

Lemma take_no_panic k bs s : take k bs <> Panic s.
Proof. unfold take. auto 12 with nopanic. Qed.
#[export] Hint Resolve take_no_panic : nopanic.
Lemma dec_uint_no_panic k bs s : dec_uint k bs <> Panic s.
Proof. unfold dec_uint. auto 12 with nopanic. Qed.
#[export] Hint Resolve dec_uint_no_panic : nopanic.
Lemma dec_blob_no_panic bs s : dec_blob bs <> Panic s.
Proof. unfold dec_blob. auto 12 with nopanic. Qed.
#[export] Hint Resolve dec_blob_no_panic : nopanic.
Lemma dec_string_no_panic bs s : dec_string bs <> Panic s.
Proof. unfold dec_string. auto 12 with nopanic. Qed.
#[export] Hint Resolve dec_string_no_panic : nopanic.
Lemma dec_map_no_panic (f : decoder) bound :
  (forall bs p, f bs <> Panic p) -> forall n bs acc p, dec_map f bound n bs acc <> Panic p.
Proof. intros Hf. induction n as [|n IH]; intros bs acc p; cbn [dec_map]; auto 12 with nopanic. Qed.

(* the cases meet the children's decoders singly (SOpt; SMap through dec_map), n at a time (SVec, SArr: Hrep)
   or one per field (STup: Htup) *)
Theorem dec_no_panic : forall s bs p, dec s bs <> Panic p.
Proof.
  apply (schema_strong_ind (fun s => forall bs p, dec s bs <> Panic p)).
  intros s IH bs p.
  assert (Hrep : forall c n, In c (children s) -> forall bs p, dec_seq (repeat (dec c) n) bs <> Panic p).
  { intros c n Hc. apply dec_seq_no_panic, Forall_forall. intros f Hf. apply repeat_spec in Hf as ->. apply IH, Hc. }
  assert (Htup : forall bs p, dec_seq (map dec (children s)) bs <> Panic p).
  { apply dec_seq_no_panic, Forall_forall. intros f Hf. apply in_map_iff in Hf as (c & <- & Hc). apply IH, Hc. }
  destruct s; cbn [dec children] in *; auto 12 using dec_map_no_panic, in_eq with nopanic.
Qed.

Theorem decode_exact_no_panic s bs p : decode_exact s bs <> Panic p.
Proof.
  unfold decode_exact. apply outcome_no_panic; [apply dec_no_panic | intros [v [|x r]]; discriminate | discriminate].
Qed.

Theorem toc_decode_no_panic bs p : toc_decode bs <> Panic p.
Proof.
  unfold toc_decode.
  repeat (apply outcome_no_panic; [apply dec_no_panic | intros [v [|x r]]; discriminate | intros _]).
  discriminate.
Qed.

Lemma sketch_read_entries_no_panic v : forall n i rest acc s, Sketch.read_entries v n i rest acc <> Panic s.
Proof.
  induction n as [|n IH]; intros i rest acc s; cbn [Sketch.read_entries]; auto 12 with nopanic.
Qed.

(* C22 restates the time-index reader of Model/TimeIndex.v (C30) with the allocator as an oracle: the entry
   loop is the same function, and the track reader differs only where the oracle refuses *)
Lemma ti_read_entries_eq fuel : forall bs count prev,
  ti_read_entries fuel bs count prev = TimeIndex.read_entries fuel bs count prev.
Proof.
  induction fuel as [|f IH]; intros bs count prev; [reflexivity|].
  cbn [ti_read_entries TimeIndex.read_entries]. rewrite IH. reflexivity.
Qed.

Lemma ti_read_track_cases (alloc_ok : N -> bool) file offset len :
  ti_read_track alloc_ok file offset len = TimeIndex.read_track file offset len \/
  ti_read_track alloc_ok file offset len = Err E_TI_TOO_LARGE.
Proof.
  unfold ti_read_track, TimeIndex.read_track. cbv zeta. rewrite ti_read_entries_eq.
  change TimeIndex.TI_HEADER_LEN with 12. change TimeIndex.TI_ENTRY_LEN with 16. unfold U64_LIM.
  destruct (Nat.ltb _ 4); [left; reflexivity|]. destruct (negb _); [left; reflexivity|].
  destruct (Nat.ltb _ 12); [left; reflexivity|]. destruct (len <? 12); [left; reflexivity|].
  destruct (2 ^ 64 <=? _) eqn:E1; [left; reflexivity|]. destruct (negb _); [left; reflexivity|].
  (* usize::try_from(count) cannot fail once count * 16 fits *)
  replace (2 ^ 64 <=? le_decode (slice (skipn offset file) 4 8)) with false by lia.
  destruct (2 ^ 63 <=? _); [left; reflexivity|]. destruct (alloc_ok _); [left | right]; reflexivity.
Qed.

Lemma sat_add_le a b : sat_add a b <= USIZE_LAST.
Proof. unfold sat_add, USIZE_LAST. lia. Qed.
Lemma sat_mul_le a b : sat_mul a b <= USIZE_LAST.
Proof. unfold sat_mul, USIZE_LAST. lia. Qed.

Section OpenCtlProofs.
  Context {TOC ST : Type}.

  Definition comps_no_panic (c : @components TOC ST) : Prop :=
    (forall s, c_seek0 c <> Panic s) /\ (forall s, c_header c <> Panic s) /\
    (forall h s, c_read_toc c h <> Panic s) /\ (forall h s, c_recover c h <> Panic s) /\
    (forall h s, c_persist c h <> Panic s) /\ (forall t s, c_nonoverlap c t <> Panic s) /\
    (forall h s, c_wal c h <> Panic s) /\ (forall s, c_generation c <> Panic s) /\
    Forall (fun f : ST -> outcome ST => forall st s, f st <> Panic s) (c_loaders c) /\
    (forall s, c_sync c <> Panic s).

  Lemma run_loaders_no_panic (ls : list (ST -> outcome ST)) :
    Forall (fun f : ST -> outcome ST => forall st s, f st <> Panic s) ls ->
    forall st s, run_loaders ls st <> Panic s.
  Proof.
    induction 1 as [|f ls Hf _ IH]; intros st s; cbn [run_loaders]; auto 12 with nopanic.
  Qed.

  Theorem open_locked_no_panic (c : @components TOC ST) :
    comps_no_panic c -> forall s, open_locked c <> Panic s.
  Proof.
    intros (Hseek & Hhdr & Hrt & Hrec & Hper & Hno & Hwal & Hgen & Hld & Hsync) s. unfold open_locked.
    pose proof (run_loaders_no_panic _ Hld) as Hrun.
    (* the walk stops at the two pairs the code takes apart *)
    apply bind_no_panic; [apply Hseek|]. intros _. apply if_no_panic; [discriminate|].
    apply bind_no_panic; [apply Hhdr|]. intros h. apply bind_no_panic.
    - apply outcome_no_panic; [apply Hrt | discriminate|]. intros k. apply if_no_panic; [|discriminate].
      apply bind_no_panic; [apply Hrec|]. intros [t off]. auto 12 with nopanic.
    - intros [h1 t]. auto 12 with nopanic.
  Qed.
End OpenCtlProofs.

