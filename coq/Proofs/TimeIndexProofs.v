(* src/io/time_index.rs (Model/TimeIndex.v).  The sort is SortFacts.isort for entry_leb, so its facts
   are instances of that theory.  The reader is taken in two layers: the loop read_entries (the two-way
   codec of one 16-byte entry, entry_of_bytes, and the order test threaded through a run,
   chain_sortedb), and the checks in front of it (ti_header_ok, read_track_cases). *)
From MV Require Import Base.Prelude Base.Facts Model.TimeIndex.
From MV Require Base.SortFacts.
From Coq Require Import Permutation.
Require MV.Gen.Consts.
Local Open Scope N_scope.

Lemma entry_leb_total a b : entry_leb a b = true \/ entry_leb b a = true.
Proof. unfold entry_leb. destruct a, b; cbn [fst snd]. lia. Qed.

Lemma entry_leb_trans a b c : entry_leb a b = true -> entry_leb b c = true -> entry_leb a c = true.
Proof. unfold entry_leb. destruct a, b, c; cbn [fst snd]. lia. Qed.

Lemma entry_leb_antisym a b : entry_leb a b = true -> entry_leb b a = true -> a = b.
Proof.
  unfold entry_leb. destruct a as [t1 i1], b as [t2 i2]; cbn [fst snd]. intros H1 H2.
  assert (t1 = t2) by lia. assert (i1 = i2) by lia. subst; reflexivity.
Qed.

Lemma entry_leb_ltb a b : entry_leb a b = negb (entry_ltb b a).
Proof. unfold entry_leb, entry_ltb. destruct a, b; cbn [fst snd]. lia. Qed.

Lemma insert_entry_insert e l : insert_entry e l = SortFacts.insert entry_leb e l.
Proof.
  induction l as [|x r IH]; [reflexivity|]. cbn [insert_entry SortFacts.insert].
  rewrite IH. reflexivity.
Qed.

Lemma sort_entries_isort l : sort_entries l = SortFacts.isort entry_leb l.
Proof. apply SortFacts.isort_fold, insert_entry_insert. Qed.

Lemma sortedb_sorted l : sortedb l = true <-> SortFacts.sorted entry_leb l.
Proof.
  induction l as [|a l IH]; [cbn; tauto|]. destruct l as [|b l].
  - cbn. split; [intros _; split; [intros y []|exact I] | reflexivity].
  - change (sortedb (a :: b :: l)) with (entry_leb a b && sortedb (b :: l)).
    rewrite andb_true_iff, IH. symmetry. apply SortFacts.sorted_cons_cons, entry_leb_trans.
Qed.

Lemma sort_entries_perm l : Permutation l (sort_entries l).
Proof. rewrite sort_entries_isort. apply Permutation_sym, SortFacts.isort_perm. Qed.

Lemma sort_entries_sorted l : sortedb (sort_entries l) = true.
Proof.
  apply sortedb_sorted. rewrite sort_entries_isort.
  apply SortFacts.isort_sorted; [exact entry_leb_total | exact entry_leb_trans].
Qed.

(* whatever algorithm sort_by_key uses, its result is sort_entries: the key is the whole entry, so the order is antisymmetric *)
Lemma sort_entries_unique l s : Permutation l s -> sortedb s = true -> s = sort_entries l.
Proof.
  intros HP HS. apply (SortFacts.sorted_perm_unique _ entry_leb entry_leb_antisym).
  - apply sortedb_sorted, HS.
  - apply sortedb_sorted, sort_entries_sorted.
  - eapply Permutation_trans; [apply Permutation_sym; exact HP | apply sort_entries_perm].
Qed.

Lemma sort_entries_sorted_id l : sortedb l = true -> sort_entries l = l.
Proof. intros HS. symmetry. apply sort_entries_unique; [apply Permutation_refl | exact HS]. Qed.

Lemma sort_entries_length l : length (sort_entries l) = length l.
Proof. symmetry. apply Permutation_length, sort_entries_perm. Qed.

Lemma sort_entries_wf l : forallb entry_wf l = true -> forallb entry_wf (sort_entries l) = true.
Proof.
  rewrite !forallb_forall. intros Hw x Hx. apply Hw.
  eapply Permutation_in; [apply Permutation_sym, sort_entries_perm | exact Hx].
Qed.

Lemma entry_bytes_length e : length (entry_bytes e) = 16%nat.
Proof. unfold entry_bytes. rewrite app_length, !le_encode_length. reflexivity. Qed.

(* what the read loop makes of a 16-byte chunk *)
Definition entry_of_bytes (c : bytes) : entry :=
  (u64_to_i64 (le_decode (firstn 8 c)), le_decode (skipn 8 c)).

Lemma entry_of_bytes_entry_bytes e : entry_wf e = true -> entry_of_bytes (entry_bytes e) = e.
Proof.
  unfold entry_wf. rewrite !andb_true_iff. intros [[H1 H2] H3]. destruct e as [t i]; cbn [fst snd] in *.
  unfold entry_of_bytes, entry_bytes, u64_to_i64, i64_to_u64; cbn [fst snd].
  rewrite firstn_app_exact, skipn_app_exact by (symmetry; apply le_encode_length).
  rewrite !le_decode_encode by (change (256 ^ N.of_nat 8) with (2 ^ 64); first [apply i64_wrap_bound | lia]).
  rewrite i64_unwrap_wrap by lia. reflexivity.
Qed.

Lemma entry_bytes_entry_of_bytes c :
  length c = 16%nat -> bytes_ok c = true ->
  entry_wf (entry_of_bytes c) = true /\ entry_bytes (entry_of_bytes c) = c.
Proof.
  intros HL Hok.
  assert (La : length (firstn 8 c) = 8%nat) by (rewrite firstn_length; lia).
  assert (Lb : length (skipn 8 c) = 8%nat) by (rewrite skipn_length; lia).
  pose proof (bytes_ok_firstn 8 c Hok) as Oa. pose proof (bytes_ok_skipn 8 c Hok) as Ob.
  pose proof (le_decode_lt _ _ La Oa) as Ba. pose proof (le_decode_lt _ _ Lb Ob) as Bb.
  change (256 ^ N.of_nat 8) with (2 ^ 64) in Ba, Bb.
  unfold entry_of_bytes, entry_wf, entry_bytes, u64_to_i64, i64_to_u64; cbn [fst snd]. split.
  - destruct (i64_unwrap_range _ Ba) as [R1 R2].
    rewrite !andb_true_iff, Z.leb_le, Z.ltb_lt, N.ltb_lt. auto.
  - rewrite i64_wrap_unwrap by exact Ba.
    rewrite (le_encode_decode_n _ _ La Oa), (le_encode_decode_n _ _ Lb Ob). apply firstn_skipn.
Qed.

Definition follows (prev : option entry) (e : entry) : bool :=
  match prev with Some p => entry_leb p e | None => true end.

Fixpoint chain_sortedb (prev : option entry) (es : list entry) : bool :=
  match es with
  | [] => true
  | e :: r => follows prev e && chain_sortedb (Some e) r
  end.

Lemma chain_sortedb_none es : chain_sortedb None es = sortedb es.
Proof.
  assert (G : forall p es, chain_sortedb (Some p) es = sortedb (p :: es)).
  { intros p es0; revert p; induction es0 as [|e r IH]; intros p; [reflexivity|].
    cbn [chain_sortedb]. rewrite IH. reflexivity. }
  destruct es as [|e r]; [reflexivity|]. cbn [chain_sortedb]. rewrite G. reflexivity.
Qed.

Lemma read_entries_S fuel bs count prev :
  read_entries (S fuel) bs count prev =
  if count =? 0 then Ok []
  else if negb (Nat.eqb (length (firstn 16 bs)) 16) then Err E_TI_IO
  else
    let e := entry_of_bytes (firstn 16 bs) in
    if follows prev e
    then match read_entries fuel (skipn 16 bs) (count - 1) (Some e) with
         | Ok l => Ok (e :: l)
         | Err k => Err k
         | Panic s => Panic s
         end
    else Err E_TI_UNSORTED.
Proof.
  cbn [read_entries]. destruct (count =? 0); [reflexivity|]. destruct (negb _); [reflexivity|].
  cbv zeta. fold (entry_of_bytes (firstn 16 bs)).
  destruct prev as [p|]; [|reflexivity]. unfold follows. rewrite entry_leb_ltb. unfold entry_ltb.
  destruct (_ || _); reflexivity.
Qed.

Lemma read_entries_post fuel : forall bs count prev,
  post (read_entries fuel bs count prev)
    (fun es => N.of_nat (length es) = count /\ chain_sortedb prev es = true /\
               (bytes_ok bs = true ->
                forallb entry_wf es = true /\ firstn (16 * length es) bs = flat_map entry_bytes es))
    (fun k => k = E_TI_IO \/ k = E_TI_UNSORTED) False.
Proof.
  induction fuel as [|fuel IH]; intros bs count prev.
  - cbn [read_entries]. destruct (count =? 0) eqn:E0; cbn [post]; [|left; reflexivity].
    apply N.eqb_eq in E0 as ->. repeat split.
  - rewrite read_entries_S. destruct (count =? 0) eqn:E0.
    { apply N.eqb_eq in E0 as ->. cbn [post]. repeat split. }
    destruct (Nat.eqb (length (firstn 16 bs)) 16) eqn:EL; cbn [negb]; [|left; reflexivity].
    apply Nat.eqb_eq in EL. cbv zeta. set (e := entry_of_bytes (firstn 16 bs)).
    destruct (follows prev e) eqn:EF; [|right; reflexivity].
    apply (post_then (IH (skipn 16 bs) (count - 1) (Some e))). intros l _ (Hlen & Hch & Hby). cbn [post].
    split; [cbn [length]; lia|]. split; [cbn [chain_sortedb]; rewrite EF, Hch; reflexivity|].
    intros Hok. destruct (Hby (bytes_ok_skipn 16 bs Hok)) as [Hwf Hfl].
    destruct (entry_bytes_entry_of_bytes _ EL (bytes_ok_firstn 16 bs Hok)) as [We Ee]. fold e in We, Ee.
    split; [cbn [forallb]; rewrite We, Hwf; reflexivity|].
    cbn [length flat_map]. rewrite Nat.mul_succ_r, Nat.add_comm, firstn_add, Hfl, Ee. reflexivity.
Qed.

Lemma read_entries_encoded es : forall fuel tail prev,
  forallb entry_wf es = true -> (length es < fuel)%nat ->
  read_entries fuel (flat_map entry_bytes es ++ tail) (N.of_nat (length es)) prev =
    if chain_sortedb prev es then Ok es else Err E_TI_UNSORTED.
Proof.
  induction es as [|e r IH]; intros fuel tail prev Hwf Hfuel.
  - destruct fuel; reflexivity.
  - destruct fuel as [|fuel]; [cbn in Hfuel; lia|].
    cbn [forallb] in Hwf. apply andb_true_iff in Hwf as [He Hr]. cbn [length] in Hfuel.
    rewrite read_entries_S. cbn [length flat_map chain_sortedb]. rewrite <- app_assoc.
    rewrite firstn_app_exact, skipn_app_exact by (symmetry; apply entry_bytes_length).
    rewrite entry_bytes_length, (entry_of_bytes_entry_bytes e He).
    replace (N.of_nat (S (length r)) =? 0) with false by lia.
    replace (N.of_nat (S (length r)) - 1) with (N.of_nat (length r)) by lia.
    cbn [Nat.eqb negb]. cbv zeta. destruct (follows prev e); [|reflexivity].
    rewrite IH by (first [exact Hr | lia]). destruct (chain_sortedb (Some e) r); reflexivity.
Qed.

(* the five conditions under which read_track gets as far as reserving the vector: ti_capacity_class without its last test *)
Definition ti_header_ok (avail : bytes) (len : N) : bool :=
  let count := le_decode (slice avail 4 8) in
  Nat.leb 12 (length avail) && bytes_eqb (firstn 4 avail) TIME_INDEX_MAGIC &&
  ((TI_HEADER_LEN <=? len) && (count * TI_ENTRY_LEN <? 2 ^ 64) && (len - TI_HEADER_LEN =? count * TI_ENTRY_LEN)).

Lemma ti_capacity_class_split file pos len :
  ti_capacity_class file pos len =
  ti_header_ok (skipn pos file) len && (2 ^ 63 <=? le_decode (slice (skipn pos file) 4 8) * TI_ENTRY_LEN).
Proof. unfold ti_capacity_class, ti_header_ok. cbv zeta. apply andb_assoc. Qed.

(* an exit in front of the loop: the header test is false and the answer an Err of another kind *)
Local Ltac exit_taken := right; split; [reflexivity|]; eexists; split; [reflexivity | discriminate].

(* avail is a parameter so that clients get the statement with their own name for skipn pos file *)
Lemma read_track_cases file pos len avail :
  avail = skipn pos file ->
  (ti_header_ok avail len = true /\
   read_track file pos len =
     if 2 ^ 63 <=? le_decode (slice avail 4 8) * TI_ENTRY_LEN then Err E_TI_TOO_LARGE
     else read_entries (length avail) (skipn 12 avail) (le_decode (slice avail 4 8)) None) \/
  (ti_header_ok avail len = false /\ exists k, read_track file pos len = Err k /\ k <> E_TI_TOO_LARGE).
Proof.
  intros ->. unfold read_track, ti_header_ok. set (avail := skipn pos file). cbv zeta.
  (* the conditions are the negations of the reader's exits, in the same order *)
  rewrite (Nat.ltb_antisym 12), (N.ltb_antisym TI_HEADER_LEN), (N.leb_antisym _ (2 ^ 64)).
  destruct (Nat.ltb (length avail) 4) eqn:E4.
  { replace (Nat.leb 12 (length avail)) with false by lia. exit_taken. }
  destruct (bytes_eqb _ _); cbn [negb]; [|rewrite andb_false_r; exit_taken].
  destruct (Nat.leb 12 _); cbn [negb andb]; [|exit_taken].
  destruct (TI_HEADER_LEN <=? len); cbn [negb andb]; [|exit_taken].
  destruct (_ <? 2 ^ 64); cbn [negb andb]; [|exit_taken].
  destruct (_ =? _); cbn [negb]; [left; split; reflexivity | exit_taken].
Qed.

Lemma read_track_rejects file pos len :
  ti_header_ok (skipn pos file) len = false -> exists k, read_track file pos len = Err k.
Proof.
  intros E. destruct (read_track_cases file pos len _ eq_refl) as [[E' _]|[_ (k & Hk & _)]]; [congruence|].
  exists k. exact Hk.
Qed.

Lemma read_track_no_panic file pos len s : read_track file pos len <> Panic s.
Proof.
  destruct (read_track_cases file pos len _ eq_refl) as [[_ ->]|[_ (k & -> & _)]]; [|discriminate].
  destruct (2 ^ 63 <=? _); [discriminate|]. exact (post_no_panic s (read_entries_post _ _ _ _)).
Qed.

Lemma read_track_too_large_iff file pos len :
  read_track file pos len = Err E_TI_TOO_LARGE <-> ti_capacity_class file pos len = true.
Proof.
  rewrite ti_capacity_class_split.
  destruct (read_track_cases file pos len _ eq_refl) as [[-> ->]|[-> (k & -> & Hk)]]; cbn [andb].
  - destruct (2 ^ 63 <=? _); [split; reflexivity|]. split; [|discriminate]. intros E.
    destruct (post_err (read_entries_post _ _ _ _) E); discriminate.
  - split; [intros [= ->]; contradiction | discriminate].
Qed.

Lemma read_track_no_panic_outside file pos len :
  ti_capacity_class file pos len = false -> forall s, read_track file pos len <> Panic s.
Proof. intros _ s. apply read_track_no_panic. Qed.

Lemma read_track_accepts file pos count :
  let avail := skipn pos file in
  (12 <= length avail)%nat -> firstn 4 avail = TIME_INDEX_MAGIC ->
  le_decode (slice avail 4 8) = count -> count * 16 < 2 ^ 63 ->
  read_track file pos (12 + 16 * count) = read_entries (length avail) (skipn 12 avail) count None.
Proof.
  intros avail HL HM HC Hn. change (2 ^ 63) with 9223372036854775808 in Hn.
  assert (Hok : ti_header_ok avail (12 + 16 * count) = true).
  { unfold ti_header_ok, TI_HEADER_LEN, TI_ENTRY_LEN. rewrite HM, bytes_eqb_refl, HC.
    change (2 ^ 64) with 18446744073709551616. lia. }
  destruct (read_track_cases file pos (12 + 16 * count) avail eq_refl) as [[_ ->]|[E _]]; [|congruence].
  rewrite HC. unfold TI_ENTRY_LEN. change (2 ^ 63) with 9223372036854775808.
  replace (9223372036854775808 <=? count * 16) with false by lia. reflexivity.
Qed.

Lemma write_at_skipn file pos data :
  skipn pos (write_at file pos data) = data ++ skipn (pos + length data) file.
Proof.
  unfold write_at. apply skipn_app_exact.
  rewrite firstn_length, app_length, repeat_length. lia.
Qed.

Lemma track_image_length s : length (track_image s) = (12 + 16 * length s)%nat.
Proof.
  unfold track_image. rewrite !app_length, le_encode_length. cbn [length TIME_INDEX_MAGIC].
  assert (G : length (flat_map entry_bytes s) = (16 * length s)%nat).
  { induction s as [|e r IH]; [reflexivity|]. cbn [flat_map length]. rewrite app_length, entry_bytes_length, IH. lia. }
  rewrite G. lia.
Qed.

Lemma track_image_parts es tail :
  firstn 4 (track_image es ++ tail) = TIME_INDEX_MAGIC /\
  slice (track_image es ++ tail) 4 8 = le_encode 8 (N.of_nat (length es)) /\
  skipn 12 (track_image es ++ tail) = flat_map entry_bytes es ++ tail.
Proof.
  unfold track_image. rewrite <- !app_assoc. split; [reflexivity|]. split.
  - exact (slice_app_exact TIME_INDEX_MAGIC (le_encode 8 _) _).
  - rewrite (app_assoc TIME_INDEX_MAGIC). apply skipn_app_exact.
    rewrite app_length, le_encode_length. reflexivity.
Qed.

Lemma read_track_image file pos es tail :
  forallb entry_wf es = true -> N.of_nat (length es) * 16 < 2 ^ 63 ->
  skipn pos file = track_image es ++ tail ->
  read_track file pos (N.of_nat (length (track_image es))) =
    if sortedb es then Ok es else Err E_TI_UNSORTED.
Proof.
  intros Hwf Hn Hsk. destruct (track_image_parts es tail) as (HM & HC & HR).
  pose proof (track_image_length es) as HL.
  replace (N.of_nat (length (track_image es))) with (12 + 16 * N.of_nat (length es)) by lia.
  rewrite (read_track_accepts file pos (N.of_nat (length es))); rewrite ?Hsk.
  - rewrite HR, (read_entries_encoded es _ tail None Hwf) by (rewrite app_length; lia).
    rewrite chain_sortedb_none. reflexivity.
  - rewrite app_length. lia.
  - exact HM.
  - rewrite HC. apply le_decode_encode.
    change (256 ^ N.of_nat 8) with 18446744073709551616. change (2 ^ 63) with 9223372036854775808 in Hn. lia.
  - exact Hn.
Qed.

Lemma read_track_ok_inv file pos len es :
  read_track file pos len = Ok es ->
  firstn 4 (skipn pos file) = TIME_INDEX_MAGIC /\
  le_decode (slice (skipn pos file) 4 8) = N.of_nat (length es) /\
  len = 12 + 16 * N.of_nat (length es) /\
  sortedb es = true /\
  (bytes_ok file = true ->
   forallb entry_wf es = true /\ firstn (N.to_nat len) (skipn pos file) = track_image es).
Proof.
  set (avail := skipn pos file).
  destruct (read_track_cases file pos len avail eq_refl) as [[EH ->]|[_ (k & -> & _)]]; [|discriminate].
  destruct (2 ^ 63 <=? _); [discriminate|].
  unfold ti_header_ok, TI_HEADER_LEN, TI_ENTRY_LEN in EH. cbv zeta in EH.
  rewrite !andb_true_iff in EH. destruct EH as [[E12 EM] [[EL _] EP]]. apply bytes_eqb_spec in EM.
  intros HR. destruct (post_ok (read_entries_post _ _ _ _) HR) as (Hlen & Hch & Hby).
  assert (Hl : len = 12 + 16 * N.of_nat (length es)) by (clear -EL EP Hlen; lia).
  split; [exact EM|]. split; [symmetry; exact Hlen|]. split; [exact Hl|].
  split; [rewrite <- chain_sortedb_none; exact Hch|].
  intros Hok. pose proof (bytes_ok_skipn pos file Hok : bytes_ok avail = true) as Hoka.
  destruct (Hby (bytes_ok_skipn 12 avail Hoka)) as [Hwf Hfl]. split; [exact Hwf|].
  replace (N.to_nat len) with (12 + 16 * length es)%nat by (clear -Hl; lia).
  rewrite firstn_add, Hfl. unfold track_image. rewrite app_assoc. f_equal.
  (* the 12 header bytes: the magic, then the count as it was decoded *)
  rewrite (firstn_add avail 4 8 : firstn 12 avail = _), EM. f_equal.
  rewrite Hlen. symmetry. apply (le_encode_decode_slice avail 4 8 Hoka). lia.
Qed.

(* C30's tie of the time-index magic to the constant extracted into Gen/Consts.v *)
Lemma ti_consts_tied :
  TIME_INDEX_MAGIC = MV.Gen.Consts.TIME_INDEX_MAGIC.
Proof. reflexivity. Qed.
