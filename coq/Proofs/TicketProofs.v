(* Proofs about Model/Ticket.v.  The state machine, over all operation lists: `tinv` (the
   ticket in memory is the ticket in the file), `offer` (the gate each of the three
   ticket-carrying operations is, behind its own test: `apply_signed_offer`,
   `bind_memory_offer`), `ticket_step` (what such an operation can do), and the one induction
   `history_inv`.  The canonical payload is injective in every signed field: each field can be
   read off before its stop character (`split_at_stop` for the numbers; for the issuer,
   Model/JsonStr.v's reader of a JSON string takes back what `json_esc` wrote: `str_body_esc`). *)
From MV Require Import Base.Prelude Base.Facts Model.Ticket Model.JsonStr.
From Coq Require Import Sorting.Sorted.
Local Open Scope Z_scope.

Definition cur (s : mstate) : Z := tr_seq (t_ticket (s_mem s)).

Definition tinv (s : mstate) : Prop := t_ticket (s_mem s) = t_ticket (s_disk s).

Lemma tinv_init : tinv init_state.
Proof. reflexivity. Qed.

Lemma seq_error_not_ok c : seq_error c <> Ok tt.
Proof. unfold seq_error. destruct (I64_MAX <=? c); discriminate. Qed.

Inductive ticket_step (s : mstate) (q : Z) : mstate * outcome unit -> Prop :=
| TS_refused o : o <> Ok tt -> ticket_step s q (s, o)
| TS_accepted s' : cur s < q -> cur s' = q -> tinv s' -> ticket_step s q (s', Ok tt).

Definition offer (s : mstate) (q : Z) (s' : mstate) : mstate * outcome unit :=
  if q <=? cur s then (s, seq_error (cur s)) else (s', Ok tt).

Lemma apply_ticket_offer s t : apply_ticket s t = offer s (tk_seq t) (install s t false).
Proof. reflexivity. Qed.

Lemma offer_ok s q s' : snd (offer s q s') = Ok tt <-> cur s < q.
Proof.
  unfold offer. destruct (Z.leb_spec q (cur s)); cbn [snd].
  - pose proof (seq_error_not_ok (cur s)). split; [contradiction | lia].
  - split; auto.
Qed.

Lemma offer_accepted s q s' s1 : offer s q s' = (s1, Ok tt) -> s1 = s'.
Proof.
  unfold offer. destruct (q <=? cur s); [intros [= _ E]; destruct (seq_error_not_ok _ E) | intros [= <-]; reflexivity].
Qed.

Lemma offer_step s q s' : cur s' = q -> tinv s' -> ticket_step s q (offer s q s').
Proof.
  intros Hq Hi. unfold offer. destruct (Z.leb_spec q (cur s)).
  - apply TS_refused, seq_error_not_ok.
  - apply TS_accepted; assumption.
Qed.

(* the message a signed ticket's signature is checked against *)
Definition payload_of (st : sticket) : bytes :=
  canonical_payload (st_mid st) (tk_issuer (st_ticket st)) (tk_seq (st_ticket st))
                    (tk_expires (st_ticket st)) (tk_cap (st_ticket st)).

Section Signed.
  Variable verify : bytes -> bytes -> bytes -> bool.
  Variable pubkey : bytes.

  (* These stand for the model's functions at verify and pubkey; where `cbn [..]` has to name
     the constant itself it says Ticket.tstep, Ticket.accepted, Ticket.final. *)
  Notation tstep := (tstep verify pubkey).
  Notation accepted := (accepted verify pubkey).
  Notation final := (final verify pubkey).
  Notation apply_signed_ticket := (apply_signed_ticket verify pubkey).

  Definition sig_ok (st : sticket) : bool :=
    Nat.eqb (length (st_sig st)) 64 && verify pubkey (payload_of st) (st_sig st).

  (* the tests of apply_signed_ticket before the sequence number is looked at *)
  Definition admits (s : mstate) (st : sticket) : bool :=
    match t_binding (s_mem s) with Some bound => bytes_eqb (st_mid st) bound | None => false end && sig_ok st.

  Lemma admits_iff s st : admits s st = true <-> t_binding (s_mem s) = Some (st_mid st) /\ sig_ok st = true.
  Proof.
    unfold admits. rewrite andb_true_iff. apply and_iff_compat_r.
    destruct (t_binding (s_mem s)) as [bound|]; [|split; discriminate].
    rewrite bytes_eqb_spec. split; [intros -> | intros [= ->]]; reflexivity.
  Qed.

  Lemma apply_signed_offer s st :
    apply_signed_ticket s st =
    if admits s st then offer s (tk_seq (st_ticket st)) (install s (st_ticket st) true) else (s, Err E_SIG).
  Proof.
    unfold Ticket.apply_signed_ticket, verify_ticket_signature, admits, sig_ok, payload_of.
    destruct (t_binding (s_mem s)) as [bound|]; [|reflexivity].
    destruct (bytes_eqb (st_mid st) bound); [|reflexivity].
    destruct (Nat.eqb _ 64); [|reflexivity]. destruct (verify _ _ _); reflexivity.
  Qed.

  Definition bound_to (mid : bytes) (s : mstate) : mstate :=
    mkSt (mkToc (t_ticket (s_mem s)) (Some mid)) (s_disk s) true.

  Lemma bind_memory_offer s mid t :
    bind_memory s mid t =
    if already_bound s mid then (s, Err E_BOUND) else offer s (tk_seq t) (bound_to mid (install s t false)).
  Proof.
    unfold bind_memory, apply_ticket, offer, seq_error, cur. destruct (already_bound s mid); [reflexivity|].
    destruct (tk_seq t <=? _); [destruct (I64_MAX <=? _)|]; reflexivity.
  Qed.

  Lemma tstep_ticket s op q : op_seq op = Some q -> ticket_step s q (tstep s op).
  Proof.
    destruct op; cbn [op_seq Ticket.tstep]; intros [= <-].
    - apply offer_step; reflexivity.
    - rewrite apply_signed_offer.
      destruct (admits s st); [apply offer_step; reflexivity | apply TS_refused; discriminate].
    - (* tinv: the ticket installed in the file is the one bind_memory keeps in memory *)
      rewrite bind_memory_offer.
      destruct (already_bound s mid); [apply TS_refused; discriminate | apply offer_step; reflexivity].
  Qed.

  (* The other operations, unbind_memory apart, leave the ticket in memory as it is or read it
     back from the file, where tinv says it is the same. *)
  Lemma tstep_no_ticket s op :
    op_seq op = None -> is_unbind op = false -> tinv s ->
    t_ticket (s_mem (fst (tstep s op))) = t_ticket (s_mem s) /\ tinv (fst (tstep s op)).
  Proof.
    unfold tinv. intros Eq Hu Hi. destruct op; try discriminate; cbn [Ticket.tstep].
    - unfold bind_only. destruct (already_bound s mid); auto.
    - unfold commit. destruct (s_dirty s); auto.
    - unfold reopen, commit. destruct (s_dirty s); cbn; auto.
    - cbn. auto.
  Qed.

  Lemma no_unbind_cons op ops : no_unbind (op :: ops) = true -> is_unbind op = false /\ no_unbind ops = true.
  Proof.
    unfold no_unbind. cbn [forallb]. rewrite andb_true_iff, negb_true_iff. auto.
  Qed.

  Lemma history_inv ops : forall s,
    no_unbind ops = true -> tinv s ->
    tinv (final s ops) /\ StronglySorted Z.lt (cur s :: accepted s ops).
  Proof.
    induction ops as [|op ops IH]; intros s Hn Hi.
    - cbn. repeat constructor. exact Hi.
    - apply no_unbind_cons in Hn as [Hu Hn].
      cbn [Ticket.accepted Ticket.final].
      destruct (op_seq op) as [q|] eqn:Eq.
      + destruct (tstep_ticket s op q Eq) as [o Ho | s' Hlt <- Hi']; cbn [fst].
        * destruct o as [[]| |]; [contradiction | |]; apply IH; assumption.
        * (* accepted: cur s is below cur s', hence below all that cur s' is below *)
          destruct (IH s' Hn Hi') as [Hif Hsort]. split; [exact Hif|].
          constructor; [exact Hsort|]. apply StronglySorted_inv in Hsort as [_ Hall].
          constructor; [exact Hlt|]. eapply Forall_impl; [|exact Hall]. cbn; lia.
      + destruct (tstep_no_ticket s op Eq Hu Hi) as [Ht Hi'].
        destruct (tstep s op) as [s' o]; cbn [fst] in *.
        replace (cur s) with (cur s') by (unfold cur; rewrite Ht; reflexivity).
        destruct o as [[]| |]; apply IH; assumption.
  Qed.

  Lemma signed_accept_iff s st :
    snd (tstep s (OSigned st)) = Ok tt <->
    (t_binding (s_mem s) = Some (st_mid st) /\ sig_ok st = true /\ cur s < tk_seq (st_ticket st)).
  Proof.
    cbn [Ticket.tstep]. rewrite apply_signed_offer, <- and_assoc, <- admits_iff.
    destruct (admits s st); [rewrite offer_ok; tauto | split; [discriminate | intros [[=] _]]].
  Qed.

  Lemma reopen_keeps_ticket s :
    tinv s -> t_ticket (s_mem (reopen s)) = t_ticket (s_mem s) /\ t_ticket (s_mem (crash_reopen s)) = t_ticket (s_mem s).
  Proof. intros Hi. unfold reopen, crash_reopen, commit. destruct (s_dirty s); cbn; auto. Qed.

  Lemma accepted_app s pre post :
    accepted s (pre ++ post) = accepted s pre ++ accepted (final s pre) post.
  Proof.
    revert s; induction pre as [|op pre IH]; intros s; [reflexivity|].
    change ((op :: pre) ++ post) with (op :: (pre ++ post)).
    cbn [Ticket.accepted Ticket.final]. destruct (tstep s op) as [s' o]. cbn [fst].
    rewrite IH. destruct o as [[]| |]; destruct (op_seq op); reflexivity.
  Qed.

  Lemma final_app s pre post : final s (pre ++ post) = final (final s pre) post.
  Proof.
    revert s; induction pre as [|op pre IH]; intros s; [reflexivity|].
    change ((op :: pre) ++ post) with (op :: (pre ++ post)).
    cbn [Ticket.final]. apply IH.
  Qed.

  Lemma no_unbind_app a b : no_unbind (a ++ b) = true -> no_unbind a = true /\ no_unbind b = true.
  Proof. unfold no_unbind. rewrite forallb_app. apply andb_true_iff. Qed.

  (* C25's own wording; it is history_inv at the history pre ++ [op], whose accepted numbers are
     those of pre, then q *)
  Lemma accepted_only_if_greater pre op s q s' :
    no_unbind pre = true -> tinv s ->
    tstep (final s pre) op = (s', Ok tt) -> op_seq op = Some q ->
    cur s < q /\ Forall (fun q' => q' < q) (accepted s pre).
  Proof.
    intros Hn Hi Hs Hq.
    assert (Hn' : no_unbind (pre ++ [op]) = true).
    { unfold no_unbind in *. rewrite forallb_app, Hn. destruct op; try discriminate; reflexivity. }
    destruct (history_inv (pre ++ [op]) s Hn' Hi) as [_ H].
    rewrite accepted_app in H. cbn [Ticket.accepted] in H. rewrite Hs, Hq in H.
    apply (SS_split Z.lt (cur s :: accepted s pre)) in H as [H _].
    apply Forall_forall, (Forall_cons_iff (fun q' => q' < q)) in H. exact H.
  Qed.
End Signed.

Local Open Scope N_scope.

Lemma split_at_stop (P : N -> bool) : forall l l' x x' r r',
  forallb P l = true -> forallb P l' = true -> P x = false -> P x' = false ->
  l ++ x :: r = l' ++ x' :: r' -> l = l' /\ r = r'.
Proof.
  induction l as [|a l IH]; intros [|a' l'] x x' r r' Hl Hl' Hx Hx' E; cbn [app] in E.
  - inversion E; auto.
  - inversion E; subst. cbn [forallb] in Hl'. apply andb_true_iff in Hl' as [Ha _]. congruence.
  - inversion E; subst. cbn [forallb] in Hl. apply andb_true_iff in Hl as [Ha _]. congruence.
  - injection E as <- E. cbn [forallb] in Hl, Hl'.
    apply andb_true_iff in Hl as [_ Hl]. apply andb_true_iff in Hl' as [_ Hl'].
    destruct (IH l' x x' r r' Hl Hl' Hx Hx' E) as [-> ->]. auto.
Qed.

Definition is_digit (b : N) : bool := (48 <=? b) && (b <=? 57).
Definition is_num_char (b : N) : bool := is_digit b || (b =? 45).

Lemma dec_uint_digits u : forallb is_digit (dec_uint u) = true.
Proof. induction u; cbn [dec_uint forallb]; try reflexivity; rewrite IHu; reflexivity. Qed.

Lemma dec_uint_inj : forall u u', dec_uint u = dec_uint u' -> u = u'.
Proof.
  induction u; intros u' E; destruct u'; cbn [dec_uint] in E; try discriminate; try reflexivity;
    inversion E as [E1]; f_equal; apply IHu; exact E1.
Qed.

Lemma dec_N_inj n n' : dec_N n = dec_N n' -> n = n'.
Proof. unfold dec_N. intros E. apply DecimalN.Unsigned.to_uint_inj, dec_uint_inj, E. Qed.

Lemma dec_N_digits n : forallb is_digit (dec_N n) = true.
Proof. apply dec_uint_digits. Qed.

Lemma digits_num l : forallb is_digit l = true -> forallb is_num_char l = true.
Proof.
  induction l as [|a l IH]; cbn [forallb]; [reflexivity|]. intros H. apply andb_true_iff in H as [Ha Hl].
  unfold is_num_char at 1. rewrite Ha, (IH Hl). reflexivity.
Qed.

Lemma dec_Z_num z : forallb is_num_char (dec_Z z) = true.
Proof.
  unfold dec_Z. destruct (Z.to_int z) as [u|u].
  - apply digits_num, dec_uint_digits.
  - cbn [forallb]. rewrite (digits_num _ (dec_uint_digits u)). reflexivity.
Qed.

Lemma dec_uint_no_minus u l : dec_uint u <> 45 :: l.
Proof. intros E. pose proof (dec_uint_digits u) as H. rewrite E in H. discriminate. Qed.

Lemma dec_Z_inj z z' : dec_Z z = dec_Z z' -> z = z'.
Proof.
  unfold dec_Z. intros E. apply DecimalZ.to_int_inj.
  destruct (Z.to_int z) as [u|u], (Z.to_int z') as [u'|u'].
  - f_equal. apply dec_uint_inj, E.
  - exfalso. exact (dec_uint_no_minus _ _ E).
  - exfalso. exact (dec_uint_no_minus _ _ (eq_sym E)).
  - inversion E as [E1]. f_equal. apply dec_uint_inj, E1.
Qed.

Lemma hexdig_hexd a : a < 16 -> hexdig (hexd a) = Some a.
Proof.
  unfold hexd, hexdig. intros Ha. destruct (N.ltb_spec a 10).
  - destruct (N.leb_spec 48 (48 + a)), (N.leb_spec (48 + a) 57); try lia. cbn [andb]. f_equal. lia.
  - destruct (N.leb_spec (87 + a) 57), (N.leb_spec 97 (87 + a)), (N.leb_spec (87 + a) 102); try lia.
    rewrite andb_false_r. cbn [andb]. f_equal. lia.
Qed.

Lemma hexd_inj a b : a < 16 -> b < 16 -> hexd a = hexd b -> a = b.
Proof. intros Ha Hb E. apply (f_equal hexdig) in E. rewrite !hexdig_hexd in E by assumption. injection E; auto. Qed.

Lemma hex2_inj a b : a < 256 -> b < 256 -> hex2 a = hex2 b -> a = b.
Proof.
  unfold hex2. intros Ha Hb E. inversion E as [[E1 E2]].
  apply hexd_inj in E1; [|lia|lia]. apply hexd_inj in E2; [|lia|lia]. lia.
Qed.

Lemma hexs_inj : forall l l', bytes_ok l = true -> bytes_ok l' = true -> hexs l = hexs l' -> l = l'.
Proof.
  induction l as [|a l IH]; intros [|a' l'] Hl Hl' E; try reflexivity; try discriminate.
  cbn [bytes_ok forallb] in Hl, Hl'. apply andb_true_iff in Hl as [Ha Hl]. apply andb_true_iff in Hl' as [Ha' Hl'].
  unfold byte_ok in Ha, Ha'. apply N.ltb_lt in Ha, Ha'.
  cbn [hexs flat_map] in E. change (flat_map hex2 l) with (hexs l) in E. change (flat_map hex2 l') with (hexs l') in E.
  apply app_inv_length in E as [E1 E2]; [|reflexivity].
  apply hex2_inj in E1; [|assumption|assumption]. subst. f_equal. apply IH; assumption.
Qed.

Lemma hexs_length l : length (hexs l) = (2 * length l)%nat.
Proof. induction l as [|a l IH]; [reflexivity|]. cbn [hexs flat_map]. fold (hexs l). rewrite app_length, IH. cbn. lia. Qed.

Lemma uuid_group id id' off len x x' :
  length id = 16%nat -> length id' = 16%nat -> bytes_ok id = true -> bytes_ok id' = true ->
  (off + len <= 16)%nat ->
  hexs (slice id off len) ++ x = hexs (slice id' off len) ++ x' ->
  slice id off len = slice id' off len /\ x = x'.
Proof.
  intros Hl Hl' Hok Hok' Hb E.
  apply app_inv_length in E as [E ->]; [|rewrite !hexs_length, !slice_length by lia; reflexivity].
  split; [|reflexivity]. apply hexs_inj; [| |exact E]; apply bytes_ok_firstn, bytes_ok_skipn; assumption.
Qed.

Lemma uuid_groups {A} (id : list A) :
  length id = 16%nat -> id = slice id 0 4 ++ slice id 4 2 ++ slice id 6 2 ++ slice id 8 2 ++ slice id 10 6.
Proof.
  intros H. do 16 (destruct id as [|? id]; [discriminate|]). destruct id; [reflexivity | discriminate].
Qed.

Lemma uuid_str_inj id id' r r' :
  length id = 16%nat -> length id' = 16%nat -> bytes_ok id = true -> bytes_ok id' = true ->
  uuid_str id ++ r = uuid_str id' ++ r' -> id = id' /\ r = r'.
Proof.
  intros Hl Hl' Hok Hok' E. unfold uuid_str in E. rewrite <- !app_assoc in E. cbn [app] in E.
  apply (uuid_group id id' 0 4 _ _ Hl Hl' Hok Hok' ltac:(lia)) in E as [E1 E]. injection E as E.
  apply (uuid_group id id' 4 2 _ _ Hl Hl' Hok Hok' ltac:(lia)) in E as [E2 E]. injection E as E.
  apply (uuid_group id id' 6 2 _ _ Hl Hl' Hok Hok' ltac:(lia)) in E as [E3 E]. injection E as E.
  apply (uuid_group id id' 8 2 _ _ Hl Hl' Hok Hok' ltac:(lia)) in E as [E4 E]. injection E as E.
  apply (uuid_group id id' 10 6 _ _ Hl Hl' Hok Hok' ltac:(lia)) in E as [E5 E].
  split; [|exact E]. rewrite (uuid_groups id Hl), (uuid_groups id' Hl'), E1, E2, E3, E4, E5. reflexivity.
Qed.

Lemma hex4_u00 b r : b < 256 -> hex4 (48 :: 48 :: hex2 b ++ r) = Some (b, r).
Proof.
  intros Hb. cbn [hex4 hex2 app]. change (hexdig 48) with (Some 0).
  rewrite !hexdig_hexd by (try apply N.mod_lt; try apply N.div_lt_upper_bound; lia).
  do 2 f_equal. rewrite (N.div_mod b 16) at 3 by lia. lia.
Qed.

Lemma str_body_esc_byte f b r acc : str_body (S f) (json_esc_byte b ++ r) acc = str_body f r (b :: acc).
Proof.
  unfold json_esc_byte.
  destruct (N.eqb_spec b 34) as [->|H34]; [reflexivity|].
  destruct (N.eqb_spec b 92) as [->|H92]; [reflexivity|].
  destruct (N.eqb_spec b 8) as [->|?]; [reflexivity|].
  destruct (N.eqb_spec b 9) as [->|?]; [reflexivity|].
  destruct (N.eqb_spec b 10) as [->|?]; [reflexivity|].
  destruct (N.eqb_spec b 12) as [->|?]; [reflexivity|].
  destruct (N.eqb_spec b 13) as [->|?]; [reflexivity|].
  destruct (N.ltb_spec b 32) as [Hb|Hb].
  - (* \u00XX: the value read is b, which is no surrogate *)
    cbn [app str_body]. lazy beta iota delta [N.eqb Pos.eqb]. rewrite hex4_u00 by lia.
    assert (E1 : 56320 <=? b = false) by (apply N.leb_gt; lia).
    assert (E2 : 55296 <=? b = false) by (apply N.leb_gt; lia).
    rewrite E1, E2. reflexivity.
  - cbn [app str_body]. apply N.eqb_neq in H34, H92. apply N.ltb_ge in Hb. rewrite H34, H92, Hb. reflexivity.
Qed.

Lemma str_body_esc : forall s f r acc,
  (length s <= f)%nat -> str_body (S f) (json_esc s ++ 34 :: r) acc = Some (rev acc ++ s, r).
Proof.
  induction s as [|b s IH]; intros f r acc Hf.
  - cbn. rewrite app_nil_r. reflexivity.
  - destruct f as [|f]; [cbn in Hf; lia|]. cbn [json_esc flat_map]. fold (json_esc s).
    rewrite <- app_assoc, str_body_esc_byte, IH by (cbn in Hf; lia).
    cbn [rev]. rewrite <- app_assoc. reflexivity.
Qed.

Lemma esc_terminated s s' r r' :
  json_esc s ++ 34 :: r = json_esc s' ++ 34 :: r' -> s = s' /\ r = r'.
Proof.
  intros E. apply (f_equal (fun l => str_body (S (length s + length s')) l [])) in E.
  rewrite !str_body_esc in E by lia. injection E; auto.
Qed.

Lemma P_SEQ_eq : P_SEQ = 34 :: P_SEQ_tl. Proof. reflexivity. Qed.
Lemma P_EXP_eq : P_EXP = 44 :: P_EXP_tl. Proof. reflexivity. Qed.
Lemma P_CAP_eq : P_CAP = 44 :: P_CAP_tl. Proof. reflexivity. Qed.
Lemma P_TAIL_eq : P_TAIL = [125]. Proof. reflexivity. Qed.
Lemma P_NULL_eq : P_NULL = [110; 117; 108; 108]. Proof. reflexivity. Qed.

Lemma dec_N_not_null n : dec_N n ++ P_TAIL <> P_NULL ++ P_TAIL.
Proof.
  rewrite P_NULL_eq, P_TAIL_eq. intros E. pose proof (dec_N_digits n) as Hd.
  destruct (dec_N n) as [|d l]; injection E as ->; discriminate.
Qed.

Lemma cap_str_inj c c' : cap_str c ++ P_TAIL = cap_str c' ++ P_TAIL -> c = c'.
Proof.
  destruct c as [n|], c' as [n'|]; unfold cap_str; intros E.
  - rewrite P_TAIL_eq in E.
    apply (split_at_stop is_digit) in E as [E _]; try apply dec_N_digits; try reflexivity.
    f_equal. apply dec_N_inj, E.
  - exfalso. exact (dec_N_not_null n E).
  - exfalso. exact (dec_N_not_null n' (eq_sym E)).
  - reflexivity.
Qed.

Lemma canonical_payload_inj mid mid' issuer issuer' seq seq' expires expires' cap cap' :
  length mid = 16%nat -> length mid' = 16%nat -> bytes_ok mid = true -> bytes_ok mid' = true ->
  canonical_payload mid issuer seq expires cap = canonical_payload mid' issuer' seq' expires' cap' ->
  mid = mid' /\ issuer = issuer' /\ seq = seq' /\ expires = expires' /\ cap = cap'.
Proof.
  intros Hl Hl' Hok Hok' E. unfold canonical_payload in E.
  apply app_inv_head in E.
  apply uuid_str_inj in E as [Emid E]; try assumption.
  apply app_inv_head in E.
  rewrite P_SEQ_eq in E. rewrite <- !app_comm_cons in E.
  apply esc_terminated in E as [Eiss E].
  apply app_inv_head in E.
  rewrite P_EXP_eq in E. rewrite <- !app_comm_cons in E.
  apply (split_at_stop is_num_char) in E as [Eseq E]; try apply dec_Z_num; try reflexivity.
  apply app_inv_head in E.
  rewrite P_CAP_eq in E. rewrite <- !app_comm_cons in E.
  apply (split_at_stop is_digit) in E as [Eexp E]; try apply dec_N_digits; try reflexivity.
  apply app_inv_head in E.
  apply cap_str_inj in E.
  split; [exact Emid|]. split; [exact Eiss|]. split; [apply dec_Z_inj, Eseq|].
  split; [apply dec_N_inj, Eexp | exact E].
Qed.

Local Close Scope N_scope.

Definition id_ok (st : sticket) : Prop := length (st_mid st) = 16%nat /\ bytes_ok (st_mid st) = true.

Lemma payload_of_inj st st' :
  id_ok st -> id_ok st' -> payload_of st = payload_of st' ->
  st_mid st' = st_mid st /\ st_ticket st' = st_ticket st.
Proof.
  intros [Hl Hok] [Hl' Hok'] E.
  (* unfolded by hand: left to `apply`, unification compares the two byte strings first *)
  unfold payload_of in E.
  apply canonical_payload_inj in E as (E1 & E2 & E3 & E4 & E5); try assumption.
  split; [symmetry; exact E1|].
  destruct (st_ticket st) as [i q e c], (st_ticket st') as [i' q' e' c']. cbn in *. congruence.
Qed.
