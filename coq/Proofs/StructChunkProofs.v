(* Proofs about Model/StructChunk.v: the structural chunker keeps every string it is handed (rendered
   element texts), up to trimming, in some chunk.  The fold is followed through [holds] (already inside
   some chunk, or inside the text being accumulated), which every step keeps (step_preserves) and
   establishes for what it is handed (step_keeps).  The model's drop_ws, trim, prefixb and infixb are
   skip_while, trim_by, is_prefix_of and is_infix_of of Base/Strings.v by computation, so the lemmas
   there apply to them as they stand. *)
From MV Require Import Base.Prelude Base.Facts Base.Strings Model.StructChunk.

Section Proofs.
  Variable is_ws : N -> bool.
  Variable max_chars : nat.

  Notation drop_ws := (drop_ws is_ws).
  Notation trim := (trim is_ws).
  Notation blank := (blank is_ws).
  Notation flush := (flush is_ws).
  Notation step := (step is_ws max_chars).
  Notation chunk_doc := (chunk_doc is_ws max_chars).
  Notation chunk_table := (chunk_table max_chars).
  Notation rows_per_chunk := (rows_per_chunk max_chars).
  Notation kept := (kept max_chars).
  Notation faithful := (faithful is_ws max_chars).
  Notation known_class := (known_class is_ws max_chars).

  Lemma infix_refl a : infix a a.
  Proof. exists [], []. rewrite app_nil_r. reflexivity. Qed.

  Lemma infix_trans a b c : infix a b -> infix b c -> infix a c.
  Proof.
    intros (p & q & ->) (p' & q' & ->). exists (p' ++ p), (q ++ q').
    rewrite !app_assoc. reflexivity.
  Qed.

  Lemma infix_app_l a b p : infix a b -> infix a (p ++ b).
  Proof. intros (x & y & ->). exists (p ++ x), y. rewrite !app_assoc. reflexivity. Qed.

  Lemma infix_app_r a b q : infix a b -> infix a (b ++ q).
  Proof. intros (x & y & ->). exists x, (y ++ q). rewrite !app_assoc. reflexivity. Qed.

  Lemma infix_nil b : infix [] b.
  Proof. exists [], b. reflexivity. Qed.

  Lemma infix_nil_inv a : infix a [] -> a = [].
  Proof.
    intros (p & q & E). symmetry in E. apply app_eq_nil in E as (_ & E). apply app_eq_nil in E as (E & _). exact E.
  Qed.

  Lemma infix_rev a b : infix a b -> infix (rev a) (rev b).
  Proof. intros (p & q & ->). exists (rev q), (rev p). rewrite !rev_app_distr, !app_assoc. reflexivity. Qed.

  Lemma infix_drop_ws x a b : is_ws x = false -> infix (x :: a) b -> infix (x :: a) (drop_ws b).
  Proof.
    intros Hx (p & q & ->). induction p as [|y p IH].
    - cbn [app StructChunk.drop_ws]. rewrite Hx. exists [], q. reflexivity.
    - cbn [app StructChunk.drop_ws]. destruct (is_ws y).
      + exact IH.
      + exists (y :: p), q. reflexivity.
  Qed.

  Lemma infix_drop_ws_drop_ws a b : infix (drop_ws a) b -> infix (drop_ws a) (drop_ws b).
  Proof.
    destruct (drop_ws a) as [|x r] eqn:E; [intros _; apply infix_nil|].
    apply infix_drop_ws. exact (skip_while_stops is_ws a x r E).
  Qed.

  Lemma trim_infix_self s : infix (trim s) s.
  Proof. destruct (trim_by_split is_ws s) as (a & b & E & _). exists a, b. exact E. Qed.

  Lemma infix_trim a b : infix a b -> infix (trim a) (trim b).
  Proof.
    intros Hab. assert (H : infix (trim a) (drop_ws b)).
    { pose proof (infix_trans _ _ _ (trim_infix_self a) Hab) as H.
      destruct (trim a) as [|x t] eqn:ET; [apply infix_nil|].
      apply infix_drop_ws; [exact (trim_by_hd is_ws a x t ET)|exact H]. }
    (* the same at the other end: reversed, trim a is drop_ws of something *)
    apply infix_rev in H. unfold StructChunk.trim in H at 1. rewrite rev_involutive in H.
    apply infix_drop_ws_drop_ws, infix_rev in H. exact H.
  Qed.

  Lemma blank_forallb s : blank s = true <-> forallb is_ws s = true.
  Proof.
    unfold StructChunk.blank. induction s as [|c r IH]; cbn [StructChunk.drop_ws forallb].
    - tauto.
    - destruct (is_ws c); cbn [andb]; [exact IH | split; discriminate].
  Qed.

  Lemma blank_trim s : blank s = true -> trim s = [].
  Proof. unfold StructChunk.trim, StructChunk.blank. destruct (drop_ws s); [reflexivity|discriminate]. Qed.

  Lemma infix_blank a b : infix a b -> blank b = true -> blank a = true.
  Proof.
    intros (p & q & ->) H. apply blank_forallb in H. apply blank_forallb.
    rewrite !forallb_app in H. apply andb_true_iff in H as (_ & H).
    apply andb_true_iff in H as (H & _). exact H.
  Qed.

  Lemma covered_app_l cs x l : covered cs l -> covered (cs ++ x) l.
  Proof. intros (c & Hin & Hi). exists c. split; [apply in_or_app; left; exact Hin | exact Hi]. Qed.

  Lemma covered_app_r cs x l : covered x l -> covered (cs ++ x) l.
  Proof. intros (c & Hin & Hi). exists c. split; [apply in_or_app; right; exact Hin | exact Hi]. Qed.

  Lemma covered_head c cs a : infix a c -> covered (c :: cs) a.
  Proof. intros Hi. exists c. split; [left; reflexivity | exact Hi]. Qed.

  Lemma covered_infix cs a b : infix a b -> covered cs b -> covered cs a.
  Proof. intros Hab (c & Hin & Hi). exists c. split; [exact Hin | eapply infix_trans; eauto]. Qed.

  Definition holds (cs : list str) (c : str) (R : str) : Prop :=
    covered cs (trim R) \/ infix R c.

  Lemma holds_chunks_app cs c x R : holds cs c R -> holds (cs ++ x) c R.
  Proof. intros [H|H]; [left; apply covered_app_l; exact H | right; exact H]. Qed.

  Lemma holds_cur_app cs c x R : holds cs c R -> holds cs (c ++ x) R.
  Proof. intros [H|H]; [left; exact H | right; apply infix_app_r; exact H]. Qed.

  Lemma holds_new cs c R : holds cs (c ++ R) R.
  Proof. right. apply infix_app_l, infix_refl. Qed.

  Lemma holds_emit cs c c' R : holds cs c R -> holds (cs ++ [trim c]) c' R.
  Proof.
    intros [H|H]; left; [apply covered_app_l; exact H|].
    apply covered_app_r, covered_head, infix_trim, H.
  Qed.

  Lemma holds_flush st R :
    holds (chunks st) (cur st) R -> holds (chunks (flush st)) (cur (flush st)) R.
  Proof.
    intros H. unfold StructChunk.flush. destruct (blank (cur st)); [exact H|].
    cbn [chunks cur]. apply holds_emit. exact H.
  Qed.

  Lemma step_preserves st e R :
    holds (chunks st) (cur st) R -> holds (chunks (step st e)) (cur (step st e)) R.
  Proof.
    intros H. destruct e as [raw header rows|f|f|f|t|]; cbn [StructChunk.step chunks cur].
    - apply holds_chunks_app, holds_flush, H.
    - apply holds_chunks_app, holds_flush, H.
    - apply holds_cur_app. destruct (is_empty (cur st)); [exact H | apply holds_cur_app; exact H].
    - destruct ((max_chars <? length (cur st) + length f) && negb (blank (cur st))); cbn [chunks cur].
      + apply holds_emit, H.
      + apply holds_cur_app. destruct (is_empty (cur st)); [exact H | apply holds_cur_app; exact H].
    - destruct ((max_chars <? length (cur st) + length t) && negb (blank (cur st))).
      + destruct (pending st) as [h|]; apply holds_emit, H.
      + apply holds_cur_app.
        destruct (negb (is_empty (cur st)) && negb (ends_with_nl (cur st))); [apply holds_cur_app|]; exact H.
    - apply holds_flush. exact H.
  Qed.

  Lemma rows_per_chunk_pos h rows : 1 <= rows_per_chunk h rows.
  Proof.
    unfold StructChunk.rows_per_chunk.
    destruct (max_chars - (h + 10) =? 0); [lia|].
    destruct (Nat.eqb_spec (length rows) 0); [lia|].
    destruct (fold_left (fun a r => a + snd r) rows 0 / length rows =? 0); lia.
  Qed.

  Lemma infix_row_in_part header (rows : list (str * nat)) r :
    In r rows -> infix (fst r) (header ++ concat (map (fun r => 10%N :: fst r) rows)).
  Proof.
    intros Hin. apply infix_app_l. induction rows as [|x rows IH]; [destruct Hin|].
    cbn [map concat]. destruct Hin as [->|Hin].
    - exists [10%N], (concat (map (fun r => 10%N :: fst r) rows)). reflexivity.
    - apply (infix_app_l _ _ (10%N :: fst x)). apply IH. exact Hin.
  Qed.

  Lemma table_parts_rows : forall fuel header k rows r,
    1 <= k -> length rows <= fuel -> In r rows ->
    covered (table_parts fuel header k rows) (fst r).
  Proof.
    induction fuel as [|f IH]; intros header k rows r Hk Hf Hin.
    - destruct rows; [destruct Hin | cbn [length] in Hf; lia].
    - destruct rows as [|x rows']; [destruct Hin|].
      cbn [table_parts]. set (rows := x :: rows') in *.
      rewrite <- (firstn_skipn k rows) in Hin. apply in_app_or in Hin as [Hin|Hin].
      + apply covered_head, infix_row_in_part, Hin.
      + destruct (IH header k (skipn k rows) r Hk) as (c & Hc & Hi); [|exact Hin|].
        * rewrite skipn_length. unfold rows in *. cbn [length] in *. lia.
        * exists c. split; [right; exact Hc | exact Hi].
  Qed.

  Lemma chunk_table_keeps raw header rows R :
    In R (kept (ETable raw header rows)) -> covered (chunk_table raw header rows) R.
  Proof.
    cbn [StructChunk.kept]. unfold StructChunk.chunk_table.
    destruct (length raw <=? max_chars).
    - intros [<-|[]]. apply covered_head, infix_refl.
    - intros [<-|Hin].
      + destruct rows as [|x rows'].
        * apply covered_head, infix_refl.
        * cbn [length table_parts]. apply covered_head, infix_app_r, infix_refl.
      + apply in_map_iff in Hin as (r & <- & Hr).
        destruct rows as [|x rows']; [destruct Hr|].
        apply table_parts_rows; [apply rows_per_chunk_pos | apply le_n | exact Hr].
  Qed.

  Lemma step_keeps st e R :
    In R (kept e) -> holds (chunks (step st e)) (cur (step st e)) R.
  Proof.
    intros Hin. destruct e as [raw header rows|f|f|f|t|]; cbn [StructChunk.step chunks cur].
    - left. apply covered_app_r. eapply covered_infix; [apply trim_infix_self|].
      apply chunk_table_keeps. exact Hin.
    - destruct Hin as [<-|[]]. left. apply covered_app_r, covered_head, trim_infix_self.
    - destruct Hin as [<-|[]]. apply holds_new.
    - destruct Hin as [<-|[]]. apply holds_new.
    - destruct Hin as [<-|[]]. apply holds_new.
    - destruct Hin.
  Qed.

  Lemma fold_holds : forall doc st R,
    (holds (chunks st) (cur st) R \/ exists e, In e doc /\ In R (kept e)) ->
    holds (chunks (fold_left step doc st)) (cur (fold_left step doc st)) R.
  Proof.
    induction doc as [|e doc IH]; intros st R H; cbn [fold_left].
    - destruct H as [H|(e & [] & _)]. exact H.
    - apply IH. destruct H as [H|(e' & [<-|Hin] & HR)].
      + left. apply step_preserves. exact H.
      + left. apply step_keeps. exact HR.
      + right. exists e'. split; assumption.
  Qed.

  Theorem chunk_doc_keeps doc e R :
    In e doc -> In R (kept e) -> blank R = false -> covered (chunk_doc doc) (trim R).
  Proof.
    intros He HR Hb. unfold StructChunk.chunk_doc.
    pose proof (fold_holds doc (mkState [] [] None) R (or_intror (ex_intro _ e (conj He HR)))) as H.
    set (st := fold_left step doc (mkState [] [] None)) in *.
    unfold StructChunk.flush. destruct (blank (cur st)) eqn:Eb.
    - destruct H as [H|H]; [exact H|].
      apply infix_blank in H; [congruence | exact Eb].
    - (* the final flush empties the current text: what it held is now in the last chunk, and
         nothing non-blank is inside [] *)
      cbn [chunks]. apply (holds_emit _ _ []) in H. destruct H as [H|H]; [exact H|].
      apply infix_nil_inv in H. subst R. discriminate.
  Qed.

  Lemma anyb_existsb {X} (f : X -> bool) l : anyb f l = existsb f l.
  Proof. induction l as [|x r IH]; cbn [anyb existsb]; [|rewrite IH]; reflexivity. Qed.

  Lemma not_covered_b cs l : forallb (fun c => negb (infixb l c)) cs = true -> ~ covered cs l.
  Proof.
    intros H (c & Hin & Hi). rewrite forallb_forall in H. specialize (H c Hin).
    apply (is_infix_of_spec l c) in Hi. change (infixb l c = true) in Hi. rewrite Hi in H. discriminate.
  Qed.

  Theorem coverage_outside_known (doc : list selem) (skipped : list str) :
    known_class doc skipped = false ->
    forall l, l <> [] ->
      (In l skipped \/ exists se, In se doc /\ In l (snd se)) ->
      covered (chunk_doc (map fst doc)) l.
  Proof.
    unfold StructChunk.known_class. intros Hk l Hl Hin.
    apply orb_false_iff in Hk as (Hs & Hd).
    destruct skipped as [|s0 sk]; [|discriminate].
    destruct Hin as [[]|(se & Hse & Hlse)].
    pose proof (existsb_false _ _ Hd se Hse) as Hf. apply negb_false_iff in Hf.
    unfold StructChunk.faithful in Hf. cbv zeta in Hf. rewrite forallb_forall in Hf.
    specialize (Hf l Hlse). rewrite anyb_existsb in Hf. apply existsb_exists in Hf as (tk & Htk & Hi).
    apply in_map_iff in Htk as (k & <- & Hk).
    apply (is_infix_of_spec l) in Hi.
    assert (Hb : blank k = false).
    { destruct (blank k) eqn:E; [|reflexivity].
      rewrite (blank_trim k E) in Hi. apply infix_nil_inv in Hi. congruence. }
    eapply covered_infix; [exact Hi|].
    eapply chunk_doc_keeps; [apply in_map; exact Hse | exact Hk | exact Hb].
  Qed.
End Proofs.
