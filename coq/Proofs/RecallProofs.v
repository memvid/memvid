(* Proofs for C09 (lexical search recall) over Model/Recall.v.  Two filters of one size that
   both report a hash share a set bit, so two filters built from lists with a common hash do, and
   from_query's filter is built from the query's tokens: what C09's bloom-side theorem rests on.
   The sketch candidates are the passing entries in score order, cut to max_candidates
   (candidate_ids_cut), and the sketch stage keeps every candidate that the filter built so far
   admits.  The recall theorem walks class, limit, engine, page.  After close + reopen ids are
   0,1,2,.. and the test results are unchanged, position by position. *)
From MV Require Import Base.Prelude Base.Facts Base.SortFacts Model.Sketch Model.AsOf Model.SearchPage Model.Recall
  Proofs.SketchFilterProofs Proofs.SketchTrackProofs Proofs.SearchPageProofs Proofs.AsOfProofs.
Local Open Scope N_scope.

Lemma overlap_nth : forall (a b : bytes) (i : nat) (k : N),
    N.testbit (nth i a 0) k = true -> N.testbit (nth i b 0) k = true -> filters_overlap a b = true.
Proof.
  induction a as [|x a IH]; intros b i k Ha Hb.
  - destruct i; cbn [nth] in Ha; rewrite N.bits_0 in Ha; discriminate.
  - destruct b as [|y b].
    + destruct i; cbn [nth] in Hb; rewrite N.bits_0 in Hb; discriminate.
    + cbn [filters_overlap]. destruct i as [|i]; cbn [nth] in Ha, Hb.
      * destruct (N.eqb_spec (N.land x y) 0) as [E|E]; [|reflexivity].
        assert (Hc : N.testbit (N.land x y) k = true) by (rewrite N.land_spec, Ha, Hb; reflexivity).
        rewrite E, N.bits_0 in Hc. discriminate.
      * rewrite (IH b i k Ha Hb). apply orb_true_r.
Qed.

Lemma contains_overlap f1 f2 h :
  length f1 = length f2 ->
  term_filter_maybe_contains f1 h = Ok true -> term_filter_maybe_contains f2 h = Ok true ->
  filters_overlap f1 f2 = true.
Proof.
  unfold term_filter_maybe_contains. intros Hl. rewrite Hl.
  destruct (N.of_nat (length f2) * 8 =? 0); [discriminate|].
  intros [= H1] [= H2]. rewrite !andb_true_iff in H1, H2.
  destruct H1 as [[H1 _] _], H2 as [[H2 _] _].
  rewrite test_bit_testbit in H1, H2. eapply overlap_nth; eassumption.
Qed.

Lemma built_overlap {hs1 hs2 size} h :
  size <> O -> In h hs1 -> In h hs2 -> filters_overlap (built hs1 size) (built hs2 size) = true.
Proof.
  intros Hs H1 H2. apply (contains_overlap _ _ h).
  - rewrite !built_length. reflexivity.
  - apply built_contains; assumption.
  - apply built_contains; assumption.
Qed.

Lemma from_query_filter {token} token_eqb hash_token (tokens : list token) v :
  exists q, from_query token token_eqb hash_token tokens v = Ok q /\
            q_filter q = built (map fst (compute_token_weights token token_eqb hash_token raw_weight_no_idf tokens))
                               (term_filter_size v).
Proof.
  unfold from_query. destruct tokens as [|t0 r]; [eexists; split; reflexivity|].
  rewrite (build_term_filter_nz _ _ (term_filter_size_nz v)). eexists; split; reflexivity.
Qed.

Lemma takeN_firstn {A} : forall (l : list A) n, takeN n l = firstn (N.to_nat n) l.
Proof.
  induction l as [|x r IH]; intros n; cbn [takeN]; [destruct (N.to_nat n); reflexivity|].
  destruct (N.eqb_spec n 0) as [->|E]; [reflexivity|].
  replace (N.to_nat n) with (S (N.to_nat (n - 1))) by lia. cbn [firstn]. rewrite IH. reflexivity.
Qed.

Lemma takeN_all {A} (l : list A) n : len l <= n -> takeN n l = l.
Proof. intros Hn. rewrite takeN_firstn. apply firstn_all2. unfold len in Hn. lia. Qed.

Lemma takeN_In {A} (x : A) l n : In x (takeN n l) -> In x l.
Proof. rewrite takeN_firstn. apply In_firstn. Qed.

Lemma takeN_len {A} (l : list A) n : len (takeN n l) <= n.
Proof. rewrite takeN_firstn. pose proof (firstn_le_length (N.to_nat n) l). unfold len. lia. Qed.

Section CandidateProofs.
  Variable score : Type.
  Variable score_fn : N -> N -> N -> N -> N -> score.
  Variable s_le : score -> score -> bool.
  Variable s_zero : score.
  (* min_score = 0.0 never removes a candidate: every score is >= 0.0 *)
  Hypothesis zero_least : forall a b c d e, s_le s_zero (score_fn a b c d e) = true.

  Notation score_entry := (score_entry score score_fn).
  Notation scored := (scored score score_fn).
  Notation sketch_candidate_ids := (sketch_candidate_ids score score_fn s_le s_zero).

  Definition score_of (q : qsketch) (e : entry) : score :=
    score_fn (count_matching_top_terms (e_top e) (q_top q)) (N.max (len (q_top q)) 1)
             (hamming_distance (e_simhash e) (q_simhash q)) (len_bucket (q_count q)) (Sketch.e_len e).

  Lemma score_entry_passing q e thr :
    score_entry q e thr = if entry_passes q thr e then Some (score_of q e) else None.
  Proof.
    unfold Recall.score_entry, entry_passes. rewrite N.ltb_antisym.
    destruct (filters_overlap (e_filter e) (q_filter q)); [|reflexivity].
    cbn [negb andb]. destruct (_ <=? thr); reflexivity.
  Qed.

  Lemma scored_passing q thr es :
    scored q thr es = map (fun e => (e_frame_id e, score_of q e)) (filter (entry_passes q thr) es).
  Proof.
    unfold Recall.scored. induction es as [|e r IH]; [reflexivity|].
    cbn [flat_map filter]. rewrite score_entry_passing, IH. destruct (entry_passes q thr e); reflexivity.
  Qed.

  Lemma candidate_ids_cut q es maxc :
    sketch_candidate_ids q es maxc
    = map fst (takeN maxc (isort (by_score_desc score s_le) (scored q SKETCH_HAMMING_THRESHOLD es))).
  Proof.
    unfold Recall.sketch_candidate_ids, Recall.find_sketch_candidates, Recall.find_candidates.
    rewrite map_map. cbn [fst]. rewrite filter_all; [reflexivity|].
    intros [f s] H. apply takeN_In, isort_In in H. rewrite scored_passing in H.
    apply in_map_iff in H as (e & [= _ <-] & _). apply zero_least.
  Qed.

  Lemma candidate_ids_sound q es maxc f :
    In f (sketch_candidate_ids q es maxc) ->
    exists e, In e es /\ e_frame_id e = f /\ entry_passes q SKETCH_HAMMING_THRESHOLD e = true.
  Proof.
    rewrite candidate_ids_cut, in_map_iff. intros (p & <- & H).
    apply takeN_In, isort_In in H. rewrite scored_passing in H.
    apply in_map_iff in H as (e & <- & H). apply filter_In in H as [He Hp]. exists e. auto.
  Qed.

  Lemma candidate_ids_complete q es maxc e :
    len (filter (entry_passes q SKETCH_HAMMING_THRESHOLD) es) <= maxc ->
    In e es -> entry_passes q SKETCH_HAMMING_THRESHOLD e = true ->
    In (e_frame_id e) (sketch_candidate_ids q es maxc).
  Proof.
    intros Hn He Hp. rewrite candidate_ids_cut, takeN_all.
    - apply in_map_iff. exists (e_frame_id e, score_of q e). split; [reflexivity|].
      apply isort_In. rewrite scored_passing. apply in_map_iff. exists e. split; [reflexivity|].
      apply filter_In. auto.
    - unfold len. rewrite isort_length, scored_passing, map_length. exact Hn.
  Qed.

  Lemma candidate_ids_bounded q es maxc : len (sketch_candidate_ids q es maxc) <= maxc.
  Proof. rewrite candidate_ids_cut. unfold len. rewrite map_length. apply takeN_len. Qed.
End CandidateProofs.

(* the tie between the two models of the sketch block of Memvid::search: the stage of
   Model/AsOf.v, in the code's current version, is sketch_stage of Model/Recall.v behind
   the sketch_on test *)
Lemma sketch_stage_gen_true st rq cands cf :
  sketch_stage_gen true st rq cands cf = Cont (if sketch_on st rq then sketch_stage cands cf else cf).
Proof.
  unfold sketch_stage_gen, sketch_stage. destruct (sketch_on st rq), (is_nil cands), cf as [l|]; try reflexivity.
  destruct (is_nil (keep_in cands l)); reflexivity.
Qed.

Lemma sketch_stage_keeps cands cf0 f :
  in_cf cf0 f = true -> mem_id f cands = true -> in_cf (sketch_stage cands cf0) f = true.
Proof.
  intros H0 Hc. unfold sketch_stage.
  apply mem_id_In in Hc. rewrite (is_nil_false_In f cands Hc).
  destruct cf0 as [existing|]; cbn [in_cf] in *; [|apply mem_id_In; exact Hc].
  assert (Hin : In f (keep_in cands existing)) by (apply keep_in_In; rewrite <- mem_id_In; auto).
  rewrite (is_nil_false_In f _ Hin). apply mem_id_In. exact Hin.
Qed.

Lemma sketch_stage_sub cands existing f :
  in_cf (sketch_stage cands (Some existing)) f = true -> in_cf (Some existing) f = true.
Proof.
  unfold sketch_stage. destruct (is_nil cands); [auto|].
  destruct (is_nil (keep_in cands existing)); [auto|].
  cbn [in_cf]. rewrite !mem_id_In, keep_in_In. tauto.
Qed.

Lemma sketch_drops_false M cf0 cf :
  sketch_drops M cf0 cf = false <-> (forall f, In f M -> in_cf cf0 f = true -> in_cf cf f = true).
Proof.
  unfold sketch_drops. split.
  - intros H f Hf H0. destruct (in_cf cf f) eqn:E; [reflexivity|].
    assert (existsb (fun f0 => in_cf cf0 f0 && negb (in_cf cf f0)) M = true)
      by (apply existsb_exists; exists f; rewrite H0, E; auto).
    congruence.
  - intros H. destruct (existsb _ M) eqn:E; [|reflexivity].
    apply existsb_exists in E. destruct E as (f & Hf & Hb).
    apply andb_prop in Hb. destruct Hb as [H0 H1]. rewrite (H f Hf H0) in H1. discriminate.
Qed.

Lemma snippets_stream ev :
  flat_map (fun d => flat_map (fun sl => match emit_tantivy d sl with Some h => [h] | None => [] end) (e_slices d)) ev
  = stream emit_tantivy ev.
Proof.
  unfold stream, items. induction ev as [|d r IH]; [reflexivity|].
  cbn [flat_map]. rewrite somes_app, IH. f_equal.
  induction (e_slices d) as [|sl sls IHs]; [reflexivity|].
  cbn [flat_map map somes]. destruct (emit_tantivy d sl); cbn [app]; rewrite IHs; reflexivity.
Qed.

Lemma emit_slice_ok d sl :
  slice_ok (e_clen d) sl = true -> exists r, emit_tantivy d sl = Some (e_frame d, r).
Proof.
  unfold slice_ok, emit_tantivy. intros H.
  destruct (N.leb_spec (N.min (snd sl) (e_clen d)) (N.min (fst sl) (e_clen d))) as [H1|H1]; [lia|].
  destruct (N.leb_spec (e_cstart d + N.min (snd sl) (e_clen d)) (e_cstart d + N.min (fst sl) (e_clen d))) as [H2|H2]; [lia|].
  eexists. reflexivity.
Qed.

Lemma In_somes {A} (x : A) l : In (Some x) l -> In x (somes l).
Proof.
  induction l as [|o r IH]; intros H; [destruct H|].
  destruct H as [->|H]; cbn [somes]; [left; reflexivity|].
  destruct o; [right|]; apply IH; exact H.
Qed.

Section PipelineProofs.
  Variable toc : N -> tocfacts.
  Variable combined : N -> Z -> N.

  Lemma resort_In ev d : In d (resort combined ev) <-> In d ev.
  Proof.
    unfold resort. destruct (1 <? len ev); [|tauto].
    rewrite in_map_iff. split.
    - intros ([k d'] & <- & H). apply isort_In in H. apply in_map_iff in H.
      destruct H as (d0 & E & H). injection E as _ <-. exact H.
    - intros H. exists (resort_key combined (max_ts ev) d, d). split; [reflexivity|].
      apply isort_In. apply in_map_iff. exists d. auto.
  Qed.

  Lemma evaluate_In cap cands c :
    In c cands -> c_keep c = true -> slices_at c cap <> [] ->
    In (mkEdoc (c_frame c) (c_score c) (c_cstart c) (c_clen c) (slices_at c cap) (c_ts c)) (evaluate cap cands).
  Proof.
    intros Hc Hk Hs. unfold evaluate. apply in_flat_map. exists c. split; [exact Hc|].
    rewrite Hk. destruct (slices_at c cap); [congruence | left; reflexivity].
  Qed.

  (* f0 is any one evaluable frame of the engine's answer: with no slice at all the request is
     answered by the legacy pipeline (Ok None) instead of a page *)
  Lemma after_engine_recall has_lex hs top_k f0 :
    snippets_exceed (resort combined (evaluate (N.max top_k 1) (map (mk_cand toc) hs))) top_k = false ->
    In f0 (map fst hs) -> evaluable toc top_k f0 = true ->
    exists p, after_engine combined has_lex (map (mk_cand toc) hs) top_k None = Ok (Some p) /\
              forall f, In f (map fst hs) -> evaluable toc top_k f = true -> In f (hit_frames p).
  Proof.
    intros Hfit Hf0 He0.
    set (cap := N.max top_k 1) in *.
    set (ev := resort combined (evaluate cap (map (mk_cand toc) hs))) in *.
    assert (Hstream : forall f, In f (map fst hs) -> evaluable toc top_k f = true ->
                                In f (map fst (stream emit_tantivy ev))).
    { intros f Hf He. apply in_map_iff in Hf as (h & <- & Hh).
      apply andb_prop in He as [Hk Hs]. apply existsb_exists in Hs as (sl & Hsl & Hok).
      set (c := mk_cand toc h).
      set (d := mkEdoc (c_frame c) (c_score c) (c_cstart c) (c_clen c) (slices_at c cap) (c_ts c)).
      assert (Hd : In d ev).
      { apply resort_In. apply evaluate_In; [apply in_map; exact Hh | exact Hk |].
        intros E. change (slices_at c cap) with (toc_slices (toc (fst h)) (N.max top_k 1)) in E.
        rewrite E in Hsl. destruct Hsl. }
      destruct (emit_slice_ok d sl Hok) as (r & Hr).
      apply in_map_iff. exists (fst h, r). split; [reflexivity|].
      unfold stream. apply In_somes. unfold items. apply in_flat_map. exists d. split; [exact Hd|].
      apply in_map_iff. exists sl. split; [exact Hr | exact Hsl]. }
    assert (Hlen : (len (stream emit_tantivy ev) <= N.max top_k 1)%N).
    { unfold snippets_exceed in Hfit. rewrite snippets_stream in Hfit. lia. }
    destruct (oneshot_spec emit_tantivy true ev top_k Hlen) as (one & Hone & Hh & Ht).
    assert (Hpos : (0 < total_slices ev)%N).
    { specialize (Hstream f0 Hf0 He0). rewrite total_slices_items with (emit := emit_tantivy).
      unfold stream in Hstream. destruct (items emit_tantivy ev) as [|it its]; [destruct Hstream|].
      unfold len. cbn [length]. lia. }
    exists one. split.
    - rewrite after_engine_page by exact Hpos. fold cap. fold ev. rewrite Hone. reflexivity.
    - intros f Hf He. unfold hit_frames. rewrite Hh. apply Hstream; assumption.
  Qed.
End PipelineProofs.

Lemma dedupN_In x l : In x (dedupN l) <-> In x l.
Proof.
  induction l as [|y r IH]; [tauto|]. cbn [dedupN In]. rewrite filter_In, IH.
  destruct (N.eqb_spec y x) as [->|E]; cbn [negb]; [tauto|]. split; [tauto|].
  intros [H|H]; [left; exact H | right; split; [exact H | reflexivity]].
Qed.

Lemma NoDup_sub_set_len M l :
  NoDup M -> (forall f, In f M -> In f l) -> len M <= set_len l.
Proof.
  intros Hnd Hsub. unfold set_len, len.
  assert (length M <= length (dedupN l))%nat; [|lia].
  apply NoDup_incl_length; [exact Hnd|]. intros f Hf. apply dedupN_In. apply Hsub. exact Hf.
Qed.

(* the limit handed to the engine without a cursor: top_k <= USIZE_MAX keeps the saturating sum at
   its true value, and 4 * top_k, saturated or not, stays >= top_k *)
Lemma engine_limit_covers top_k n flt :
  top_k <= USIZE_MAX -> n <= top_k -> (forall s, flt = Some s -> n <= s) ->
  n <= N.max (engine_limit top_k 0 flt) 1.
Proof.
  intros Hk Hn Hf. unfold engine_limit.
  (* n <= base <= the unfiltered limit l, one min or max at a time: a single lia over all five
     splits thirty-two ways *)
  assert (Hb : n <= N.min (N.max top_k 1 + 0) USIZE_MAX) by (apply N.min_glb; lia).
  revert Hb. generalize (N.min (N.max top_k 1 + 0) USIZE_MAX). intros base Hb.
  assert (Hl : n <= N.max (N.min (base * 4) USIZE_MAX) 20).
  { apply N.max_le_iff. left. apply N.min_glb; lia. }
  revert Hl. generalize (N.max (N.min (base * 4) USIZE_MAX) 20). intros l Hl.
  apply N.max_le_iff. left.
  destruct flt as [s|]; [|exact Hl].
  apply N.min_glb; [exact Hl|]. specialize (Hf s eq_refl). lia.
Qed.

Section RecallProofs.
  Variable score : Type.
  Variable score_fn : N -> N -> N -> N -> N -> score.
  Variable s_le : score -> score -> bool.
  Variable s_zero : score.
  Variable engine : option (list N) -> N -> list (N * N).
  Variable toc : N -> tocfacts.
  Variable combined : N -> Z -> N.

  Notation search := (search score score_fn s_le s_zero engine toc combined).
  Notation known_sketch := (known_sketch score score_fn s_le s_zero).
  Notation known_snippets := (known_snippets score score_fn s_le s_zero engine toc combined).
  Notation final_filter := (final_filter score score_fn s_le s_zero).

  (* RECALL, outside the two known classes: default request (no cursor), k <= top_k.
     `top_k <= USIZE_MAX` is the range of the Rust type (top_k : usize). *)
  Theorem recall_outside_known es q top_k has_text no_sketch cf0 has_lex M :
    let rq := mkSreq top_k None has_text no_sketch in
    top_k <= USIZE_MAX ->
    NoDup M -> M <> [] -> len M <= top_k ->
    (forall f, In f M -> in_cf cf0 f = true) ->
    engine_recall engine M ->
    (forall f, In f M -> evaluable toc top_k f = true) ->
    known_sketch es q rq cf0 M = false ->
    known_snippets es q rq cf0 = false ->
    exists p, search es q rq cf0 has_lex = Ok (Some p) /\
              forall f, In f M -> In f (hit_frames p).
  Proof.
    intros rq Husize Hnd Hne Hk Hcf0 Heng Hev Hks Hkn.
    unfold Recall.known_sketch, Recall.known_snippets, Recall.evaluated_docs, Recall.search in *.
    cbn [r_top_k r_cursor r_has_text r_no_sketch rq] in *.
    set (cf := final_filter es q has_text no_sketch top_k cf0) in *.
    assert (Hin : forall f, In f M -> in_cf cf f = true).
    { intros f Hf. apply (proj1 (sketch_drops_false M cf0 cf) Hks f Hf). apply Hcf0. exact Hf. }
    set (limit := engine_limit top_k (offset_hint None) (option_map set_len cf)) in *.
    assert (Hlim : len (filter (in_cf cf) M) <= N.max limit 1).
    { (* all of M is inside the filter, which therefore has len M members: M has no duplicates *)
      rewrite (filter_all _ _ Hin). apply engine_limit_covers; [exact Husize | exact Hk |].
      destruct cf as [l|]; intros s [= <-].
      apply NoDup_sub_set_len; [exact Hnd|]. intros f Hf. apply mem_id_In. apply (Hin f Hf). }
    destruct M as [|f0 M']; [congruence|].
    destruct (after_engine_recall toc combined has_lex (engine cf limit) top_k f0 Hkn) as (p & Hp & Hall).
    - apply (Heng cf limit f0 (or_introl eq_refl) (Hin f0 (or_introl eq_refl)) Hlim).
    - apply Hev. left. reflexivity.
    - exists p. split; [exact Hp|].
      intros f Hf. apply Hall; [apply (Heng cf limit f Hf (Hin f Hf) Hlim) | apply Hev; exact Hf].
  Qed.

  Lemma final_filter_keeps es q has_text no_sketch top_k cf0 f :
    in_cf cf0 f = true ->
    (sketch_applies es has_text no_sketch = true ->
     In f (sketch_candidate_ids score score_fn s_le s_zero q es (sketch_max_candidates top_k))) ->
    in_cf (final_filter es q has_text no_sketch top_k cf0) f = true.
  Proof.
    intros H0 Hc. unfold Recall.final_filter. destruct (sketch_applies es has_text no_sketch); [|exact H0].
    apply sketch_stage_keeps; [exact H0 | apply mem_id_In, Hc; reflexivity].
  Qed.

  Lemma no_sketch_never_drops es q top_k has_text cf0 M :
    known_sketch es q (mkSreq top_k None has_text true) cf0 M = false.
  Proof.
    apply sketch_drops_false. intros f _ H0. apply final_filter_keeps; [exact H0|].
    unfold sketch_applies. rewrite andb_false_r. discriminate.
  Qed.
End RecallProofs.

(* entries as generate_sketch makes them have a 16-byte filter, which reading a Small track back
   keeps, with the simhash: the same entries pass, only the numbering changes *)
Lemma norm_small_passes q thr i e :
  length (e_filter e) = 16%nat ->
  entry_passes q thr (norm_entry Small i e) = entry_passes q thr e.
Proof.
  intros H. unfold entry_passes, norm_entry. cbn [e_filter e_simhash]. rewrite (proj2 (small_filter_fix _) H). reflexivity.
Qed.

Lemma norm_from_ids v : forall l i,
    map e_frame_id (norm_from v i l) = nseq i (length l).
Proof.
  induction l as [|e r IH]; intros i; [reflexivity|].
  cbn [norm_from map nseq length]. rewrite IH. destruct v; reflexivity.
Qed.

Lemma reopen_passing_positions q thr : forall l i,
    Forall (fun e => length (e_filter e) = 16%nat) l ->
    map (entry_passes q thr) (norm_from Small i l) = map (entry_passes q thr) l.
Proof.
  induction l as [|e r IH]; intros i H; [reflexivity|].
  inversion H as [|? ? He Hr]; subst. cbn [norm_from map]. rewrite norm_small_passes by exact He.
  rewrite IH by exact Hr. reflexivity.
Qed.

Lemma map_filter_agree {A B} (f : A -> B) (p : A -> bool) : forall l1 l2,
    map f l1 = map f l2 -> map p l1 = map p l2 -> map f (filter p l1) = map f (filter p l2).
Proof.
  induction l1 as [|a l1 IH]; intros [|b l2]; try discriminate; [reflexivity|].
  cbn [map filter]. intros [= Ef Hf] [= -> Hp].
  destruct (p b); cbn [map]; rewrite (IH l2 Hf Hp), ?Ef; reflexivity.
Qed.

(* the engine hypothesis is satisfiable: a ranked table whose frames are exactly M *)
Lemma table_engine2_recall tbl : engine_recall (table_engine2 tbl) (map fst tbl).
Proof.
  intros cf limit f Hf Hcf Hlen. unfold table_engine2.
  rewrite takeN_all.
  - rewrite (map_filter fst). apply filter_In. split; assumption.
  - rewrite <- (map_filter fst) in Hlen. unfold len in *. rewrite map_length in Hlen. exact Hlen.
Qed.
