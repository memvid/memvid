(* Proofs for C15 about Model/Timeline.v.  On a dense table (frame i has id i) every entry of an active frame
   resolves to itself, so the tail of build_timeline is `view q` (range, direction, limit) of the
   entry list, as the specification is `view q` of timeline_all.  The list the code assembles
   (merged_as_is: the sorted index followed by the extracted images) is a permutation of
   timeline_all, and its sort is timeline_all.  Hence, in every state satisfying the invariant
   tinv (dense table; index rebuilt from it, or nothing stored), build_timeline_answers: the code
   as it is returns the view of the assembled list, the repaired code the specification; and the
   known class is the equation merged_as_is <> timeline_all (outside_known_iff). *)
From MV Require Import Base.Prelude Base.Facts Model.Timeline Proofs.TimelineSort.
From Coq Require Import Sorting.Sorted Sorting.Permutation.

Lemma nodup_map_filter {A B} (f : A -> B) p (l : list A) : NoDup (map f l) -> NoDup (map f (filter p l)).
Proof.
  induction l as [|x r IH]; cbn [map filter]; intros H; [constructor|].
  inversion H as [|? ? Hn Hr]; subst. destruct (p x); [|apply IH, Hr].
  cbn [map]. constructor; [|apply IH, Hr].
  intros Hin. apply Hn. apply in_map_iff in Hin as (y & Hy & Hin). apply filter_In in Hin as [Hin _].
  apply in_map_iff. exists y; split; assumption.
Qed.

Lemma nodup_map_firstn {A B} (f : A -> B) (l : list A) : forall n, NoDup (map f l) -> NoDup (map f (firstn n l)).
Proof.
  induction l as [|x r IH]; intros n H.
  - rewrite firstn_nil. constructor.
  - destruct n as [|n]; cbn [firstn map]; [constructor|].
    inversion H as [|? ? Hn Hr]; subst. constructor; [|apply IH, Hr].
    intros Hin. apply Hn. apply in_map_iff in Hin as (y & Hy & Hin).
    apply in_map_iff. exists y; split; [exact Hy|]. apply (In_firstn _ _ _ Hin).
Qed.

Lemma perm_filter_split {A} (p q : A -> bool) (l : list A) :
  (forall x, p x && q x = false) ->
  Permutation (filter p l ++ filter q l) (filter (fun x => p x || q x) l).
Proof.
  intros Hd. induction l as [|x r IH]; cbn [filter app]; [constructor|].
  specialize (Hd x). destruct (p x) eqn:Ep, (q x) eqn:Eq; cbn [orb app]; try discriminate.
  - apply perm_skip, IH.
  - eapply Permutation_trans; [apply Permutation_sym, Permutation_middle|]. apply perm_skip, IH.
  - exact IH.
Qed.

(* frame i has id i (frame_id = toc.frames.len() at insertion) *)
Definition dense (frames : list tframe) : Prop :=
  forall i f, nth_error frames i = Some f -> tf_id f = N.of_nat i.

Lemma dense_increasing frames : dense frames -> StronglySorted (fun f g => (tf_id f < tf_id g)%N) frames.
Proof. intros Hd. apply SS_of_nth. intros i j f g Hij Hi Hj. rewrite (Hd i f Hi), (Hd j g Hj). lia. Qed.

Lemma dense_nodup_ids frames : dense frames -> NoDup (map tf_id frames).
Proof. intros Hd. apply (SS_NoDup N.lt); [exact N.lt_irrefl|apply SS_map, dense_increasing, Hd]. Qed.

Lemma dense_lookup frames f : dense frames -> In f frames -> nth_error frames (N.to_nat (tf_id f)) = Some f.
Proof.
  intros Hd Hin. apply In_nth_error in Hin as [i Hi]. rewrite (Hd i f Hi), Nat2N.id. exact Hi.
Qed.

Lemma dense_inj frames f g : dense frames -> In f frames -> In g frames -> tf_id f = tf_id g -> f = g.
Proof.
  intros Hd Hf Hg E. pose proof (dense_lookup _ _ Hd Hf) as H1. pose proof (dense_lookup _ _ Hd Hg) as H2.
  rewrite E in H1. congruence.
Qed.

Lemma dense_nil : dense [].
Proof. intros [|i] f H; discriminate. Qed.

(* the entry points at an active frame that carries its timestamp and id, so the loop of
   build_timeline outputs exactly this entry *)
Definition resolves (frames : list tframe) (e : tentry) : Prop := resolve frames e = [swap_entry e].

Lemma resolves_entry_of frames f : dense frames -> In f frames -> active f = true -> resolves frames (entry_of f).
Proof.
  intros Hd Hin Ha. unfold resolves, resolve, entry_of, swap_entry. cbn [fst snd].
  rewrite (dense_lookup _ _ Hd Hin), Ha. reflexivity.
Qed.

Lemma flat_map_resolves frames l : Forall (resolves frames) l -> flat_map (resolve frames) l = map swap_entry l.
Proof.
  induction 1 as [|x r Hx _ IH]; cbn [flat_map map]; [reflexivity|]. rewrite Hx, IH. reflexivity.
Qed.

Definition ordered_of (q : tquery) (entries : list tentry) : list tentry :=
  let kept := filter (in_range (q_since q) (q_until q)) entries in
  if q_reverse q then rev kept else kept.

Definition limited (q : tquery) {A} (l : list A) : list A :=
  match q_limit q with None => l | Some k => firstn (N.to_nat k) l end.

Definition view (q : tquery) (l : list tentry) : list tentry := limited q (ordered_of q l).

Lemma timeline_spec_unfold frames q : timeline_spec frames q = map swap_entry (view q (timeline_all frames)).
Proof. reflexivity. Qed.

Lemma ordered_of_resolves frames q es : Forall (resolves frames) es -> Forall (resolves frames) (ordered_of q es).
Proof.
  intros H. unfold ordered_of. destruct (q_reverse q); [apply Forall_rev|]; apply Forall_filter, H.
Qed.

Lemma finish_resolves frames q es : Forall (resolves frames) es -> finish frames q es = map swap_entry (view q es).
Proof.
  intros Hg. unfold finish, view. fold (ordered_of q es).
  pose proof (ordered_of_resolves frames q es Hg) as Ho.
  rewrite flat_map_resolves.
  - unfold limited. destruct (q_limit q) as [k|]; [rewrite take_N_firstn|rewrite take_N_all]; reflexivity.
  - rewrite take_N_firstn. apply Forall_firstn, Ho.
Qed.

Definition image_frame (f : tframe) : bool := active f && is_image f.

Lemma role_disjoint f : indexed_frame f && image_frame f = false.
Proof. unfold indexed_frame, image_frame, is_document, is_image. destruct (active f); cbn [andb]; lia. Qed.

Lemma eligible_split f : eligible f = indexed_frame f || image_frame f.
Proof. unfold eligible, indexed_frame, image_frame. destruct (active f), (is_document f), (is_image f); reflexivity. Qed.

Lemma in_sorted_entries p frames e :
  In e (sort_entries (map entry_of (filter p frames))) <-> exists f, In f frames /\ p f = true /\ e = entry_of f.
Proof.
  split.
  - intros H. apply (Permutation_in _ (sort_entries_perm _)) in H.
    apply in_map_iff in H as (f & Hf & Hin). apply filter_In in Hin as [Hin Hp]. exists f; auto.
  - intros (f & Hin & Hp & ->). apply (Permutation_in _ (Permutation_sym (sort_entries_perm _))).
    apply in_map_iff. exists f; split; [reflexivity|]. apply filter_In; auto.
Qed.

Lemma in_time_entries frames e :
  In e (rebuild_time_index frames) <-> exists f, In f frames /\ indexed_frame f = true /\ e = entry_of f.
Proof. apply in_sorted_entries. Qed.

Lemma rebuild_sorted frames : esorted (rebuild_time_index frames).
Proof. apply sort_entries_sorted. Qed.

Lemma track_roundtrip es : read_track (append_track es) = Ok (sort_entries es).
Proof.
  unfold read_track, append_track, sort_entries.
  rewrite (sortedb_isort entry_leb entry_leb_total entry_leb_trans). reflexivity.
Qed.

Lemma read_track_rebuild frames : read_track (rebuild_time_index frames) = Ok (rebuild_time_index frames).
Proof. apply track_roundtrip. Qed.

Lemma read_track_accepts_iff track : read_track track = Ok track <-> esorted track.
Proof.
  unfold read_track. rewrite <- esortedb_iff. destruct (sortedb entry_leb track); split; try reflexivity; try discriminate.
Qed.

Lemma read_track_ok_same track out : read_track track = Ok out -> out = track /\ esorted track.
Proof.
  unfold read_track. destruct (sortedb entry_leb track) eqn:E; [|discriminate].
  intros H. inversion H; subst. split; [reflexivity|apply esortedb_iff, E].
Qed.

(* the `!indexed_ids.contains(&frame.id)` test never fires on an image frame: the index
   holds ids of Document frames only, and ids are unique *)
Lemma extra_images_rebuild frames :
  dense frames -> extra_images frames (rebuild_time_index frames) = map entry_of (filter image_frame frames).
Proof.
  intros Hd. unfold extra_images. f_equal. apply filter_ext_in. intros f Hin.
  unfold extra_image. fold (image_frame f). destruct (image_frame f) eqn:Ei; [|reflexivity].
  cbn [andb]. apply negb_true_iff. destruct (mem_id _ _) eqn:Em; [|reflexivity]. exfalso.
  apply (existsb_eqb_In _ N.eqb_eq) in Em.
  apply in_map_iff in Em as (e & He & Hein). apply in_time_entries in Hein as (g & Hg & Hpg & ->).
  cbn [entry_of snd] in He. assert (g = f) by (apply (dense_inj frames); auto). subst g.
  pose proof (role_disjoint f) as Hx. rewrite Hpg, Ei in Hx. discriminate.
Qed.

Lemma in_timeline_all frames e :
  In e (timeline_all frames) <-> exists f, In f frames /\ eligible f = true /\ e = entry_of f.
Proof. apply in_sorted_entries. Qed.

Lemma merged_perm_all frames : dense frames -> Permutation (merged_as_is frames) (timeline_all frames).
Proof.
  intros Hd. unfold merged_as_is. rewrite (extra_images_rebuild _ Hd).
  unfold rebuild_time_index, append_track, timeline_all, time_entries. rewrite !sort_entries_perm, <- map_app.
  apply Permutation_map. rewrite (filter_ext eligible (fun f => indexed_frame f || image_frame f) eligible_split).
  apply perm_filter_split, role_disjoint.
Qed.

Lemma merged_sorted_is_all frames : dense frames -> sort_entries (merged_as_is frames) = timeline_all frames.
Proof.
  intros Hd. rewrite (sort_entries_perm_eq _ _ (merged_perm_all _ Hd)). apply sort_entries_id, sort_entries_sorted.
Qed.

Lemma all_resolves frames : dense frames -> Forall (resolves frames) (timeline_all frames).
Proof.
  intros Hd. apply Forall_forall. intros e He. apply in_timeline_all in He as (f & Hin & Hp & ->).
  apply andb_true_iff in Hp. apply resolves_entry_of; [exact Hd|exact Hin|apply Hp].
Qed.

Lemma merged_resolves frames : dense frames -> Forall (resolves frames) (merged_as_is frames).
Proof.
  intros Hd. eapply Permutation_Forall; [apply Permutation_sym, merged_perm_all, Hd|apply all_resolves, Hd].
Qed.

Definition q_all : tquery := mkQ None None None false.

Lemma in_range_none l : filter (in_range None None) l = l.
Proof. induction l as [|x r IH]; cbn [filter in_range andb]; [reflexivity|]. rewrite IH; reflexivity. Qed.

Lemma view_all l : view q_all l = l.
Proof. unfold view, limited, ordered_of, q_all. cbn [q_limit q_since q_until q_reverse]. apply in_range_none. Qed.

Lemma swap_entry_inj l1 : forall l2, map swap_entry l1 = map swap_entry l2 -> l1 = l2.
Proof.
  induction l1 as [|[a b] r IH]; intros [|[c d] r2] H; cbn [map] in H; try discriminate; [reflexivity|].
  unfold swap_entry in H at 1 3. cbn [fst snd] in H. inversion H; subst. f_equal. apply IH; assumption.
Qed.

Lemma outside_known_iff frames :
  dense frames -> (known_class frames = false <-> merged_as_is frames = timeline_all frames).
Proof.
  intros Hd. unfold known_class. rewrite negb_false_iff, esortedb_iff.
  rewrite <- (merged_sorted_is_all _ Hd). split.
  - intros Hs. symmetry. apply sort_entries_id, Hs.
  - intros E. rewrite E. apply sort_entries_sorted.
Qed.

Lemma no_images_not_known frames :
  (forall f, In f frames -> active f && is_image f = false) -> known_class frames = false.
Proof.
  intros H. unfold known_class, merged_as_is, extra_images.
  rewrite (filter_none (extra_image (rebuild_time_index frames)) frames).
  - cbn [map]. rewrite app_nil_r. apply negb_false_iff, esortedb_iff, rebuild_sorted.
  - intros f Hin. unfold extra_image. rewrite (H f Hin). reflexivity.
Qed.

(* the stored index is the one rebuild_indexes writes for the table; it is still missing only
   while the table is empty (rebuild_indexes returns early then) *)
Definition index_ok (frames : list tframe) (index : option (list tentry)) : Prop :=
  index = Some (rebuild_time_index frames) \/ (index = None /\ frames = []).

Definition tinv (s : tstate) : Prop := dense (ts_frames s) /\ index_ok (ts_frames s) (ts_index s).

Lemma upd_nth_length {A} (g : A -> A) (l : list A) : forall n, length (upd_nth n g l) = length l.
Proof. induction l as [|x r IH]; intros [|n]; cbn [upd_nth length]; try reflexivity. rewrite IH; reflexivity. Qed.

Lemma upd_nth_nth {A} (g : A -> A) (l : list A) : forall n i y,
  nth_error (upd_nth n g l) i = Some y -> exists x, nth_error l i = Some x /\ (y = x \/ y = g x).
Proof.
  induction l as [|x r IH]; intros [|n] [|i] y H; cbn [upd_nth nth_error] in *; try discriminate.
  - inversion H; subst. exists x; auto.
  - exists y; auto.
  - inversion H; subst. exists y; auto.
  - apply (IH n i y H).
Qed.

Lemma dense_upd frames n st : dense frames -> dense (upd_nth n (fun g => set_status g st) frames).
Proof.
  intros Hd i y Hy. apply upd_nth_nth in Hy as (x & Hx & [->| ->]); [apply (Hd i x Hx)|].
  cbn [set_status tf_id]. apply (Hd i x Hx).
Qed.

Lemma dense_snoc frames ts role st :
  dense frames -> dense (frames ++ [mkTF (N.of_nat (length frames)) ts role st]).
Proof.
  intros Hd i f Hi. destruct (Nat.lt_ge_cases i (length frames)) as [Hlt|Hge].
  - rewrite nth_error_app1 in Hi by exact Hlt. apply (Hd i f Hi).
  - rewrite nth_error_app2 in Hi by exact Hge.
    destruct (i - length frames)%nat as [|k] eqn:Ek; cbn [nth_error] in Hi.
    + inversion Hi; subst. cbn [tf_id]. f_equal. lia.
    + destruct k; discriminate.
Qed.

Lemma apply_rec_dense frames r : dense frames -> dense (apply_rec frames r).
Proof.
  intros Hd. destruct r as [ts role [p|]|t]; cbn [apply_rec].
  - rewrite <- (upd_nth_length (fun g => set_status g 1) frames (N.to_nat p)). apply dense_snoc, dense_upd, Hd.
  - apply dense_snoc, Hd.
  - apply dense_upd, Hd.
Qed.

Lemma apply_rec_length frames r : (length frames <= length (apply_rec frames r))%nat.
Proof.
  destruct r as [ts role [p|]|t]; cbn [apply_rec]; rewrite ?app_length, ?upd_nth_length; cbn [length]; lia.
Qed.

Lemma rebuild_indexes_ok engines fr index :
  (fr = [] -> index_ok [] index) -> index_ok fr (rebuild_indexes engines fr index).
Proof.
  intros H. unfold rebuild_indexes. destruct fr as [|x r].
  - destruct engines; cbn [negb andb]; [left; reflexivity|apply H; reflexivity].
  - cbn [andb]. left; reflexivity.
Qed.

Lemma apply_pending_inv engines s : tinv s -> tinv (apply_pending engines s).
Proof.
  intros [Hd Hok]. unfold apply_pending. destruct (ts_pending s) as [|r rs] eqn:Ep; [split; assumption|].
  set (fr := fold_left apply_rec (r :: rs) (ts_frames s)). split; cbn [ts_frames ts_index].
  - apply fold_left_invariant; [intros a x; apply apply_rec_dense|exact Hd].
  - (* records only lengthen the table: if it is empty now it was empty before *)
    apply rebuild_indexes_ok. intros E.
    assert (Hl : (length (ts_frames s) <= length fr)%nat).
    { apply fold_left_invariant; [intros a x Ha; pose proof (apply_rec_length a x); lia|lia]. }
    rewrite E in Hl. destruct (ts_frames s); [exact Hok|cbn [length] in Hl; lia].
Qed.

Lemma tstep_inv engines s op : tinv s -> tinv (tstep engines s op).
Proof.
  intros Hi. destruct op as [ts role n|t ots role|t| | |force]; cbn [tstep].
  - exact Hi.
  - destruct (nth_error _ _) as [old|]; [destruct (active old)|]; exact Hi.
  - destruct (nth_error _ _) as [old|]; [destruct (active old)|]; exact Hi.
  - apply apply_pending_inv, Hi.
  - apply apply_pending_inv, Hi.
  - pose proof (apply_pending_inv engines s Hi) as [Hd Hok].
    destruct (force || _); [|split; assumption]. split; cbn [ts_frames ts_index]; [exact Hd|].
    apply rebuild_indexes_ok. intros E. rewrite E in Hok. exact Hok.
Qed.

Lemma tinv0 : tinv tstate0.
Proof. split; [apply dense_nil|right; split; reflexivity]. Qed.

Lemma trun_inv engines ops : tinv (trun engines ops).
Proof.
  unfold trun. apply fold_left_invariant; [intros s op; apply tstep_inv|apply tinv0].
Qed.

Theorem build_timeline_answers s q : tinv s ->
  build_timeline (ts_frames s) (ts_index s) q = Ok (map swap_entry (view q (merged_as_is (ts_frames s)))) /\
  build_timeline_fixed (ts_frames s) (ts_index s) q = Ok (timeline_spec (ts_frames s) q).
Proof.
  intros [Hd [Hi|[Hi Hf]]]; rewrite Hi; unfold build_timeline, build_timeline_fixed.
  - rewrite read_track_rebuild. cbn [bind_o]. fold (merged_as_is (ts_frames s)). rewrite (merged_sorted_is_all _ Hd).
    rewrite (finish_resolves (ts_frames s) q _ (merged_resolves _ Hd)),
            (finish_resolves (ts_frames s) q _ (all_resolves _ Hd)).
    split; reflexivity.
  - (* nothing stored and no index: code, repaired code and specification all view the empty list *)
    rewrite Hf. cbn [bind_o filter map]. rewrite (finish_resolves [] q [] (Forall_nil _)). split; reflexivity.
Qed.

Lemma fixed_reachable engines ops q :
  let s := trun engines ops in
  build_timeline_fixed (ts_frames s) (ts_index s) q = Ok (timeline_spec (ts_frames s) q).
Proof. apply build_timeline_answers, trun_inv. Qed.

Lemma build_timeline_outside_known s q : tinv s -> known_class (ts_frames s) = false ->
  build_timeline (ts_frames s) (ts_index s) q = Ok (timeline_spec (ts_frames s) q).
Proof.
  intros Hi Hk. rewrite (proj1 (build_timeline_answers s q Hi)), (proj1 (outside_known_iff _ (proj1 Hi)) Hk). reflexivity.
Qed.

(* inside it the unrestricted query shows the assembled list itself, which is not the sorted one *)
Lemma known_class_exact s : tinv s -> known_class (ts_frames s) = true ->
  build_timeline (ts_frames s) (ts_index s) q_all <> Ok (timeline_spec (ts_frames s) q_all).
Proof.
  intros Hi Hk E. rewrite (proj1 (build_timeline_answers s q_all Hi)), timeline_spec_unfold, !view_all in E.
  apply Ok_inj, swap_entry_inj, (outside_known_iff _ (proj1 Hi)) in E. congruence.
Qed.

Definition out_le (a b : N * Z) : Prop := entry_leb (snd a, fst a) (snd b, fst b) = true.

Lemma all_nodup_ids frames : dense frames -> NoDup (map snd (timeline_all frames)).
Proof.
  intros Hd. unfold timeline_all.
  eapply Permutation_NoDup; [apply Permutation_map, Permutation_sym, sort_entries_perm|].
  rewrite map_map. cbn [entry_of snd]. apply nodup_map_filter, dense_nodup_ids, Hd.
Qed.

Lemma spec_nodup_ids frames q : dense frames -> NoDup (map fst (timeline_spec frames q)).
Proof.
  intros Hd. rewrite timeline_spec_unfold, map_map. cbn [swap_entry fst].
  pose proof (all_nodup_ids _ Hd) as Hn.
  assert (Ho : NoDup (map snd (ordered_of q (timeline_all frames)))).
  { unfold ordered_of. destruct (q_reverse q).
    - rewrite map_rev. apply NoDup_rev, nodup_map_filter, Hn.
    - apply nodup_map_filter, Hn. }
  unfold view, limited. destruct (q_limit q); [apply nodup_map_firstn|]; exact Ho.
Qed.

Lemma in_range_spec since until e :
  in_range since until e = true <->
  (forall s, since = Some s -> (s <= fst e)%Z) /\ (forall u, until = Some u -> (fst e <= u)%Z).
Proof.
  unfold in_range. rewrite andb_true_iff.
  rewrite <- (option_test_spec _ _ _ since (fun s => Z.leb_le s (fst e))),
          <- (option_test_spec _ _ _ until (fun u => Z.leb_le (fst e) u)).
  reflexivity.
Qed.

Lemma spec_membership frames since until rv id ts :
  In (id, ts) (timeline_spec frames (mkQ None since until rv)) <->
  (exists f, In f frames /\ eligible f = true /\ tf_id f = id /\ tf_ts f = ts) /\
  (forall s, since = Some s -> (s <= ts)%Z) /\ (forall u, until = Some u -> (ts <= u)%Z).
Proof.
  rewrite timeline_spec_unfold. unfold view, limited, ordered_of. cbn [q_limit q_since q_until q_reverse].
  assert (Hrev : forall l : list tentry, In (id, ts) (map swap_entry (if rv then rev l else l)) <-> In (ts, id) l).
  { intros l. rewrite in_map_iff. split.
    - intros ([t i] & E & Hin). unfold swap_entry in E; cbn [fst snd] in E. inversion E; subst.
      destruct rv; [apply in_rev|]; exact Hin.
    - intros Hin. exists (ts, id). split; [reflexivity|]. destruct rv; [apply -> in_rev|]; exact Hin. }
  rewrite Hrev, filter_In, in_timeline_all, in_range_spec. cbn [fst]. split.
  - intros [(f & Hin & Hp & E) Hb]. unfold entry_of in E. inversion E; subst. split; [exists f; auto|exact Hb].
  - intros [(f & Hin & Hp & <- & <-) Hb]. split; [exists f; auto|exact Hb].
Qed.

Lemma spec_limit_prefix frames k since until rv :
  timeline_spec frames (mkQ (Some k) since until rv) =
  firstn (N.to_nat k) (timeline_spec frames (mkQ None since until rv)).
Proof. rewrite !timeline_spec_unfold. unfold view, limited. cbn [q_limit]. rewrite firstn_map. reflexivity. Qed.

Lemma spec_reverse frames since until :
  timeline_spec frames (mkQ None since until true) = rev (timeline_spec frames (mkQ None since until false)).
Proof. rewrite !timeline_spec_unfold. unfold view, limited, ordered_of. cbn [q_limit q_since q_until q_reverse]. apply map_rev. Qed.

Lemma spec_limit_length frames k since until rv :
  length (timeline_spec frames (mkQ (Some k) since until rv)) =
  Nat.min (N.to_nat k) (length (timeline_spec frames (mkQ None since until rv))).
Proof. rewrite spec_limit_prefix. apply firstn_length. Qed.

Lemma images_sorted frames :
  dense frames ->
  (forall i j, In i frames -> In j frames -> image_frame i = true -> image_frame j = true ->
               (tf_id i < tf_id j)%N -> (tf_ts i <= tf_ts j)%Z) ->
  esorted (map entry_of (filter image_frame frames)).
Proof.
  intros Hd H. apply SS_map. apply (SS_impl_In _ _ _ (SS_filter _ image_frame _ (dense_increasing _ Hd))).
  intros i j Hi Hj Hlt. apply filter_In in Hi as [Hi Ei]. apply filter_In in Hj as [Hj Ej].
  pose proof (H i j Hi Hj Ei Ej Hlt). unfold le, entry_leb, entry_of. cbn [fst snd]. lia.
Qed.
