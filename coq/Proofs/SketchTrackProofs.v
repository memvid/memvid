(* Model/Sketch.v, write_sketch_track / read_sketch_track.  A record is read back field by field
   with field_at (Base/Facts.v) over the list fs of the fields that were written; what comes back
   is norm_entry of each entry, readback of the track.  The _fix lemmas up to readback_fix say
   for which tracks that is the track written (known_class = false).  track_of builds a track by
   inserts, as the API does. *)
From MV Require Import Base.Prelude Base.Facts Model.Sketch.
Local Open Scope N_scope.

Lemma pad_length {A} (d : A) n l : length (pad d n l) = n.
Proof. unfold pad. rewrite firstn_length, app_length, repeat_length. lia. Qed.

Lemma pad_fix {A} (d : A) n l : pad d n l = l <-> length l = n.
Proof.
  split.
  - intros E. rewrite <- E. apply pad_length.
  - intros <-. unfold pad. apply firstn_app_exact. reflexivity.
Qed.

Lemma pad_forallb {A} (P : A -> bool) d n l :
  P d = true -> forallb P l = true -> forallb P (pad d n l) = true.
Proof.
  intros Hd Hl. apply forallb_forall. intros x Hx. apply In_firstn, in_app_or in Hx as [Hx|Hx].
  - eapply forallb_forall in Hl; eauto.
  - apply repeat_spec in Hx. subst x. exact Hd.
Qed.

Lemma enc_u32s_length l : length (enc_u32s l) = (4 * length l)%nat.
Proof.
  induction l as [|x r IH]; [reflexivity|].
  unfold enc_u32s in *. cbn [flat_map]. rewrite app_length, le_encode_length, IH. cbn [length]. lia.
Qed.

Lemma small_filter_length f : length (small_filter f) = 16%nat.
Proof.
  unfold small_filter, TERM_FILTER_SIZE_SMALL. destruct (Nat.leb_spec 16 (length f)).
  - rewrite firstn_length. lia.
  - apply repeat_length.
Qed.

Lemma small_filter_fix f : small_filter f = f <-> length f = 16%nat.
Proof.
  split.
  - intros E. rewrite <- E. apply small_filter_length.
  - intros E. unfold small_filter, TERM_FILTER_SIZE_SMALL. rewrite E. cbn [Nat.leb].
    rewrite <- E. apply firstn_all.
Qed.

Lemma medium_filter_pad f : medium_filter f = pad 0 TERM_FILTER_SIZE_MEDIUM f.
Proof.
  unfold medium_filter, pad. rewrite firstn_app.
  destruct (Nat.leb_spec TERM_FILTER_SIZE_MEDIUM (length f)) as [H|H].
  - replace (TERM_FILTER_SIZE_MEDIUM - length f)%nat with 0%nat by lia. symmetry. apply app_nil_r.
  - rewrite firstn_all2 by lia. f_equal.
    replace TERM_FILTER_SIZE_MEDIUM with ((TERM_FILTER_SIZE_MEDIUM - length f) + length f)%nat at 3 by lia.
    rewrite repeat_app. symmetry. apply firstn_app_exact. symmetry; apply repeat_length.
Qed.

Lemma to_small_bytes_length e : length (to_small_bytes e) = 32%nat.
Proof.
  unfold to_small_bytes. rewrite !app_length, le_encode_length, small_filter_length, enc_u32s_length, pad_length.
  reflexivity.
Qed.

Lemma to_medium_bytes_length e : length (to_medium_bytes e) = 64%nat.
Proof.
  unfold to_medium_bytes.
  rewrite medium_filter_pad, !app_length, !le_encode_length, enc_u32s_length, !pad_length. reflexivity.
Qed.

Lemma entry_bytes_length v e : length (entry_bytes v e) = entry_size v.
Proof.
  destruct v; cbn [entry_bytes entry_size].
  - apply to_small_bytes_length.
  - apply to_medium_bytes_length.
  - rewrite app_length, to_medium_bytes_length, repeat_length. reflexivity.
Qed.

Lemma header_bytes_length v n : length (header_bytes v n) = 24%nat.
Proof. unfold header_bytes. rewrite !app_length, !le_encode_length. reflexivity. Qed.

Lemma flat_entry_bytes_length v l :
  length (flat_map (entry_bytes v) l) = (length l * entry_size v)%nat.
Proof.
  induction l as [|e r IH]; [reflexivity|].
  cbn [flat_map length]. rewrite app_length, entry_bytes_length, IH. lia.
Qed.

Lemma list2 {A} (l : list A) : length l = 2%nat -> exists a b, l = [a; b].
Proof. destruct l as [|a [|b [|c r]]]; try discriminate. eauto. Qed.
Lemma list4 {A} (l : list A) : length l = 4%nat -> exists a b c d, l = [a; b; c; d].
Proof. destruct l as [|a [|b [|c [|d [|x r]]]]]; try discriminate. intros _. exists a, b, c, d. reflexivity. Qed.

Lemma entry_wf_inv e :
  entry_wf e = true ->
  e_frame_id e < 2 ^ 64 /\ e_simhash e < 2 ^ 64 /\ bytes_ok (e_filter e) = true /\
  forallb (fun x => x <? 2 ^ 32) (e_top e) = true /\
  e_wsum e < 2 ^ 16 /\ e_flags e < 2 ^ 16 /\ e_len e < 2 ^ 16.
Proof.
  unfold entry_wf. rewrite !andb_true_iff, !N.ltb_lt. tauto.
Qed.

Lemma from_small_to_small i e :
  entry_wf e = true -> from_small_bytes i (to_small_bytes e) = norm_entry Small i e.
Proof.
  intros Hwf. apply entry_wf_inv in Hwf as (_ & Hs & _ & Ht & _).
  pose proof (pad_forallb _ 0 TOP_TERMS_COUNT_SMALL _ eq_refl Ht) as Hp.
  unfold to_small_bytes, norm_entry, enc_u32s.
  destruct (list2 (pad 0 TOP_TERMS_COUNT_SMALL (e_top e)) (pad_length 0 TOP_TERMS_COUNT_SMALL (e_top e))) as (a & b & Ep).
  rewrite Ep in *. cbn [forallb] in Hp. rewrite !andb_true_iff, !N.ltb_lt in Hp. destruct Hp as (Ha & Hb & _).
  set (fs := [le_encode 8 (e_simhash e); small_filter (e_filter e); le_encode 4 a; le_encode 4 b]).
  change (from_small_bytes i (concat fs) = mkEntry i (e_simhash e) (small_filter (e_filter e)) [a; b] 0 FLAGS_ALL 0).
  assert (F : map (@length N) fs = [8; 16; 4; 4]%nat)
    by (cbn [map fs]; rewrite !le_encode_length, small_filter_length; reflexivity).
  unfold from_small_bytes, u64_at, u32_at.
  rewrite (field_at fs _ 0 0 8 F), (field_at fs _ 1 8 16 F), (field_at fs _ 2 24 4 F), (field_at fs _ 3 28 4 F)
    by reflexivity.
  cbn [nth fs]. rewrite !le_decode_encode by assumption. reflexivity.
Qed.

Lemma from_medium_to_medium i e :
  entry_wf e = true -> from_medium_bytes i (to_medium_bytes e) = norm_entry Medium i e.
Proof.
  intros Hwf. apply entry_wf_inv in Hwf as (_ & Hs & _ & Ht & Hw & Hf & Hl).
  pose proof (pad_forallb _ 0 TOP_TERMS_COUNT_MEDIUM _ eq_refl Ht) as Hp.
  unfold to_medium_bytes, norm_entry, enc_u32s.
  destruct (list4 (pad 0 TOP_TERMS_COUNT_MEDIUM (e_top e)) (pad_length 0 TOP_TERMS_COUNT_MEDIUM (e_top e)))
    as (a & b & c & d & Ep).
  rewrite Ep in *. cbn [forallb] in Hp. rewrite !andb_true_iff, !N.ltb_lt in Hp.
  destruct Hp as (Ha & Hb & Hc & Hd & _).
  set (fs := [le_encode 8 (e_simhash e); medium_filter (e_filter e);
              le_encode 4 a; le_encode 4 b; le_encode 4 c; le_encode 4 d;
              le_encode 2 (e_wsum e); le_encode 2 (e_flags e); le_encode 2 (e_len e); le_encode 2 0]).
  cbn [flat_map]. rewrite <- !app_assoc.
  change (from_medium_bytes i (concat fs)
          = mkEntry i (e_simhash e) (medium_filter (e_filter e)) [a; b; c; d] (e_wsum e) (e_flags e) (e_len e)).
  assert (F : map (@length N) fs = [8; 32; 4; 4; 4; 4; 2; 2; 2; 2]%nat)
    by (cbn [map fs]; rewrite !le_encode_length, medium_filter_pad, pad_length; reflexivity).
  unfold from_medium_bytes, u64_at, u32_at, u16_at.
  rewrite (field_at fs _ 0 0 8 F), (field_at fs _ 1 8 32 F),
    (field_at fs _ 2 40 4 F), (field_at fs _ 3 44 4 F), (field_at fs _ 4 48 4 F), (field_at fs _ 5 52 4 F),
    (field_at fs _ 6 56 2 F), (field_at fs _ 7 58 2 F), (field_at fs _ 8 60 2 F) by reflexivity.
  cbn [nth fs]. rewrite !le_decode_encode by assumption. reflexivity.
Qed.

Lemma parse_entry_bytes v i e :
  entry_wf e = true -> parse_entry v i (entry_bytes v e) = norm_entry v i e.
Proof.
  intros Hwf. destruct v; cbn [parse_entry entry_bytes].
  - apply from_small_to_small. exact Hwf.
  - rewrite firstn_all2 by (rewrite to_medium_bytes_length; unfold ENTRY_SIZE_MEDIUM; lia).
    apply from_medium_to_medium. exact Hwf.
  - rewrite firstn_app_exact by (symmetry; apply to_medium_bytes_length).
    apply from_medium_to_medium. exact Hwf.
Qed.

Lemma insert_fresh l e :
  (forall x, In x l -> e_frame_id x <> e_frame_id e) -> insert_entry l e = l ++ [e].
Proof.
  induction l as [|x r IH]; intros H; cbn [insert_entry app]; [reflexivity|].
  destruct (N.eqb_spec (e_frame_id x) (e_frame_id e)) as [E|_].
  - exfalso. apply (H x); [left; reflexivity | exact E].
  - rewrite IH; [reflexivity|]. intros y Hy. apply H. right. exact Hy.
Qed.

Lemma norm_entry_id v i e : e_frame_id (norm_entry v i e) = i.
Proof. destruct v; reflexivity. Qed.

(* the loop numbers the entries i, i+1, ..; every id already in acc is below i, so each
   insert appends *)
Lemma read_entries_flat v l : forall i acc suf,
  forallb entry_wf l = true ->
  (forall x, In x acc -> e_frame_id x < i) ->
  read_entries v (length l) i (flat_map (entry_bytes v) l ++ suf) acc = Ok (acc ++ norm_from v i l).
Proof.
  induction l as [|e r IH]; intros i acc suf Hwf Hacc.
  - cbn [length read_entries norm_from]. rewrite app_nil_r. reflexivity.
  - cbn [forallb] in Hwf. apply andb_true_iff in Hwf as [He Hr].
    cbn [length read_entries norm_from flat_map]. rewrite <- app_assoc.
    assert (Hlt : Nat.ltb (length (entry_bytes v e ++ flat_map (entry_bytes v) r ++ suf)) (entry_size v) = false).
    { apply Nat.ltb_ge. rewrite app_length, entry_bytes_length. lia. }
    rewrite Hlt.
    rewrite firstn_app_exact by (symmetry; apply entry_bytes_length).
    rewrite skipn_app_exact by (symmetry; apply entry_bytes_length).
    rewrite parse_entry_bytes by exact He.
    rewrite insert_fresh.
    + rewrite IH; [rewrite <- app_assoc; reflexivity | exact Hr |].
      intros x Hx. apply in_app_or in Hx as [Hx|[<-|[]]].
      * specialize (Hacc x Hx). lia.
      * rewrite norm_entry_id. lia.
    + intros x Hx. rewrite norm_entry_id. specialize (Hacc x Hx). lia.
Qed.

Lemma variant_of_entry_size v : variant_of_size (N.of_nat (entry_size v)) = Some v.
Proof. destruct v; reflexivity. Qed.

Lemma header_fields v n :
  n < 2 ^ 64 ->
  slice (header_bytes v n) 0 4 = SKETCH_TRACK_MAGIC /\
  u16_at (header_bytes v n) 6 = N.of_nat (entry_size v) /\
  u64_at (header_bytes v n) 8 = n.
Proof.
  intros Hn.
  set (fs := [SKETCH_TRACK_MAGIC; le_encode 2 SKETCH_TRACK_VERSION; le_encode 2 (N.of_nat (entry_size v));
              le_encode 8 n; le_encode 4 0; le_encode 4 0]).
  change (header_bytes v n) with (concat fs).
  assert (F : map (@length N) fs = [4; 2; 2; 8; 4; 4]%nat)
    by (cbn [map fs]; rewrite !le_encode_length; reflexivity).
  unfold u16_at, u64_at.
  rewrite (field_at fs _ 0 0 4 F), (field_at fs _ 2 6 2 F), (field_at fs _ 3 8 8 F) by reflexivity.
  cbn [nth fs]. rewrite (le_decode_encode 8 n Hn), le_decode_encode by (destruct v; reflexivity).
  split; [reflexivity|]. split; reflexivity.
Qed.

(* the hypotheses: the n entries fit u64 arithmetic, the given length, and the data *)
Lemma read_at_header pre v n rest len :
  24 + n * N.of_nat (entry_size v) < 2 ^ 64 ->
  24 + n * N.of_nat (entry_size v) <= len ->
  n * N.of_nat (entry_size v) <= N.of_nat (length rest) ->
  read_sketch_track (pre ++ header_bytes v n ++ rest) (N.of_nat (length pre)) len
  = match read_entries v (N.to_nat n) 0 rest [] with
    | Ok es => Ok (mkTrack v es)
    | Err k => Err k
    | Panic s => Panic s
    end.
Proof.
  intros Hfit Hlen Hrest.
  assert (Hes : 32 <= N.of_nat (entry_size v)) by (destruct v; cbv; discriminate).
  destruct (header_fields v n) as (Hmagic & Hesz & Hcount); [nia|].
  pose proof (header_bytes_length v n) as HlenH. set (H := header_bytes v n) in *.
  unfold read_sketch_track.
  assert (E1 : (N.of_nat (length (pre ++ H ++ rest)) <? N.of_nat (length pre)) = false)
    by (apply N.ltb_ge; rewrite app_length; lia).
  rewrite E1, Nat2N.id, skipn_app_exact by reflexivity.
  assert (E2 : Nat.ltb (length (H ++ rest)) SKETCH_HEADER_SIZE = false)
    by (apply Nat.ltb_ge; rewrite app_length, HlenH; unfold SKETCH_HEADER_SIZE; lia).
  rewrite E2. cbv zeta. unfold SKETCH_HEADER_SIZE.
  rewrite (firstn_app_exact H), (skipn_app_exact H) by (symmetry; exact HlenH).
  rewrite Hmagic, bytes_eqb_refl. cbn [negb]. rewrite Hesz, Hcount, variant_of_entry_size.
  assert (E3 : (2 ^ 64 <=? n * N.of_nat (entry_size v)) = false) by (apply N.leb_gt; lia).
  assert (E4 : (2 ^ 64 <=? N.of_nat 24 + n * N.of_nat (entry_size v)) = false) by (apply N.leb_gt; lia).
  assert (E5 : (len <? N.of_nat 24 + n * N.of_nat (entry_size v)) = false) by (apply N.ltb_ge; lia).
  assert (E6 : (N.of_nat (length rest) / N.of_nat (entry_size v) <? n) = false)
    by (apply N.ltb_ge, N.div_le_lower_bound; lia).
  rewrite E3, E4, E5, E6. reflexivity.
Qed.

Theorem read_write_readback pre suf t :
  track_wf t = true ->
  read_sketch_track (pre ++ write_sketch_track t ++ suf)
                    (N.of_nat (length pre)) (N.of_nat (length (write_sketch_track t)))
  = Ok (readback t).
Proof.
  destruct t as [v l]. unfold track_wf, write_sketch_track, readback. cbn [t_variant t_entries].
  intros Hwf. apply andb_true_iff in Hwf as [Hwf Hfit]. apply N.ltb_lt in Hfit.
  assert (Hes : N.of_nat (entry_size v) <= 96) by (destruct v; cbv; discriminate).
  rewrite <- app_assoc, read_at_header.
  - rewrite Nat2N.id, read_entries_flat; [reflexivity | exact Hwf | intros x []].
  - nia.
  - rewrite app_length, header_bytes_length, flat_entry_bytes_length. lia.
  - rewrite app_length, flat_entry_bytes_length. lia.
Qed.

Lemma norm_medium_fix i e :
  norm_entry Medium i e = e <->
  e_frame_id e = i /\ length (e_filter e) = 32%nat /\ length (e_top e) = 4%nat.
Proof.
  destruct e as [fid sh flt top ws fl ln]. cbn [norm_entry e_frame_id e_simhash e_filter e_top e_wsum e_flags e_len].
  rewrite <- (pad_fix 0 TERM_FILTER_SIZE_MEDIUM), <- medium_filter_pad, <- (pad_fix 0 TOP_TERMS_COUNT_MEDIUM). split.
  - intros E. injection E as E1 E2 E3. auto.
  - intros (-> & -> & ->). reflexivity.
Qed.

Lemma norm_entry_fix v i e :
  norm_entry v i e = e <-> (e_frame_id e = i /\ shape_ok v e = true /\ small_fields_ok v e = true).
Proof.
  unfold shape_ok, small_fields_ok. rewrite andb_true_iff, !Nat.eqb_eq.
  destruct v.
  - destruct e as [fid sh flt top ws fl ln].
    cbn [norm_entry disk_filter_size disk_top_count e_frame_id e_simhash e_filter e_top e_wsum e_flags e_len].
    rewrite !andb_true_iff, !N.eqb_eq, <- small_filter_fix, <- (pad_fix 0 TOP_TERMS_COUNT_SMALL). split.
    + intros E. injection E as <- E2 E3 <- <- <-.
      split; [reflexivity|]. split; [exact (conj E2 E3)|]. split; [split|]; reflexivity.
    + intros (-> & (-> & ->) & (-> & ->) & ->). reflexivity.
  - rewrite norm_medium_fix. tauto.
  - (* Large is stored as Medium *)
    change (norm_entry Large i e) with (norm_entry Medium i e). rewrite norm_medium_fix. tauto.
Qed.

Lemma norm_from_fix v l : forall i,
  norm_from v i l = l <->
  (map e_frame_id l = nseq i (length l) /\ forallb (shape_ok v) l = true /\ forallb (small_fields_ok v) l = true).
Proof.
  induction l as [|e r IH]; intros i; cbn [norm_from map length nseq forallb].
  - tauto.
  - rewrite !andb_true_iff. split.
    + intros E. injection E as E1 E2. apply norm_entry_fix in E1 as (Hi & Hs & Hf).
      apply IH in E2 as (Hm & Hs' & Hf'). rewrite Hi, Hm. auto.
    + intros (Hm & (Hs & Hs') & (Hf & Hf')). injection Hm as Hi Hm.
      f_equal; [apply norm_entry_fix; auto | apply IH; auto].
Qed.

Theorem readback_fix t : readback t = t <-> known_class t = false.
Proof.
  destruct t as [v l]. unfold readback, known_class, known_ids, known_shape, known_small_fields.
  cbn [t_variant t_entries]. rewrite !orb_false_iff, !negb_false_iff.
  rewrite (list_eqb_spec N.eqb N.eqb_eq).
  pose proof (norm_from_fix v l 0) as F. split.
  - intros E. injection E as E. apply F in E. tauto.
  - intros Hk. f_equal. apply F. tauto.
Qed.

Theorem roundtrip_iff pre suf t :
  track_wf t = true ->
  (read_sketch_track (pre ++ write_sketch_track t ++ suf)
                     (N.of_nat (length pre)) (N.of_nat (length (write_sketch_track t))) = Ok t
   <-> known_class t = false).
Proof.
  intros Hwf. rewrite read_write_readback by exact Hwf. rewrite <- readback_fix. split.
  - intros E. injection E as E. exact E.
  - intros ->. reflexivity.
Qed.

(* building a track by inserts, as the API does *)
Definition track_of (v : variant) (ops : list entry) : track := fold_left track_insert ops (track_new v).

Lemma track_of_snoc v ops e : track_of v (ops ++ [e]) = track_insert (track_of v ops) e.
Proof. unfold track_of. rewrite fold_left_app. reflexivity. Qed.

Lemma track_of_variant v ops : t_variant (track_of v ops) = v.
Proof.
  induction ops as [|e ops IH] using rev_ind; [reflexivity|]. rewrite track_of_snoc. exact IH.
Qed.

Lemma insert_entry_wf l e :
  forallb entry_wf l = true -> entry_wf e = true -> forallb entry_wf (insert_entry l e) = true.
Proof.
  intros Hl He. induction l as [|x r IH]; cbn [insert_entry forallb]; [rewrite He; reflexivity|].
  cbn [forallb] in Hl. apply andb_true_iff in Hl as [Hx Hr].
  destruct (e_frame_id x =? e_frame_id e); cbn [forallb].
  - rewrite He, Hr. reflexivity.
  - rewrite Hx, (IH Hr). reflexivity.
Qed.

Lemma insert_entry_length_le l e : (length (insert_entry l e) <= S (length l))%nat.
Proof. induction l as [|x r IH]; cbn [insert_entry length]; [lia|]. destruct (_ =? _); cbn [length]; lia. Qed.

Lemma track_of_wf_entries v ops :
  forallb entry_wf ops = true ->
  forallb entry_wf (t_entries (track_of v ops)) = true /\ (length (t_entries (track_of v ops)) <= length ops)%nat.
Proof.
  induction ops as [|e ops IH] using rev_ind; intros Hops; [split; [reflexivity | apply Nat.le_refl]|].
  rewrite forallb_app in Hops. cbn [forallb] in Hops. rewrite andb_true_r in Hops.
  apply andb_true_iff in Hops as [Hops He]. destruct (IH Hops) as [Hwf Hlen].
  rewrite track_of_snoc, app_length. cbn [track_insert t_entries length]. split.
  - apply insert_entry_wf; assumption.
  - pose proof (insert_entry_length_le (t_entries (track_of v ops)) e). lia.
Qed.
