(* Round trip of the bincode model (Model/Bincode.v): dec s (enc s v ++ rest) = Ok (v, rest) for
   every schema whose Vec elements occupy at least a byte (schema_ok, enc_nonzero) and every
   well-typed value (wt), by induction over the children of a schema (schema_strong_ind); lists of
   fields go through seq_roundtrip, maps through dec_map_enc. *)
From MV Require Import Base.Prelude Base.Facts Model.Bincode.
Local Open Scope N_scope.

Definition children (s : schema) : list schema :=
  match s with
  | SOpt s' | SVec _ s' | SMap _ s' | SArr _ s' => [s']
  | STup l => l
  | _ => []
  end.

Lemma schema_strong_ind (P : schema -> Prop) :
  (forall s, (forall c, In c (children s) -> P c) -> P s) -> forall s, P s.
Proof.
  intros H. fix IH 1. intros s. apply H.
  (* at most one child, the structural argument; STup is left, by induction on its list *)
  destruct s; cbn [children]; try solve [intros c []]; try solve [intros c [<-|[]]; apply IH].
  match goal with ll : list schema |- _ => induction ll as [|x r IHl] end; intros c Hin; [destruct Hin|].
  destruct Hin as [<-|Hin]; [apply IH | apply IHl; exact Hin].
Qed.

Lemma map_repeat {A B} (f : A -> B) x n : map f (repeat x n) = repeat (f x) n.
Proof. induction n as [|n IH]; [reflexivity|]. cbn [repeat map]. rewrite IH. reflexivity. Qed.

Lemma take_app k a rest : length a = k -> take k (a ++ rest) = Ok (a, rest).
Proof.
  intros HL. unfold take. rewrite app_length, HL.
  replace (Nat.ltb (k + length rest) k) with false by lia.
  rewrite firstn_app_exact, skipn_app_exact by (symmetry; exact HL). reflexivity.
Qed.

(* The bound is a Prop: with k a numeral it is convertible with the power of two wt tests (N.ltb_lt).
   The boolean forms are too, but the kernel then evaluates both powers under N.ltb without
   sharing, in steps exponential in k. *)
Lemma dec_uint_enc k n rest : n < 256 ^ N.of_nat k -> dec_uint k (le_encode k n ++ rest) = Ok (n, rest).
Proof.
  intros Hn. unfold dec_uint. rewrite take_app by apply le_encode_length. cbn [bind fst snd].
  rewrite le_decode_encode by exact Hn. reflexivity.
Qed.

Lemma dec_blob_enc b rest : N.of_nat (length b) < 2 ^ 64 -> dec_blob (enc_blob b ++ rest) = Ok (b, rest).
Proof.
  intros HL. unfold dec_blob, enc_blob. rewrite <- app_assoc, dec_uint_enc by exact HL. cbn [bind fst snd].
  rewrite app_length. replace (N.of_nat (length b + length rest) <? N.of_nat (length b)) with false by lia.
  rewrite Nat2N.id, firstn_app_exact, skipn_app_exact by reflexivity. reflexivity.
Qed.

Lemma dec_string_enc b rest : str_ok b = true -> dec_string (enc_blob b ++ rest) = Ok (b, rest).
Proof.
  unfold str_ok. rewrite !andb_true_iff, N.ltb_lt. intros [[_ Hu] HL].
  unfold dec_string. rewrite dec_blob_enc by exact HL. cbn [bind fst]. rewrite Hu. reflexivity.
Qed.

Definition roundtrips (s : schema) : Prop :=
  forall v rest, wt s v = true -> dec s (enc s v ++ rest) = Ok (v, rest).

Lemma seq_roundtrip (ss : list schema) :
  (forall c, In c ss -> roundtrips c) ->
  forall vs rest, wt_seq (map wt ss) vs = true ->
    dec_seq (map dec ss) (enc_seq (map enc ss) vs ++ rest) = Ok (vs, rest).
Proof.
  induction ss as [|s ss IH]; intros Hrt vs rest Hwt.
  - destruct vs; [reflexivity | discriminate].
  - destruct vs as [|v vs]; [discriminate|]. cbn [map wt_seq] in Hwt. apply andb_true_iff in Hwt as [Hv Hvs].
    cbn [map enc_seq dec_seq]. rewrite <- app_assoc, (Hrt s (or_introl eq_refl) v _ Hv). cbn [bind fst snd].
    rewrite (IH (fun c Hc => Hrt c (or_intror Hc)) vs rest Hvs). reflexivity.
Qed.

Lemma seq_roundtrip_repeat s n :
  roundtrips s -> forall vs rest, wt_seq (repeat (wt s) n) vs = true ->
    dec_seq (repeat (dec s) n) (enc_seq (repeat (enc s) n) vs ++ rest) = Ok (vs, rest).
Proof.
  intros Hs vs rest Hwt. rewrite <- !map_repeat in *. apply seq_roundtrip; [|exact Hwt].
  intros c Hc. apply repeat_spec in Hc. subst c. exact Hs.
Qed.

Lemma wt_seq_repeat f l : wt_seq (repeat f (length l)) l = forallb f l.
Proof. induction l as [|v l IH]; [reflexivity|]. cbn [length repeat wt_seq forallb]. rewrite IH. reflexivity. Qed.

Lemma wt_seq_length fs vs : wt_seq fs vs = true -> length vs = length fs.
Proof.
  revert vs; induction fs as [|f fs IH]; intros [|v vs] H; try discriminate; [reflexivity|].
  cbn [wt_seq] in H. apply andb_true_iff in H as [_ H]. cbn [length]. rewrite (IH _ H). reflexivity.
Qed.

Lemma enc_seq_exists_length (ss : list schema) :
  (forall c, In c ss -> nonzero c = true -> forall v, wt c v = true -> (1 <= length (enc c v))%nat) ->
  existsb nonzero ss = true ->
  forall vs, wt_seq (map wt ss) vs = true -> (1 <= length (enc_seq (map enc ss) vs))%nat.
Proof.
  induction ss as [|s ss IH]; intros Hss Hex vs Hwt; [discriminate|].
  destruct vs as [|v vs]; [discriminate|]. cbn [map wt_seq] in Hwt. apply andb_true_iff in Hwt as [Hv Hvs].
  cbn [map enc_seq]. rewrite app_length.
  cbn [existsb] in Hex. apply orb_true_iff in Hex as [Hn|Hn].
  - pose proof (Hss s (or_introl eq_refl) Hn v Hv). lia.
  - pose proof (IH (fun c Hc => Hss c (or_intror Hc)) Hn vs Hvs). lia.
Qed.

Lemma enc_nonzero : forall s, nonzero s = true -> forall v, wt s v = true -> (1 <= length (enc s v))%nat.
Proof.
  apply (schema_strong_ind (fun s => nonzero s = true -> forall v, wt s v = true -> (1 <= length (enc s v))%nat)).
  intros s IH Hnz v Hwt.
  destruct s; destruct v; cbn [wt] in Hwt; try discriminate Hwt; cbn [enc].
  (* all but SFix, SArr, STup begin with a fixed number of bytes, at least one *)
  - rewrite le_encode_length. lia.
  - rewrite le_encode_length. lia.
  - rewrite le_encode_length. lia.
  - rewrite le_encode_length. lia.
  - rewrite le_encode_length. lia.
  - cbn [length]. lia.
  - rewrite le_encode_length. lia.
  - unfold enc_blob. rewrite app_length, le_encode_length. lia.
  - unfold enc_blob. rewrite app_length, le_encode_length. lia.
  - (* SFix *) cbn [nonzero] in Hnz. apply andb_true_iff in Hwt as [HL _]. apply Nat.eqb_eq in HL.
    apply negb_true_iff, Nat.eqb_neq in Hnz. lia.
  - rewrite le_encode_length. lia.
  - cbn [length]. lia.
  - cbn [length]. lia.
  - rewrite app_length, le_encode_length. lia.
  - rewrite app_length, le_encode_length. lia.
  - (* SArr *) cbn [nonzero] in Hnz. apply andb_true_iff in Hnz as [Hn Hs]. apply negb_true_iff, Nat.eqb_neq in Hn.
    destruct n as [|n]; [contradiction|]. destruct l as [|v l]; [discriminate|].
    cbn [repeat wt_seq] in Hwt. apply andb_true_iff in Hwt as [Hv _].
    cbn [repeat enc_seq]. rewrite app_length.
    pose proof (IH s (or_introl eq_refl) Hs v Hv). lia.
  - apply enc_seq_exists_length; [exact IH | exact Hnz | exact Hwt].
Qed.

Lemma enc_seq_repeat (e : value -> bytes) l : enc_seq (repeat e (length l)) l = flat_map e l.
Proof. induction l as [|v l IH]; [reflexivity|]. cbn [length repeat enc_seq flat_map]. rewrite IH. reflexivity. Qed.

Lemma count_fits (body rest : bytes) n :
  (n <= length body)%nat -> (N.of_nat (length (body ++ rest)) <? N.of_nat n) = false.
Proof. intros Hn. rewrite app_length. lia. Qed.

Lemma flat_map_length_ge {A} (g : A -> bytes) l :
  (forall x, In x l -> (1 <= length (g x))%nat) -> (length l <= length (flat_map g l))%nat.
Proof.
  induction l as [|a l IH]; intros Hg; [cbn; lia|]. cbn [flat_map length]. rewrite app_length.
  pose proof (Hg a (or_introl eq_refl)). specialize (IH (fun x Hx => Hg x (or_intror Hx))). lia.
Qed.

Lemma bytes_cmp_antisym a : forall b, bytes_cmp a b = CompOpp (bytes_cmp b a).
Proof.
  induction a as [|x a IH]; intros [|y b]; cbn [bytes_cmp CompOpp]; try reflexivity.
  rewrite (N.compare_antisym y x). destruct (y ?= x); cbn [CompOpp]; [apply IH | reflexivity | reflexivity].
Qed.

Lemma bytes_ltb_gt a k : bytes_ltb a k = true -> bytes_cmp k a = Gt.
Proof.
  unfold bytes_ltb. rewrite (bytes_cmp_antisym k a). destruct (bytes_cmp a k); cbn [CompOpp]; [discriminate | reflexivity | discriminate].
Qed.

(* keys arriving in ascending order are appended: BTreeMap::insert then never re-sorts *)
Lemma map_insert_last k v acc :
  (forall a, In a acc -> bytes_ltb (fst a) k = true) -> map_insert k v acc = acc ++ [(k, v)].
Proof.
  induction acc as [|[k' v'] r IH]; intros Hall; [reflexivity|]. cbn [map_insert app].
  rewrite (bytes_ltb_gt k' k) by (apply (Hall (k', v')); left; reflexivity).
  rewrite IH by (intros a Ha; apply Hall; right; exact Ha). reflexivity.
Qed.

Lemma dec_map_enc (f : decoder) (e : value -> bytes) (w : value -> bool) bound :
  (forall v rest, w v = true -> f (e v ++ rest) = Ok (v, rest)) ->
  forall l acc rest,
    forallb (fun x => is_pair x && str_ok (key_of x) && w (val_of x)) l = true ->
    keys_sorted l = true ->
    (forall a x, In a acc -> In x l -> bytes_ltb (fst a) (key_of x) = true) ->
    within bound (N.of_nat (length acc + length l)) = true ->
    dec_map f bound (length l) (flat_map (fun x => enc_blob (key_of x) ++ e (val_of x)) l ++ rest) acc
    = Ok (acc ++ map (fun x => (key_of x, val_of x)) l, rest).
Proof.
  intros Hf. induction l as [|x l IH]; intros acc rest Hw Hs Hacc Hb.
  - cbn. rewrite app_nil_r. reflexivity.
  - cbn [forallb] in Hw. apply andb_true_iff in Hw as [Hx Hl].
    apply andb_true_iff in Hx as [Hx Hwv]. apply andb_true_iff in Hx as [_ Hk].
    cbn [keys_sorted] in Hs. apply andb_true_iff in Hs as [Hlt Hs'].
    cbn [length flat_map dec_map]. rewrite <- !app_assoc.
    rewrite dec_string_enc by exact Hk. cbn [bind fst snd].
    rewrite (Hf _ _ Hwv). cbn [bind fst snd].
    assert (Hbc : match bound with Some b => N.of_nat (length acc) =? b | None => false end = false).
    { destruct bound as [b|]; [|reflexivity]. cbn [within length] in Hb. clear -Hb. lia. }
    rewrite Hbc.
    rewrite map_insert_last by (intros a Ha; apply (Hacc a x Ha); left; reflexivity).
    rewrite IH.
    + rewrite <- app_assoc. reflexivity.
    + exact Hl.
    + exact Hs'.
    + intros a y Ha Hy. apply in_app_or in Ha as [Ha|[<-|[]]].
      * apply (Hacc a y Ha). right; exact Hy.
      * cbn [fst]. rewrite forallb_forall in Hlt. apply Hlt. exact Hy.
    + rewrite app_length, <- Nat.add_assoc. exact Hb.
Qed.

Lemma pairs_back l :
  forallb is_pair l = true -> map (fun kv : bytes * value => VPair (fst kv) (snd kv)) (map (fun x => (key_of x, val_of x)) l) = l.
Proof.
  induction l as [|x l IH]; intros H; [reflexivity|]. cbn [forallb] in H. apply andb_true_iff in H as [Hx Hl].
  cbn [map fst snd]. rewrite (IH Hl). destruct x; try discriminate. reflexivity.
Qed.

Theorem codec_roundtrip :
  forall s, schema_ok s = true -> forall v rest, wt s v = true -> dec s (enc s v ++ rest) = Ok (v, rest).
Proof.
  apply (schema_strong_ind (fun s => schema_ok s = true -> roundtrips s)). unfold roundtrips.
  intros s IH Hok v rest Hwt.
  destruct s; destruct v; cbn [wt] in Hwt; try discriminate Hwt; cbn [enc dec schema_ok] in *.
  - (* SU8 .. SU64: wt is the bound *) apply N.ltb_lt in Hwt. rewrite dec_uint_enc by exact Hwt. reflexivity.
  - apply N.ltb_lt in Hwt. rewrite dec_uint_enc by exact Hwt. reflexivity.
  - apply N.ltb_lt in Hwt. rewrite dec_uint_enc by exact Hwt. reflexivity.
  - apply N.ltb_lt in Hwt. rewrite dec_uint_enc by exact Hwt. reflexivity.
  - rewrite dec_uint_enc by exact (i64_wrap_bound z). cbn [bind fst snd].
    unfold i64_dec, i64_enc. rewrite i64_unwrap_wrap by lia. reflexivity.
  - (* SBool: the byte [x] is le_encode 1 x *) destruct b.
    + change ([1] ++ rest) with (le_encode 1 1 ++ rest). rewrite dec_uint_enc by reflexivity. reflexivity.
    + change ([0] ++ rest) with (le_encode 1 0 ++ rest). rewrite dec_uint_enc by reflexivity. reflexivity.
  - (* SCanon *) assert (Hn : n = 0 \/ n = 1) by lia.
    destruct Hn as [-> | ->]; rewrite dec_uint_enc by reflexivity; reflexivity.
  - rewrite dec_string_enc by exact Hwt. reflexivity.
  - apply andb_true_iff in Hwt as [_ HL]. apply N.ltb_lt in HL. rewrite dec_blob_enc by exact HL. reflexivity.
  - apply andb_true_iff in Hwt as [HL _]. apply Nat.eqb_eq in HL. rewrite take_app by exact HL. reflexivity.
  - (* SEnum: the tag is below the number of variants, which is at most 2^32 *)
    apply andb_true_iff in Hwt as [Hi Hn].
    rewrite dec_uint_enc by (apply N.ltb_lt in Hi; apply N.leb_le in Hn; exact (N.lt_le_trans _ _ _ Hi Hn)).
    cbn [bind fst snd]. rewrite Hi. reflexivity.
  - (* SOpt None *) change ([0] ++ rest) with (le_encode 1 0 ++ rest). rewrite dec_uint_enc by reflexivity. reflexivity.
  - change ((1 :: enc s v) ++ rest) with (le_encode 1 1 ++ (enc s v ++ rest)).
    rewrite dec_uint_enc by reflexivity. cbn [bind fst snd].
    rewrite (IH s (or_introl eq_refl) Hok v rest Hwt). reflexivity.
  - (* SVec: count_fits by nonzero elements taking at least a byte each *)
    apply andb_true_iff in Hok as [Hnz Hoks].
    apply andb_true_iff in Hwt as [Hwt Hall]. apply andb_true_iff in Hwt as [HL Hb]. apply N.ltb_lt in HL.
    rewrite <- app_assoc, dec_uint_enc by exact HL. cbn [bind fst snd]. rewrite Hb. cbn [negb].
    assert (Hlen : (length l <= length (enc_seq (repeat (enc s) (length l)) l))%nat).
    { rewrite enc_seq_repeat. apply flat_map_length_ge. intros x Hx.
      exact (enc_nonzero s Hnz x (proj1 (forallb_forall _ _) Hall x Hx)). }
    rewrite count_fits by exact Hlen.
    rewrite Nat2N.id, seq_roundtrip_repeat;
      [reflexivity | exact (IH s (or_introl eq_refl) Hoks) | rewrite wt_seq_repeat; exact Hall].
  - (* SMap: count_fits by the 8 length bytes of every key; then the insert loop *)
    apply andb_true_iff in Hwt as [Hwt Hall]. apply andb_true_iff in Hwt as [Hwt Hks]. apply andb_true_iff in Hwt as [HL Hb].
    apply N.ltb_lt in HL. rewrite <- app_assoc, dec_uint_enc by exact HL. cbn [bind fst snd].
    rewrite count_fits
      by (apply flat_map_length_ge; intros x _; unfold enc_blob; rewrite !app_length, le_encode_length; lia).
    rewrite Nat2N.id, (dec_map_enc (dec s) (enc s) (wt s) bound (IH s (or_introl eq_refl) Hok) l [] rest Hall Hks);
      [|intros a x [] | exact Hb].
    cbn [bind fst snd app]. rewrite pairs_back; [reflexivity|].
    rewrite forallb_forall in *. intros x Hx. specialize (Hall x Hx). rewrite !andb_true_iff in Hall. tauto.
  - rewrite seq_roundtrip_repeat; [reflexivity | exact (IH s (or_introl eq_refl) Hok) | exact Hwt].
  - rewrite seq_roundtrip; [reflexivity | | exact Hwt].
    rewrite forallb_forall in Hok. intros c Hc. exact (IH c Hc (Hok c Hc)).
Qed.

Corollary codec_roundtrip_nil s v :
  schema_ok s = true -> wt s v = true -> dec s (enc s v) = Ok (v, []).
Proof. intros Hok Hwt. rewrite <- (app_nil_r (enc s v)) at 1. apply codec_roundtrip; assumption. Qed.

Theorem decode_exact_roundtrip s v :
  schema_ok s = true -> wt s v = true -> decode_exact s (enc s v) = Ok v.
Proof.
  intros Hok Hwt. unfold decode_exact. rewrite (codec_roundtrip_nil s v Hok Hwt). reflexivity.
Qed.

Theorem decode_exact_trailing s v rest :
  schema_ok s = true -> wt s v = true -> rest <> [] -> decode_exact s (enc s v ++ rest) = Err E_TRAILING.
Proof.
  intros Hok Hwt Hr. unfold decode_exact. rewrite (codec_roundtrip s Hok v rest Hwt).
  destruct rest; [contradiction | reflexivity].
Qed.

Lemma dec_seq_no_panic fs :
  Forall (fun f : decoder => forall bs p, f bs <> Panic p) fs -> forall bs p, dec_seq fs bs <> Panic p.
Proof.
  induction fs as [|f fs IH]; intros HF bs p; cbn [dec_seq]; [discriminate|].
  inversion HF as [|? ? Hf Hfs]; subst.
  destruct (f bs) as [[v r]| |] eqn:E; cbn [bind]; [| discriminate | exfalso; eapply Hf; exact E].
  cbn [snd]. destruct (dec_seq fs r) as [[vs r']| |] eqn:E2; cbn [bind]; [discriminate | discriminate | exfalso; eapply (IH Hfs); exact E2].
Qed.

Lemma value_eqb_str a v : value_eqb (VStr a) v = true -> v = VStr a.
Proof. destruct v; cbn [value_eqb]; try discriminate. intros E. apply bytes_eqb_spec in E. subst; reflexivity. Qed.
