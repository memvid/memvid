(* Model/Sketch.v, the term filter and generate_sketch.  Building only ORs bits in, so every hash
   that was added is reported as possibly present (`built hs size` is the filter build_term_filter
   returns).  The weights are sorted by the isort of Base/SortFacts.v (wsort_isort).  At most six
   weights, each at most 715827882, sum to a u32: generate_sketch does not panic
   (generate_sketch_post says what it returns without that bound).
   In the section below, the terms lia builds mention every hypothesis in the context, so
   a lemma that must not depend on token_eqb_sound clears it before lia runs. *)
From MV Require Import Base.Prelude Base.Facts Base.SortFacts Model.Sketch.
Local Open Scope N_scope.

Lemma upd_length {A} (l : list A) i f : length (upd l i f) = length l.
Proof. revert i; induction l as [|x r IH]; intros [|i]; cbn [upd length]; auto. Qed.

Lemma nth_upd {A} (l : list A) i j f d :
  nth j (upd l i f) d = if Nat.eqb i j && Nat.ltb j (length l) then f (nth j l d) else nth j l d.
Proof.
  revert i j; induction l as [|x r IH]; intros i j.
  - cbn [upd length]. destruct j; cbn [nth]; rewrite andb_false_r; reflexivity.
  - destruct i as [|i], j as [|j]; cbn [upd nth length]; try reflexivity.
    rewrite IH. change (Nat.eqb (S i) (S j)) with (Nat.eqb i j).
    change (Nat.ltb (S j) (S (length r))) with (Nat.ltb j (length r)). reflexivity.
Qed.

Lemma bit_mask_pow i : bit_mask i = 2 ^ (i mod 8).
Proof. unfold bit_mask. apply N.shiftl_1_l. Qed.

Lemma land_pow2_eq0 x k : (N.land x (2 ^ k) =? 0) = negb (N.testbit x k).
Proof.
  destruct (N.testbit x k) eqn:E; cbn [negb].
  - apply N.eqb_neq. intros H0.
    assert (Hb : N.testbit (N.land x (2 ^ k)) k = true)
      by (rewrite N.land_spec, E, N.pow2_bits_true; reflexivity).
    rewrite H0, N.bits_0 in Hb. discriminate.
  - apply N.eqb_eq. apply N.bits_inj. intros j.
    rewrite N.land_spec, N.bits_0, N.pow2_bits_eqb.
    destruct (N.eqb_spec k j) as [->|]; [rewrite E|]; rewrite ?andb_false_r; reflexivity.
Qed.

Lemma test_bit_testbit flt i :
  test_bit flt i = N.testbit (nth (N.to_nat (i / 8)) flt 0) (i mod 8).
Proof. unfold test_bit. rewrite bit_mask_pow, land_pow2_eq0, negb_involutive. reflexivity. Qed.

Lemma set_bit_length flt i : length (set_bit flt i) = length flt.
Proof. apply upd_length. Qed.

Lemma test_set_same flt i :
  (N.to_nat (i / 8) < length flt)%nat -> test_bit (set_bit flt i) i = true.
Proof.
  intros Hi. rewrite test_bit_testbit. unfold set_bit. rewrite nth_upd.
  rewrite Nat.eqb_refl. apply Nat.ltb_lt in Hi. rewrite Hi. cbn [andb].
  rewrite N.lor_spec, bit_mask_pow, N.pow2_bits_true. apply orb_true_r.
Qed.

Lemma test_set_mono flt i j : test_bit flt j = true -> test_bit (set_bit flt i) j = true.
Proof.
  rewrite !test_bit_testbit. unfold set_bit. rewrite nth_upd. intros H.
  destruct (Nat.eqb _ _ && Nat.ltb _ _); [|exact H].
  rewrite N.lor_spec, H. reflexivity.
Qed.

Lemma lor_bit_byte b k : b < 256 -> k < 8 -> N.lor b (2 ^ k) < 256.
Proof.
  intros Hb Hk. change 256 with (2 ^ 8).
  destruct (N.eq_dec (N.lor b (2 ^ k)) 0) as [E|E]; [rewrite E; reflexivity|].
  apply N.log2_lt_pow2; [lia|].
  rewrite N.log2_lor, N.log2_pow2 by lia.
  apply N.max_lub_lt; [|exact Hk].
  destruct (N.eq_dec b 0) as [->|Hb0]; [reflexivity|].
  apply N.log2_lt_pow2; [lia| exact Hb].
Qed.

Lemma upd_bytes_ok flt i f :
  (forall b, b < 256 -> f b < 256) -> bytes_ok flt = true -> bytes_ok (upd flt i f) = true.
Proof.
  intros Hf. revert i; induction flt as [|x r IH]; intros i Hok; [destruct i; exact Hok|].
  cbn [bytes_ok forallb] in Hok. apply andb_true_iff in Hok as [Hx Hr].
  unfold byte_ok in Hx. apply N.ltb_lt in Hx.
  destruct i as [|i]; cbn [upd bytes_ok forallb]; apply andb_true_iff; split.
  - unfold byte_ok. apply N.ltb_lt. auto.
  - exact Hr.
  - unfold byte_ok. apply N.ltb_lt. exact Hx.
  - apply IH. exact Hr.
Qed.

Lemma set_bit_bytes_ok flt i : bytes_ok flt = true -> bytes_ok (set_bit flt i) = true.
Proof.
  apply upd_bytes_ok. intros b Hb. rewrite bit_mask_pow. apply lor_bit_byte; [exact Hb|].
  apply N.mod_lt. lia.
Qed.

Lemma add_hash_length m flt h : length (add_hash m flt h) = length flt.
Proof. unfold add_hash. rewrite !set_bit_length. reflexivity. Qed.

Lemma add_hash_mono m flt h j : test_bit flt j = true -> test_bit (add_hash m flt h) j = true.
Proof. intros H. unfold add_hash. do 3 apply test_set_mono. exact H. Qed.

Lemma add_hash_bytes_ok m flt h : bytes_ok flt = true -> bytes_ok (add_hash m flt h) = true.
Proof. intros H. unfold add_hash. do 3 apply set_bit_bytes_ok. exact H. Qed.

Lemma add_hash_sets m flt h :
  m = N.of_nat (length flt) * 8 -> m <> 0 ->
  test_bit (add_hash m flt h) (probe1 h m) = true /\
  test_bit (add_hash m flt h) (probe2 h m) = true /\
  test_bit (add_hash m flt h) (probe3 h m) = true.
Proof.
  intros Hm Hm0. unfold add_hash, probe1, probe2, probe3.
  (* a probe is taken modulo the number of bits, so its byte is inside the filter *)
  assert (R : forall x f, length f = length flt -> test_bit (set_bit f (x mod m)) (x mod m) = true).
  { intros x f Hf. apply test_set_same. rewrite Hf.
    pose proof (N.mod_lt x m Hm0). assert (x mod m / 8 < N.of_nat (length flt)) by (apply N.div_lt_upper_bound; lia).
    lia. }
  repeat split.
  - do 2 apply test_set_mono. apply R. reflexivity.
  - apply test_set_mono, R, set_bit_length.
  - apply R. rewrite !set_bit_length. reflexivity.
Qed.

Lemma fold_add_length m hs flt : length (fold_left (add_hash m) hs flt) = length flt.
Proof.
  apply (fold_left_invariant (add_hash m) (fun f => length f = length flt)); [|reflexivity].
  intros f h <-. apply add_hash_length.
Qed.

Lemma fold_add_mono m hs flt j :
  test_bit flt j = true -> test_bit (fold_left (add_hash m) hs flt) j = true.
Proof. apply (fold_left_invariant (add_hash m) (fun f => test_bit f j = true)). intros f h. apply add_hash_mono. Qed.

Lemma fold_add_bytes_ok m hs flt :
  bytes_ok flt = true -> bytes_ok (fold_left (add_hash m) hs flt) = true.
Proof. apply (fold_left_invariant (add_hash m) (fun f => bytes_ok f = true)). intros f h. apply add_hash_bytes_ok. Qed.

Lemma fold_add_sets m hs flt h :
  m = N.of_nat (length flt) * 8 -> m <> 0 -> In h hs ->
  let out := fold_left (add_hash m) hs flt in
  test_bit out (probe1 h m) = true /\ test_bit out (probe2 h m) = true /\ test_bit out (probe3 h m) = true.
Proof.
  revert flt; induction hs as [|x r IH]; intros flt Hm Hm0 Hin; [destruct Hin|].
  cbn [fold_left]. destruct Hin as [->|Hin].
  - destruct (add_hash_sets m flt h Hm Hm0) as (A & B & C).
    cbv zeta. repeat split; apply fold_add_mono; assumption.
  - apply IH; [rewrite add_hash_length; exact Hm | exact Hm0 | exact Hin].
Qed.

Lemma repeat_bytes_ok n : bytes_ok (repeat 0 n) = true.
Proof. induction n; cbn [repeat bytes_ok forallb]; auto. Qed.

Definition built (hs : list N) (size : nat) : bytes :=
  fold_left (add_hash (N.of_nat size * 8)) hs (repeat 0 size).

Lemma build_term_filter_nz hs size : size <> O -> build_term_filter hs size = Ok (built hs size).
Proof.
  intros Hs. unfold build_term_filter. destruct hs; [reflexivity|].
  destruct (N.eqb_spec (N.of_nat size * 8) 0); [lia | reflexivity].
Qed.

Lemma built_length hs size : length (built hs size) = size.
Proof. unfold built. rewrite fold_add_length. apply repeat_length. Qed.

Lemma built_bytes_ok hs size : bytes_ok (built hs size) = true.
Proof. apply fold_add_bytes_ok, repeat_bytes_ok. Qed.

Theorem built_contains hs size h :
  size <> O -> In h hs -> term_filter_maybe_contains (built hs size) h = Ok true.
Proof.
  intros Hs Hin. unfold term_filter_maybe_contains. rewrite built_length.
  destruct (N.eqb_spec (N.of_nat size * 8) 0) as [E|E]; [lia|].
  destruct (fold_add_sets (N.of_nat size * 8) hs (repeat 0 size) h) as (A & B & C); [rewrite repeat_length; reflexivity | exact E | exact Hin |].
  fold (built hs size) in A, B, C. rewrite A, B, C. reflexivity.
Qed.

Lemma wins_insert x l : wins x l = insert wle x l.
Proof. induction l as [|y r IH]; cbn [wins insert]; [|rewrite IH]; reflexivity. Qed.

Lemma wsort_isort l : wsort l = isort wle l.
Proof. apply isort_fold, wins_insert. Qed.

Lemma wsort_In x l : In x (wsort l) <-> In x l.
Proof. rewrite wsort_isort. apply isort_In. Qed.

Lemma wsort_length l : length (wsort l) = length l.
Proof. rewrite wsort_isort. apply isort_length. Qed.

Lemma term_filter_size_nz v : term_filter_size v <> O.
Proof. destruct v; discriminate. Qed.

Lemma top_terms_count_le v : (top_terms_count v <= 6)%nat.
Proof. destruct v; cbv; lia. Qed.

Lemma sum_bound (l : list (N * Z)) acc :
  (forall p, In p l -> (1 <= snd p <= 715827882)%Z) ->
  fold_left (fun a t => a + Z.to_N (snd t)) l acc <= acc + N.of_nat (length l) * 715827882.
Proof.
  revert acc; induction l as [|p r IH]; intros acc Hb; cbn [fold_left length]; [lia|].
  etransitivity; [apply IH; intros q Hq; apply Hb; right; exact Hq|].
  specialize (Hb p (or_introl eq_refl)). lia.
Qed.

Lemma sum_ge (l : list (N * Z)) acc : acc <= fold_left (fun a t => a + Z.to_N (snd t)) l acc.
Proof.
  revert acc; induction l as [|p r IH]; intros acc; cbn [fold_left]; [lia|].
  etransitivity; [|apply IH]. lia.
Qed.

Section SketchProofs.
  Variable token : Type.
  Variable token_eqb : token -> token -> bool.
  Variable hash_token : token -> N.
  Variable raw_weight : token -> N -> Z.
  Hypothesis token_eqb_sound : forall a b, token_eqb a b = true -> a = b.
  (* 715827882 = (2^32 - 1) / 6 rounded down: the largest weight of which six (the top
     terms of a Large entry) still sum to a u32.  With idf_map = None the weights are
     100, 200 or 300. *)
  Hypothesis raw_weight_bound : forall t c, (raw_weight t c <= 715827882)%Z.

  Notation weights := (compute_token_weights token token_eqb hash_token raw_weight).
  Notation generate_sketch := (generate_sketch token token_eqb hash_token raw_weight).

  Lemma dedup_In t l : In t l -> In t (dedup token token_eqb l).
  Proof.
    induction l as [|x r IH]; intros Hin; [destruct Hin|].
    cbn [dedup]. destruct Hin as [->|Hin]; [left; reflexivity|].
    destruct (token_eqb x t) eqn:E.
    - left. apply token_eqb_sound. exact E.
    - right. apply filter_In. split; [apply IH; exact Hin | rewrite E; reflexivity].
  Qed.

  Lemma weights_cover t tokens : In t tokens -> In (hash_token t) (map fst (weights tokens)).
  Proof.
    intros Hin. unfold compute_token_weights.
    apply in_map_iff.
    exists (hash_token t, Z.max (raw_weight t (count_tok token token_eqb t tokens)) 1). split; [reflexivity|].
    apply wsort_In. apply in_map_iff. exists t. split; [reflexivity|]. apply dedup_In. exact Hin.
  Qed.

  (* `weight.max(1)` *)
  Lemma weights_pos tokens p : In p (weights tokens) -> (1 <= snd p)%Z.
  Proof.
    clear token_eqb_sound raw_weight_bound.
    unfold compute_token_weights. rewrite wsort_In, in_map_iff. intros (t & <- & _). cbn [snd]. lia.
  Qed.

  Lemma weights_bounded tokens p : In p (weights tokens) -> (1 <= snd p <= 715827882)%Z.
  Proof.
    clear token_eqb_sound.
    unfold compute_token_weights. rewrite wsort_In, in_map_iff. intros (t & <- & _). cbn [snd].
    pose proof (raw_weight_bound t (count_tok token token_eqb t tokens)). lia.
  Qed.

  (* the u32 `.sum()` of the top weights *)
  Lemma top_sum_fits tokens v :
    fold_left (fun a t => a + Z.to_N (snd t)) (firstn (top_terms_count v) (weights tokens)) 0 < 2 ^ 32.
  Proof.
    clear token_eqb_sound.
    eapply N.le_lt_trans.
    - apply sum_bound. intros p Hp. apply (weights_bounded tokens). eapply In_firstn. exact Hp.
    - pose proof (firstn_le_length (top_terms_count v) (weights tokens)). pose proof (top_terms_count_le v).
      change (2 ^ 32) with 4294967296. lia.
  Qed.

  (* the Small layout cannot hold the entry: its weight sum is >= 1 (a text with a token) or its
     flags are SHORT_TEXT (a text without) *)
  Lemma generate_sketch_post fid tokens v :
    post (generate_sketch fid tokens v)
         (fun e => e_frame_id e = fid /\
                   e_filter e = built (map fst (weights tokens)) (term_filter_size v) /\
                   small_fields_ok Small e = false)
         (fun _ => False)
         (2 ^ 32 <= fold_left (fun a t => a + Z.to_N (snd t)) (firstn (top_terms_count v) (weights tokens)) 0).
  Proof.
    clear token_eqb_sound raw_weight_bound.
    unfold Sketch.generate_sketch. destruct tokens as [|t0 r].
    - split; [reflexivity|]. split; reflexivity.
    - rewrite (build_term_filter_nz _ _ (term_filter_size_nz v)).
      (* the sorted weights are as many as the distinct tokens: at least one, and it is >= 1 *)
      destruct (weights (t0 :: r)) as [|p w] eqn:Ew.
      + apply (f_equal (@length _)) in Ew. unfold compute_token_weights in Ew.
        rewrite wsort_length, map_length in Ew. discriminate.
      + assert (Hp : (1 <= snd p)%Z) by (apply (weights_pos (t0 :: r)); rewrite Ew; left; reflexivity).
        assert (Hk : exists k, top_terms_count v = S k) by (destruct v; eexists; reflexivity).
        destruct Hk as (k & ->). cbn [firstn fold_left].
        pose proof (sum_ge (firstn k w) (0 + Z.to_N (snd p))) as Hge.
        destruct (N.leb_spec (2 ^ 32) (fold_left (fun a t => a + Z.to_N (snd t)) (firstn k w) (0 + Z.to_N (snd p))))
          as [Hc|_].
        * exact Hc.
        * split; [reflexivity|]. split; [reflexivity|].
          unfold small_fields_ok. cbn [e_wsum]. apply andb_false_iff. left. apply andb_false_iff. left.
          apply N.eqb_neq. lia.
  Qed.

  Lemma generate_sketch_filter fid tokens v :
    exists e, generate_sketch fid tokens v = Ok e /\ e_frame_id e = fid /\
              e_filter e = built (map fst (weights tokens)) (term_filter_size v).
  Proof.
    clear token_eqb_sound.
    pose proof (generate_sketch_post fid tokens v) as H. pose proof (top_sum_fits tokens v) as Hsum.
    destruct (generate_sketch fid tokens v) as [e|k|s]; cbn [post] in H.
    - exists e. destruct H as (Hid & Hf & _). split; [reflexivity|]. split; [exact Hid | exact Hf].
    - contradiction.
    - lia.
  Qed.

  Theorem generate_sketch_no_false_negative fid tokens v t :
    In t tokens ->
    exists e, generate_sketch fid tokens v = Ok e /\
              term_filter_maybe_contains (e_filter e) (hash_token t) = Ok true.
  Proof.
    intros Hin. destruct (generate_sketch_filter fid tokens v) as (e & He & _ & Hf).
    exists e. split; [exact He|]. rewrite Hf.
    apply built_contains; [apply term_filter_size_nz | apply weights_cover; exact Hin].
  Qed.
End SketchProofs.

Lemma raw_weight_no_idf_bound {token} (t : token) c : (raw_weight_no_idf t c <= 715827882)%Z.
Proof. unfold raw_weight_no_idf. lia. Qed.
