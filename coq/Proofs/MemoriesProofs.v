(* Proofs for C27 about Model/Memories.v.  For every track the two queries return the best
   card of a list (SortFacts.best).  add_card maintains Inv; on a track with Inv the keys of the
   index are lower-case, so the fallback scan of index_get is idle, get_cards lists the cards of
   the slot newest first, and the best card is the latest selected one (best_latest).  Persisting
   the mesh is a stable sort.  Good ok is kept by every operation along every history, ok being the
   ghost "no card with a non-finite confidence was put so far".  The known class enters through
   g_mem alone: while ok holds the memory track is track_ok, and such a track comes back from the
   disk as it is. *)
From MV Require Import Base.Prelude Base.Facts Base.SortFacts Model.Memories.
From Coq Require Import String Permutation Sorting.Sorted.
Local Open Scope Z_scope.

Lemma desc_leb_total : forall a b, desc_leb a b = true \/ desc_leb b a = true.
Proof. intros a b. unfold desc_leb. lia. Qed.
Lemma desc_leb_trans : forall a b c, desc_leb a b = true -> desc_leb b c = true -> desc_leb a c = true.
Proof. intros a b c. unfold desc_leb. lia. Qed.

Definition at_filter (t : Z) (c : card) : bool := Z.leb (eff c) t.

Lemma at_filter_true t c : at_filter t c = true <-> eff c <= t.
Proof. apply Z.leb_le. Qed.

Lemma not_retracted_true c : not_retracted c = true <-> is_retracted c = false.
Proof. unfold not_retracted. destruct (is_retracted c); cbn; split; congruence. Qed.

Lemma get_current_best : forall tr e s,
    get_current tr e s = best desc_leb not_retracted (get_cards tr e s).
Proof. intros. unfold get_current. apply find_isort; [apply desc_leb_total|apply desc_leb_trans]. Qed.

Lemma get_at_time_best : forall tr e s t,
    get_at_time tr e s t = best desc_leb not_retracted (filter (at_filter t) (get_cards tr e s)).
Proof. intros. unfold get_at_time. apply find_isort; [apply desc_leb_total|apply desc_leb_trans]. Qed.

Lemma get_cards_in : forall tr e s c, In c (get_cards tr e s) -> In c (t_cards tr).
Proof.
  intros tr e s c. unfold get_cards. destruct (index_get (t_index tr) e s) as [ids|]; [|intros []].
  (* filter_map is the filter_some of Base/Facts.v *)
  intro H. apply in_filter_some in H. destruct H as (id & _ & Hf).
  unfold find_card in Hf. apply find_some in Hf. apply Hf.
Qed.

Theorem get_at_time_late : forall tr e s t,
    (forall c, In c (get_cards tr e s) -> eff c <= t) ->
    get_at_time tr e s t = get_current tr e s.
Proof.
  intros tr e s t H. unfold get_at_time, get_current.
  rewrite filter_all; [reflexivity|]. intros c Hc. specialize (H c Hc). lia.
Qed.

Lemma desc_leb_false d c : desc_leb d c = false <-> eff d < eff c.
Proof. unfold desc_leb. lia. Qed.

Lemma desc_leb_true c d : desc_leb c d = true <-> eff d <= eff c.
Proof. unfold desc_leb. lia. Qed.

Lemma best_desc_char l c :
    best desc_leb not_retracted l = Some c <->
    exists l1 l2, l = l1 ++ c :: l2 /\ is_retracted c = false /\
                  (forall d, In d l1 -> is_retracted d = false -> eff d < eff c) /\
                  (forall d, In d l2 -> is_retracted d = false -> eff d <= eff c).
Proof.
  rewrite (best_some_iff _ desc_leb desc_leb_total desc_leb_trans).
  setoid_rewrite not_retracted_true. setoid_rewrite desc_leb_false. setoid_rewrite desc_leb_true.
  reflexivity.
Qed.

Local Open Scope string_scope.

Lemma lower_ascii_idem : forall a, lower_ascii (lower_ascii a) = lower_ascii a.
Proof. intros [[] [] [] [] [] [] [] []]; vm_compute; reflexivity. Qed.

Lemma lower_idem : forall s, lower (lower s) = lower s.
Proof. induction s as [|a r IH]; simpl; [reflexivity|]. rewrite lower_ascii_idem, IH. reflexivity. Qed.

Lemma lower_app : forall a b, lower (a ++ b) = lower a ++ lower b.
Proof. induction a as [|x r IH]; intro b; simpl; [reflexivity|]. rewrite IH. reflexivity. Qed.

Lemma slot_key_lower : forall e s, lower (slot_key e s) = slot_key e s.
Proof. intros e s. unfold slot_key. rewrite !lower_app, !lower_idem. reflexivity. Qed.

Definition key_is (k : string) (c : card) : bool := String.eqb (card_key c) k.

(* add_card hands out increasing ids: older cards first *)
Definition id_lt (x y : card) : Prop := (c_id x < c_id y)%N.

Lemma asc_find_card : forall l c, StronglySorted id_lt l -> In c l -> find_card l (c_id c) = Some c.
Proof.
  induction 1 as [|a r Hr IH Ha]; intros Hc; [destruct Hc|].
  unfold find_card. cbn [find]. destruct Hc as [Hc|Hc].
  - subst. rewrite N.eqb_refl. reflexivity.
  - rewrite Forall_forall in Ha. specialize (Ha c Hc). unfold id_lt in Ha.
    destruct (N.eqb_spec (c_id a) (c_id c)) as [E|E]; [lia|]. apply IH, Hc.
Qed.

Lemma filter_map_find_own_id : forall (f : N -> option card) l,
    (forall c, In c l -> f (c_id c) = Some c) -> filter_map f (map c_id l) = l.
Proof.
  intros f l; induction l as [|a r IH]; intro H; simpl; [reflexivity|].
  rewrite (H a (or_introl eq_refl)). f_equal. apply IH. intros c Hc. apply H. right; exact Hc.
Qed.

Definition ids_of (k : string) (cards : list card) : list N := rev (map c_id (filter (key_is k) cards)).
Definition opt_ids (l : list N) : option (list N) := match l with [] => None | _ => Some l end.

(* what add_card maintains.  By inv_lookup every key of the index is the key of a card, hence lower-case
   (Inv_keys_lower); inv_asc makes find_card return the card an id was taken from; inv_next only keeps inv_asc *)
Record Inv (tr : track) : Prop := {
  inv_lookup : forall k, index_lookup (t_index tr) k = opt_ids (ids_of k (t_cards tr));
  inv_asc : StronglySorted id_lt (t_cards tr);
  inv_next : forall c, In c (t_cards tr) -> (c_id c < t_next tr)%N
}.

Lemma Inv_empty : Inv empty_track.
Proof. split; simpl; [reflexivity|constructor|intros c []]. Qed.

Lemma lookup_insert : forall idx k0 id k,
    index_lookup (index_insert idx k0 id) k =
    if String.eqb k0 k then Some (id :: match index_lookup idx k0 with Some l => l | None => [] end)
    else index_lookup idx k.
Proof.
  induction idx as [|[k' ids] r IH]; intros k0 id k; cbn [index_insert index_lookup].
  - destruct (String.eqb k0 k); reflexivity.
  - destruct (String.eqb_spec k' k0) as [E|E]; cbn [index_lookup].
    + subst k'. destruct (String.eqb k0 k); reflexivity.
    + rewrite IH. destruct (String.eqb_spec k0 k) as [E2|E2].
      * subst k. destruct (String.eqb_spec k' k0); [contradiction|]. reflexivity.
      * reflexivity.
Qed.

Lemma card_key_set : forall c id, card_key (set_id_vkey c id) = card_key c.
Proof. reflexivity. Qed.

Lemma opt_ids_default : forall l, match opt_ids l with Some x => x | None => [] end = l.
Proof. destruct l; reflexivity. Qed.

Lemma Inv_add : forall tr c, Inv tr -> Inv (add_card tr c).
Proof.
  intros tr c [Hl Ha Hn]. unfold add_card. split; cbn [t_cards t_index t_next].
  - intro k. rewrite lookup_insert, card_key_set, Hl, opt_ids_default.
    unfold ids_of. rewrite filter_app, map_app, rev_app_distr. cbn [filter].
    unfold key_is at 2. rewrite card_key_set.
    destruct (String.eqb_spec (card_key c) k) as [E|E].
    + subst k. cbn [map rev app]. reflexivity.
    + cbn [map rev app]. rewrite Hl. reflexivity.
  - apply SS_snoc; [exact Ha|]. apply Forall_forall. exact Hn.
  - intros d Hd. apply in_app_or in Hd. destruct Hd as [Hd|[Hd|[]]].
    + specialize (Hn d Hd). lia.
    + subst d. cbn [set_id_vkey c_id]. lia.
Qed.

Lemma Inv_build : forall cs, Inv (build cs).
Proof. intro cs. apply (fold_left_invariant add_card Inv); [exact Inv_add|exact Inv_empty]. Qed.

Lemma lookup_none_keys : forall idx k, index_lookup idx k = None -> forall kv, In kv idx -> fst kv <> k.
Proof.
  induction idx as [|[k' ids] r IH]; intros k H kv Hin; [destruct Hin|].
  cbn [index_lookup] in H. destruct (String.eqb_spec k' k) as [E|E]; [discriminate|].
  destruct Hin as [Hin|Hin]; [subst kv; exact E|apply IH; assumption].
Qed.

Lemma index_get_exact : forall idx e s, (forall kv, In kv idx -> lower (fst kv) = fst kv) ->
    index_get idx e s = index_lookup idx (slot_key e s).
Proof.
  intros idx e s Hw. unfold index_get. destruct (index_lookup idx (slot_key e s)) eqn:El; [reflexivity|].
  destruct (find _ idx) as [kv|] eqn:Ef; [|reflexivity].
  exfalso. apply find_some in Ef. destruct Ef as [Hin Hk]. apply String.eqb_eq in Hk.
  rewrite (Hw kv Hin) in Hk. exact (lookup_none_keys _ _ El kv Hin Hk).
Qed.

Lemma Inv_keys_lower : forall tr kv, Inv tr -> In kv (t_index tr) -> lower (fst kv) = fst kv.
Proof.
  intros tr kv HI Hin. destruct (index_lookup (t_index tr) (fst kv)) as [ids|] eqn:El.
  - rewrite (inv_lookup tr HI) in El. unfold ids_of in El.
    destruct (filter (key_is (fst kv)) (t_cards tr)) as [|c r] eqn:Ef; [discriminate|].
    assert (Hc : In c (filter (key_is (fst kv)) (t_cards tr))) by (rewrite Ef; left; reflexivity).
    apply filter_In in Hc. destruct Hc as [_ Hk]. apply String.eqb_eq in Hk. rewrite <- Hk. apply slot_key_lower.
  - exfalso. exact (lookup_none_keys _ _ El kv Hin eq_refl).
Qed.

Lemma Inv_get_cards : forall tr e s, Inv tr ->
    get_cards tr e s = rev (filter (key_is (slot_key e s)) (t_cards tr)).
Proof.
  intros tr e s HI. unfold get_cards.
  rewrite (index_get_exact _ e s (fun kv => Inv_keys_lower tr kv HI)), (inv_lookup tr HI). unfold ids_of.
  (* an absent entry stands for the empty id list *)
  transitivity (filter_map (find_card (t_cards tr)) (rev (map c_id (filter (key_is (slot_key e s)) (t_cards tr)))));
    [destruct (rev _); reflexivity|].
  rewrite <- map_rev. apply filter_map_find_own_id.
  intros c Hc. apply asc_find_card; [exact (inv_asc tr HI)|]. apply in_rev, filter_In in Hc. apply Hc.
Qed.

Definition eligible (tr : track) (e s : string) (t : Z) (x : card) : Prop :=
  In x (t_cards tr) /\ card_key x = slot_key e s /\ (eff x <= t)%Z /\ is_retracted x = false.

Definition not_later (d c : card) : Prop :=
  (eff d < eff c)%Z \/ (eff d = eff c /\ (c_id d <= c_id c)%N).

Section Latest.
  Variables (tr : track) (e s : string) (f : card -> bool).
  Hypothesis HI : Inv tr.

  (* eligible, with any filter f in place of the time bound *)
  Definition selected (x : card) : Prop :=
    In x (t_cards tr) /\ card_key x = slot_key e s /\ f x = true /\ is_retracted x = false.

  Lemma selected_in_list x :
    In x (filter f (get_cards tr e s)) /\ is_retracted x = false <-> selected x.
  Proof.
    rewrite (Inv_get_cards tr e s HI). unfold selected.
    rewrite filter_In, <- in_rev, filter_In. unfold key_is. rewrite String.eqb_eq. tauto.
  Qed.

  Lemma selected_newest_first : StronglySorted (fun x y => id_lt y x) (filter f (get_cards tr e s)).
  Proof. rewrite (Inv_get_cards tr e s HI). apply SS_filter, SS_rev, SS_filter, (inv_asc tr HI). Qed.

  Theorem best_latest c :
    best desc_leb not_retracted (filter f (get_cards tr e s)) = Some c <->
    selected c /\ forall d, selected d -> not_later d c.
  Proof.
    rewrite best_desc_char. split.
    - intros (l1 & l2 & Hl & Hc & Hb & Ha). split.
      + apply selected_in_list. split; [|exact Hc]. rewrite Hl. apply in_elt.
      + (* newest first: what stands behind c in the list was added before c *)
        assert (Hd : forall d, In d l2 -> id_lt d c).
        { apply (SS_split (fun x y => id_lt y x) l1). rewrite <- Hl. exact selected_newest_first. }
        intros d Hel. apply selected_in_list in Hel. destruct Hel as [Hin Hr].
        rewrite Hl in Hin. apply in_app_or in Hin. unfold not_later.
        destruct Hin as [Hin|[Hin|Hin]].
        * left. apply Hb; assumption.
        * subst d. right. split; [reflexivity|lia].
        * specialize (Ha d Hin Hr). specialize (Hd d Hin). unfold id_lt in Hd. lia.
    - intros [Hel Hmax]. apply selected_in_list in Hel. destruct Hel as [Hin Hc].
      apply in_split in Hin. destruct Hin as (l1 & l2 & Hl).
      assert (Hd : forall d, In d l1 -> id_lt c d).
      { apply (SS_split (fun x y => id_lt y x) l1 c l2). rewrite <- Hl. exact selected_newest_first. }
      assert (Hsel : forall d, In d (l1 ++ c :: l2) -> is_retracted d = false -> not_later d c).
      { intros d Hin Hr. apply Hmax, selected_in_list. rewrite Hl. split; assumption. }
      exists l1, l2. split; [exact Hl|]. split; [exact Hc|]. unfold not_later, id_lt in *. split; intros d Hin Hr.
      + specialize (Hsel d (in_or_app _ _ _ (or_introl Hin)) Hr). specialize (Hd d Hin). lia.
      + specialize (Hsel d (in_or_app _ _ _ (or_intror (in_cons c d l2 Hin))) Hr). lia.
  Qed.
End Latest.

Lemma eligible_selected tr e s t x : eligible tr e s t x <-> selected tr e s (at_filter t) x.
Proof. unfold eligible, selected. rewrite at_filter_true. reflexivity. Qed.

(* "latest": greatest effective time, ties won by the card added last *)
Theorem at_time_latest : forall tr e s t c, Inv tr ->
    (get_at_time tr e s t = Some c <->
     eligible tr e s t c /\ forall d, eligible tr e s t d -> not_later d c).
Proof.
  intros tr e s t c HI. rewrite get_at_time_best, (best_latest tr e s _ HI).
  setoid_rewrite eligible_selected. reflexivity.
Qed.

Theorem at_time_none_iff_no_eligible : forall tr e s t, Inv tr ->
    (get_at_time tr e s t = None <-> forall d, ~ eligible tr e s t d).
Proof.
  intros tr e s t HI. rewrite get_at_time_best, best_none_iff. split.
  - intros H d Hel. apply eligible_selected, (selected_in_list tr e s _ HI) in Hel. destruct Hel as [Hin Hr].
    specialize (H d Hin). apply not_retracted_true in Hr. congruence.
  - intros H d Hin. destruct (not_retracted d) eqn:Hr; [|reflexivity].
    exfalso. apply (H d), eligible_selected, (selected_in_list tr e s _ HI).
    split; [exact Hin|apply not_retracted_true, Hr].
Qed.

Theorem current_latest : forall tr e s c, Inv tr ->
    (get_current tr e s = Some c <->
     (In c (t_cards tr) /\ card_key c = slot_key e s /\ is_retracted c = false) /\
     forall d, In d (t_cards tr) -> card_key d = slot_key e s -> is_retracted d = false -> not_later d c).
Proof.
  intros tr e s c HI. rewrite get_current_best.
  rewrite <- (filter_all (fun _ => true) (get_cards tr e s)) by reflexivity.
  rewrite (best_latest tr e s _ HI). unfold selected. split.
  - intros [(H1 & H2 & _ & H3) H]. split; [auto|]. intros d Hd Hk Hr. apply H. auto.
  - intros [(H1 & H2 & H3) H]. split; [auto|]. intros d (Hd & Hk & _ & Hr). apply H; assumption.
Qed.

Lemma node_leb_total : forall a b, node_leb a b = true \/ node_leb b a = true.
Proof. intros a b. unfold node_leb. lia. Qed.
Lemma node_leb_trans : forall a b c, node_leb a b = true -> node_leb b c = true -> node_leb a c = true.
Proof. intros a b c. unfold node_leb. lia. Qed.

(* the shape of a lexicographic comparison on an N key, in the form lia reads *)
Lemma if_lex (x y : N) (rest : bool) :
  (if (x <? y)%N then true else if (x =? y)%N then rest else false) = ((x <? y)%N || ((x =? y)%N && rest))%bool.
Proof. destruct (x <? y)%N, (x =? y)%N; reflexivity. Qed.

Lemma str_leb_total : forall a b, str_leb a b = true \/ str_leb b a = true.
Proof.
  induction a as [|x a IH]; intro b; [left; reflexivity|].
  destruct b as [|y b]; [right; reflexivity|]. cbn [str_leb]. rewrite !if_lex.
  specialize (IH b). lia.
Qed.
Lemma str_leb_trans : forall a b c, str_leb a b = true -> str_leb b c = true -> str_leb a c = true.
Proof.
  induction a as [|x a IH]; intros b c Hab Hbc; [reflexivity|].
  destruct b as [|y b]; [discriminate|]. destruct c as [|z c]; [discriminate|].
  cbn [str_leb] in *. rewrite !if_lex in *. specialize (IH b c). lia.
Qed.

Lemma edge_leb_total : forall a b, edge_leb a b = true \/ edge_leb b a = true.
Proof.
  intros a b. unfold edge_leb. rewrite !if_lex.
  pose proof (str_leb_total (e_link a) (e_link b)). lia.
Qed.
Lemma edge_leb_trans : forall a b c, edge_leb a b = true -> edge_leb b c = true -> edge_leb a c = true.
Proof.
  intros a b c. unfold edge_leb. rewrite !if_lex.
  pose proof (str_leb_trans (e_link a) (e_link b) (e_link c)). lia.
Qed.

Theorem persist_mesh_idem : forall m, persist_mesh (persist_mesh m) = persist_mesh m.
Proof.
  intro m. unfold persist_mesh. cbn [m_nodes m_edges]. f_equal.
  - apply isort_idem; [apply node_leb_total|apply node_leb_trans].
  - apply isort_idem; [apply edge_leb_total|apply edge_leb_trans].
Qed.

Theorem persist_mesh_stable_sort : forall m,
    is_stable_sort node_leb (m_nodes m) (m_nodes (persist_mesh m)) /\
    is_stable_sort edge_leb (m_edges m) (m_edges (persist_mesh m)).
Proof.
  intro m. split.
  - apply isort_is_stable_sort; [apply node_leb_total|apply node_leb_trans].
  - apply isort_is_stable_sort; [apply edge_leb_total|apply edge_leb_trans].
Qed.

(* the emptiness test of commit changes nothing: sorting an empty mesh gives the empty mesh *)
Lemma disk_mesh_persist : forall m, disk_mesh m = persist_mesh m.
Proof.
  intro m. unfold disk_mesh, mesh_is_empty, persist_mesh.
  destruct (m_nodes m) as [|n ns]; [|reflexivity]. destruct (m_edges m) as [|e es]; reflexivity.
Qed.

Lemma disk_mesh_idem : forall m, disk_mesh (disk_mesh m) = disk_mesh m.
Proof. intro m. rewrite !disk_mesh_persist. apply persist_mesh_idem. Qed.

Lemma disk_mesh_perm : forall m,
    Permutation (m_nodes (disk_mesh m)) (m_nodes m) /\ Permutation (m_edges (disk_mesh m)) (m_edges m).
Proof. intro m. rewrite disk_mesh_persist. split; apply isort_perm. Qed.

(* a track that disk_track gives back unchanged: no confidence that JSON would drop; and, as a
   track without cards is not written and reloads as MemoriesTrack::new(), without cards it is
   the empty track *)
Definition track_ok (tr : track) : Prop :=
  forallb conf_finite (t_cards tr) = true /\ (t_cards tr = [] -> tr = empty_track).

Lemma persist_card_id : forall c, conf_finite c = true -> persist_card c = c.
Proof. intros c H. unfold persist_card, conf_finite in *. destruct (c_conf c) as [[|]|]; [reflexivity|discriminate|reflexivity]. Qed.

Lemma disk_track_ok : forall tr, track_ok tr -> disk_track tr = tr.
Proof.
  intros tr [Hf He]. unfold disk_track. destruct (t_cards tr) as [|a r] eqn:E.
  - symmetry. apply He. reflexivity.
  - unfold persist_track. rewrite E. destruct tr as [cs nx ix]. cbn [t_cards t_next t_index] in *. subst cs.
    f_equal. rewrite forallb_forall in Hf. rewrite <- (map_id (a :: r)) at 2.
    apply map_ext_in. intros c Hc. apply persist_card_id, Hf, Hc.
Qed.

Lemma track_ok_empty : track_ok empty_track.
Proof. split; reflexivity. Qed.

Lemma track_ok_disk : forall tr, track_ok (disk_track tr).
Proof.
  intro tr. unfold disk_track. destruct (t_cards tr) as [|a r] eqn:E; [apply track_ok_empty|].
  split; cbn [persist_track t_cards]; [|rewrite E; discriminate].
  apply forallb_forall. intros c Hc. apply in_map_iff in Hc as (d & <- & _).
  unfold persist_card, conf_finite. destruct (c_conf d) as [[b|]|] eqn:Ec; cbn [c_conf].
  - rewrite Ec. reflexivity.
  - reflexivity.
  - rewrite Ec. reflexivity.
Qed.

Lemma track_ok_add : forall tr c, track_ok tr -> conf_finite c = true -> track_ok (add_card tr c).
Proof.
  intros tr c [Hf He] Hc. unfold add_card. split; cbn [t_cards].
  - rewrite forallb_app, Hf. cbn [forallb]. unfold conf_finite in *. cbn [set_id_vkey c_conf]. rewrite Hc. reflexivity.
  - intro H. destruct (t_cards tr); discriminate.
Qed.

Lemma track_ok_fold : forall cs tr, track_ok tr -> forallb conf_finite cs = true ->
    track_ok (fold_left add_card cs tr).
Proof.
  induction cs as [|c r IH]; intros tr H Hc; simpl; [exact H|].
  cbn [forallb] in Hc. apply andb_true_iff in Hc. destruct Hc as [Hc Hr].
  apply IH; [apply track_ok_add; assumption|exact Hr].
Qed.

(* the operations on which the implementation is known to alter cards *)
Definition op_nonfinite (o : mop) : bool :=
  match o with
  | PutCard c => negb (conf_finite c)
  | PutCards cs => negb (forallb conf_finite cs)
  | _ => false
  end.
Definition known_class (ops : list mop) : bool := existsb op_nonfinite ops.

(* g_sync: in a clean state the disk holds what commit would write.  g_disk, g_dmesh: what the disk holds is
   a value commit writes, so that loading and writing it again changes nothing. *)
Record Good (ok : bool) (s : mstate) : Prop := {
  g_sync : s_dirty s = false -> d_track s = disk_track (s_track s) /\ d_mesh s = disk_mesh (s_mesh s);
  g_mem : ok = true -> track_ok (s_track s);
  g_disk : track_ok (d_track s);
  g_dmesh : disk_mesh (d_mesh s) = d_mesh s
}.

Lemma Good_init : Good true init_state.
Proof.
  split; cbn.
  - intros _. split; reflexivity.
  - intros _. apply track_ok_empty.
  - apply track_ok_empty.
  - reflexivity.
Qed.

Lemma Good_dirty {ok ok' s tr m k} : Good ok s -> (ok' = true -> track_ok tr) ->
  Good ok' (mkState tr m (d_track s) (d_mesh s) k true).
Proof. intros G Ht. split; cbn; [discriminate|exact Ht|apply G|apply G]. Qed.

Lemma Good_written ok s : Good ok s ->
  Good ok (mkState (s_track s) (s_mesh s) (disk_track (s_track s)) (disk_mesh (s_mesh s)) 0 false).
Proof.
  intros G. split; cbn.
  - intros _. split; reflexivity.
  - apply (g_mem ok s G).
  - apply track_ok_disk.
  - apply disk_mesh_idem.
Qed.

Lemma Good_commit : forall ok s, Good ok s -> Good ok (do_commit s).
Proof.
  intros ok s G. unfold do_commit.
  destruct (s_pending s), (s_dirty s); try exact G; apply Good_written, G.
Qed.

(* open: memory is what the disk held, so its track is track_ok whatever happened before *)
Lemma Good_open : forall ok ok' s, Good ok s -> Good ok' (do_open s).
Proof.
  intros ok ok' s G. pose proof (g_disk ok s G) as Hd. unfold do_open. split; cbn.
  - intros _. split; symmetry; [apply disk_track_ok, Hd|apply (g_dmesh ok s G)].
  - intros _. exact Hd.
  - exact Hd.
  - apply (g_dmesh ok s G).
Qed.

Lemma Good_step : forall ok s o, Good ok s -> Good (ok && negb (op_nonfinite o)) (mstep s o).
Proof.
  intros ok s o G. destruct o; cbn [mstep op_nonfinite negb]; rewrite ?andb_true_r, ?negb_involutive.
  - (* PutCard *) apply (Good_dirty G). intros H. apply andb_true_iff in H as [-> Hc].
    apply track_ok_add; [apply (g_mem true s G eq_refl)|exact Hc].
  - (* PutCards *) apply (Good_dirty G). intros H. apply andb_true_iff in H as [-> Hc].
    apply track_ok_fold; [apply (g_mem true s G eq_refl)|exact Hc].
  - (* AddNode *) apply (Good_dirty G), G.
  - (* AddEdge *) apply (Good_dirty G), G.
  - (* PutFrame *) apply (Good_dirty G), G.
  - apply Good_commit, G.
  - apply (Good_open ok), Good_commit, G.
  - apply (Good_open ok), G.
Qed.

Lemma Good_run_from : forall ops ok s, Good ok s ->
    Good (ok && negb (existsb op_nonfinite ops)) (fold_left mstep ops s).
Proof.
  induction ops as [|o r IH]; intros ok s G; cbn [fold_left existsb]; [rewrite andb_true_r; exact G|].
  rewrite negb_orb, andb_assoc. apply IH, Good_step, G.
Qed.

Lemma Good_run ops : Good (negb (known_class ops)) (mrun ops).
Proof. apply (Good_run_from ops true), Good_init. Qed.

Lemma commit_mem s : s_track (do_commit s) = s_track s /\ s_mesh (do_commit s) = s_mesh s.
Proof. unfold do_commit. destruct (s_pending s), (s_dirty s); split; reflexivity. Qed.

Lemma commit_disk ok s : Good ok s ->
  d_track (do_commit s) = disk_track (s_track s) /\ d_mesh (do_commit s) = disk_mesh (s_mesh s).
Proof.
  intros G. unfold do_commit. destruct (s_pending s), (s_dirty s) eqn:D; cbn.
  - split; reflexivity.
  - (* nothing pending, clean: the early return *) exact (g_sync ok s G D).
  - split; reflexivity.
  - split; reflexivity.
Qed.

Lemma put_frames_keep_disk k : forall st,
    d_track (fold_left mstep (repeat PutFrame k) st) = d_track st /\
    d_mesh (fold_left mstep (repeat PutFrame k) st) = d_mesh st.
Proof.
  induction k as [|k IH]; intro st; cbn [repeat fold_left]; [split; reflexivity|]. exact (IH (mstep st PutFrame)).
Qed.
