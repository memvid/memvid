(* C17 proofs: invariants of the lock-table model (Model/LockTable.v) over ALL interleaved op lists.
   Every operation of either protocol is a composition of nine moves (move), so a predicate kept by the
   moves is kept by every operation (keeps_step).  Both protocols keep the flock table sound (table_ok),
   so under either two live handles whose flocks sit on one inode are one.  What is left to a protocol is
   to keep the live handles' flocks on the inode the path names (live_on_path): the correct protocol
   does, with every live handle reading that file (coherent); the implementation does not, and `stale`
   is exactly the failure.  On histories without an inode-replacing step no file gets a log record, so
   the inode counter never moves (unrenamed), and by table_ok everything stays on inode 0. *)
From MV Require Import Base.Prelude Base.Facts Model.LockTable.
Local Open Scope N_scope.

Lemma upd_same {A} (f : N -> A) k v : upd f k v k = v.
Proof. unfold upd. now rewrite N.eqb_refl. Qed.
Lemma upd_other {A} (f : N -> A) k v x : x <> k -> upd f k v x = f x.
Proof. unfold upd. intros Hn. destruct (N.eqb_spec x k); [contradiction | reflexivity]. Qed.

Lemma upd_cases {A} (f : N -> A) k v x r :
  upd f k v x = r -> (x = k /\ v = r) \/ (x <> k /\ f x = r).
Proof. unfold upd. destruct (N.eqb_spec x k); intros; [left | right]; auto. Qed.

Definition each (P : handle -> Prop) (hs : N -> option handle) : Prop :=
  forall w h, hs w = Some h -> P h.

Lemma each_upd (P : handle -> Prop) hs w o :
  (forall v h, v <> w -> hs v = Some h -> P h) -> (forall h, o = Some h -> P h) -> each P (upd hs w o).
Proof. intros Hothers Hnew v h Hv. apply upd_cases in Hv as [[_ Hv]|[Hne Hv]]; eauto. Qed.

Lemma each_set (P : handle -> Prop) hs w h : each P hs -> P h -> each P (upd hs w (Some h)).
Proof. intros He Hh. apply each_upd; [intros v hv _; apply He | congruence]. Qed.

Lemma each_remove (P : handle -> Prop) hs w : each P hs -> each P (upd hs w None).
Proof. intros He. apply each_upd; [intros v hv _; apply He | discriminate]. Qed.

Definition same_handles (s s1 : st) : Prop :=
  s_hs s1 = s_hs s /\ incl (s_dom s) (s_dom s1) /\
  s_next s <= s_next s1 /\ (s_dir s < s_next s -> s_dir s1 < s_next s1).

Lemma same_refl s : same_handles s s.
Proof. split; [reflexivity|]. split; [apply incl_refl|]. split; [reflexivity | auto]. Qed.
Lemma same_set_file s i c : same_handles s (set_file s i c).
Proof. exact (same_refl s). Qed.
Lemma same_alloc s c : same_handles s (alloc s c).
Proof. split; [reflexivity|]. split; [apply incl_refl|]. cbn. split; [lia | intros _; lia]. Qed.
Lemma same_add_dom s w : same_handles s (add_dom s w).
Proof. split; [reflexivity|]. split; [apply incl_tl, incl_refl|]. split; [reflexivity | auto]. Qed.

Definition dom_ok (s : st) : Prop := forall w h, s_hs s w = Some h -> In w (s_dom s).

Lemma dom_ok_set s s1 w o :
  dom_ok s -> same_handles s s1 -> (o <> None -> In w (s_dom s1)) -> dom_ok (set_h s1 w o).
Proof.
  intros Hd (E & Hi & _) Hin v h Hv. cbn in *. rewrite E in Hv.
  apply upd_cases in Hv as [[-> Eo]|[_ Hv]]; [apply Hin; congruence | eapply Hi, Hd, Hv].
Qed.

(* an exclusive lock of one description excludes every lock of another description on the same inode *)
Definition compatible (h1 h2 : handle) : Prop :=
  h_lock_ino h1 = h_lock_ino h2 -> h_lock_mode h1 = LEx -> h_lock_mode h2 = LNone.

Definition lock_sound (hs : N -> option handle) : Prop :=
  forall w1 w2 h1 h2, w1 <> w2 -> hs w1 = Some h1 -> hs w2 = Some h2 -> compatible h1 h2.

Lemma sound_upd hs w o :
  lock_sound hs ->
  (forall h' v hv, o = Some h' -> v <> w -> hs v = Some hv -> compatible h' hv /\ compatible hv h') ->
  lock_sound (upd hs w o).
Proof.
  intros Hs Hc w1 w2 h1 h2 Hne H1 H2.
  apply upd_cases in H1 as [[-> E1]|[N1 H1]]; apply upd_cases in H2 as [[-> E2]|[N2 H2]].
  - contradiction.
  - apply (Hc h1 w2 h2 E1 N2 H2).
  - apply (Hc h2 w1 h1 E2 N1 H1).
  - exact (Hs w1 w2 h1 h2 Hne H1 H2).
Qed.

Lemma sound_remove hs w : lock_sound hs -> lock_sound (upd hs w None).
Proof. intros Hs. apply sound_upd; [exact Hs | discriminate]. Qed.

Lemma sound_set_free hs w h' :
  lock_sound hs -> h_lock_mode h' = LNone -> lock_sound (upd hs w (Some h')).
Proof.
  intros Hs Hf. apply sound_upd; [exact Hs|]. intros ? v hv [= <-] _ _.
  split; intros _ Hex; congruence.
Qed.

Lemma sound_set_keep hs w h h' :
  lock_sound hs -> hs w = Some h -> h_lock_ino h' = h_lock_ino h -> h_lock_mode h' = h_lock_mode h ->
  lock_sound (upd hs w (Some h')).
Proof.
  intros Hs Hw Hi Hm. apply sound_upd; [exact Hs|]. intros ? v hv [= <-] Hne Hv.
  pose proof (Hs w v h hv (not_eq_sym Hne) Hw Hv) as C1. pose proof (Hs v w hv h Hne Hv Hw) as C2.
  unfold compatible in *. rewrite Hi, Hm. split; assumption.
Qed.

Lemma lmode_free_none m : lmode_free m = true -> m = LNone.
Proof. destruct m; simpl; congruence. Qed.

Lemma others_hold_false s w i :
  dom_ok s -> others_hold s w i = false ->
  forall v hv, v <> w -> s_hs s v = Some hv -> holds_on i hv = false.
Proof.
  intros Hd Ho v hv Hvw Hv.
  apply existsb_false with (x := v) in Ho; [|eapply Hd, Hv].
  rewrite Hv in Ho. destruct (N.eqb_spec v w); [contradiction | exact Ho].
Qed.

(* try_lock_exclusive succeeded *)
Lemma sound_grant s w h' :
  dom_ok s -> lock_sound (s_hs s) -> others_hold s w (h_lock_ino h') = false ->
  lock_sound (upd (s_hs s) w (Some h')).
Proof.
  intros Hd Hs Ho. apply sound_upd; [exact Hs|]. intros ? v hv [= <-] Hne Hv.
  pose proof (others_hold_false s w _ Hd Ho v hv Hne Hv) as F. unfold holds_on in F.
  split; intros Hi Hex; [rewrite <- Hi, N.eqb_refl in F | rewrite Hi, N.eqb_refl, Hex in F; discriminate].
  apply lmode_free_none. now destruct (lmode_free (h_lock_mode hv)).
Qed.

Lemma sound_fresh_ino hs w h' :
  lock_sound hs ->
  (forall v hv, v <> w -> hs v = Some hv -> h_lock_ino hv <> h_lock_ino h') ->
  lock_sound (upd hs w (Some h')).
Proof.
  intros Hs Hf. apply sound_upd; [exact Hs|]. intros ? v hv [= <-] Hne Hv.
  pose proof (Hf v hv Hne Hv). split; intros Hi; congruence.
Qed.

Lemma sound_one_ex hs w1 w2 h1 h2 :
  lock_sound hs -> hs w1 = Some h1 -> hs w2 = Some h2 ->
  h_lock_mode h1 = LEx -> h_lock_mode h2 = LEx -> h_lock_ino h1 = h_lock_ino h2 -> w1 = w2.
Proof.
  intros Hs H1 H2 E1 E2 Hi. destruct (N.eq_dec w1 w2) as [|Hne]; [assumption|exfalso].
  pose proof (Hs w1 w2 h1 h2 Hne H1 H2 Hi E1). congruence.
Qed.

Definition with_ex (h : handle) : handle :=
  mkH (h_phase h) (h_lock_ino h) LEx (h_lock_fds h) (h_file_shared h) (h_file_ino h) (h_toc h) (h_wpos h) (h_dirty h) (h_tpend h).

Lemma try_lock_ex_some s w h h' :
  try_lock_ex s w h = Some h' -> others_hold s w (h_lock_ino h) = false /\ h' = with_ex h.
Proof.
  unfold try_lock_ex. destruct (others_hold s w (h_lock_ino h)); [discriminate|].
  intros [= <-]. split; reflexivity.
Qed.

(* drop(original self.file) in with_staging_lock: closes a descriptor of the lock description iff self.file was one *)
Definition file_dropped (h : handle) : handle := if h_file_shared h then close_lock_fd h else h.

Lemma file_dropped_lock h :
  (h_file_shared h = true -> h_lock_fds h = 2%nat) -> h_lock_mode (file_dropped h) = h_lock_mode h.
Proof.
  intros Hsh. unfold file_dropped. destruct (h_file_shared h); [|reflexivity].
  cbn. rewrite (Hsh eq_refl). reflexivity.
Qed.

Lemma file_dropped_ino h : h_lock_ino (file_dropped h) = h_lock_ino h.
Proof. unfold file_dropped. destruct (h_file_shared h); reflexivity. Qed.

(* open_locked leaves the handle live in place, or, when it found log records, as a commit does: on a new inode
   renamed over the path -- where the implementation keeps the old lock description and the correct protocol
   moves the lock *)
Definition live_in_place (h : handle) (toc : list N) (tp : bool) : handle :=
  mkH PLive (h_lock_ino h) (h_lock_mode h) (h_lock_fds h) (h_file_shared h) (h_file_ino h) toc 0 false tp.

Definition after_rename (fixed : bool) (s : st) (h : handle) (toc : list N) : handle :=
  if fixed then mkH PLive (s_next s) LEx 2 true (s_next s) toc 0 false false
  else mkH PLive (h_lock_ino (file_dropped h)) (h_lock_mode (file_dropped h)) (h_lock_fds (file_dropped h))
           false (s_next s) toc 0 false false.

Lemma go_live_eq fixed s w h :
  (exists toc tp, go_live fixed s w h =
     set_h (set_file s (h_file_ino h) (toc, [])) w (Some (live_in_place h toc tp))) \/
  (exists toc, snd (s_files s (h_file_ino h)) <> [] /\
     go_live fixed s w h = set_h (alloc s (toc, [])) w (Some (after_rename fixed s h toc))).
Proof.
  unfold go_live. destruct (s_files s (h_file_ino h)) as [c l].
  destruct (h_phase h) as [creating|]; [destruct creating|].
  - (* Memvid::create *)
    left. exists [], true. reflexivity.
  - (* Memvid::open *)
    destruct l as [|x l].
    + left. exists c, false. reflexivity.
    + right. exists (c ++ frames_of (x :: l)). split; [discriminate | destruct fixed; reflexivity].
  - (* a handle that is live already is treated like an opening one *)
    destruct l as [|x l].
    + left. exists c, false. reflexivity.
    + right. exists (c ++ frames_of (x :: l)). split; [discriminate | destruct fixed; reflexivity].
Qed.

Definition lockstep_of (fixed : bool) := if fixed then open_lock_fixed else open_lock_impl.
Definition commit_of (fixed : bool) := if fixed then commit_fixed else commit_impl.

(* one round of open's retry loop *)
Lemma lockstep_eq fixed s w :
  lockstep_of fixed s w = s \/
  exists h c, s_hs s w = Some h /\ h_phase h = PFd c /\ others_hold s w (h_lock_ino h) = false /\
    (lockstep_of fixed s w = go_live fixed s w (with_ex h) /\ (fixed = true -> h_lock_ino h = s_dir s) \/
     lockstep_of fixed s w = set_h s w (Some (fresh_handle s c)) /\ fixed = true).
Proof.
  destruct fixed; cbn [lockstep_of]; [unfold open_lock_fixed | unfold open_lock_impl].
  - destruct (s_hs s w) as [h|] eqn:E; [|left; reflexivity].
    destruct (h_phase h) as [c|] eqn:P; [|left; reflexivity].
    destruct (try_lock_ex s w h) as [h'|] eqn:T; [|left; reflexivity].
    apply try_lock_ex_some in T as [Ho ->]. cbn [with_ex h_lock_ino].
    right. exists h, c. split; [reflexivity|]. split; [exact P|]. split; [exact Ho|].
    destruct (N.eqb_spec (h_lock_ino h) (s_dir s)) as [Hd|Hd]; [left | right]; auto.
  - destruct (s_hs s w) as [h|] eqn:E; [|left; reflexivity].
    destruct (h_phase h) as [c|] eqn:P; [|left; reflexivity].
    destruct (try_lock_ex s w h) as [h'|] eqn:T; [|left; reflexivity].
    apply try_lock_ex_some in T as [Ho ->].
    right. exists h, c. split; [reflexivity|]. split; [exact P|]. split; [exact Ho|].
    left. split; [reflexivity | discriminate].
Qed.

Lemma commit_eq fixed s w :
  commit_of fixed s w = s \/
  exists h c l, s_hs s w = Some h /\ h_phase h = PLive /\ s_files s (h_file_ino h) = (c, l) /\
    commit_of fixed s w = set_h (alloc s (h_toc h ++ frames_of l, [])) w
                       (Some (after_rename fixed s h (h_toc h ++ frames_of l))).
Proof.
  destruct fixed; cbn [commit_of].
  - unfold commit_fixed.
    destruct (s_hs s w) as [h|]; [|left; reflexivity].
    destruct (h_phase h) eqn:P; [left; reflexivity|].
    destruct (s_files s (h_file_ino h)) as [c l] eqn:F.
    destruct l as [|x l]; [destruct (h_dirty h || h_tpend h)|].
    + (* nothing logged, but dirty *) right. exists h, c, []. exact (conj eq_refl (conj P (conj F eq_refl))).
    + (* nothing to commit *) left. reflexivity.
    + right. exists h, c, (x :: l). exact (conj eq_refl (conj P (conj F eq_refl))).
  - unfold commit_impl.
    destruct (s_hs s w) as [h|]; [|left; reflexivity].
    destruct (h_phase h) eqn:P; [left; reflexivity|].
    destruct (s_files s (h_file_ino h)) as [c l] eqn:F.
    destruct l as [|x l]; [destruct (h_dirty h || h_tpend h)|].
    + right. exists h, c, []. exact (conj eq_refl (conj P (conj F eq_refl))).
    + left. reflexivity.
    + right. exists h, c, (x :: l). exact (conj eq_refl (conj P (conj F eq_refl))).
Qed.

Lemma is_live_set s w h : h_phase h = PLive -> is_live (set_h s w (Some h)) w = true.
Proof. intros P. unfold is_live. cbn. now rewrite upd_same, P. Qed.

Lemma go_live_is_live fixed s w h : is_live (go_live fixed s w h) w = true.
Proof.
  destruct (go_live_eq fixed s w h) as [(toc & tp & ->)|(toc & _ & ->)]; apply is_live_set;
    [reflexivity | destruct fixed; reflexivity].
Qed.

Lemma give_up_live s w : is_live s w = true -> give_up s w = s.
Proof.
  unfold is_live, give_up. destruct (s_hs s w) as [h|]; [|discriminate].
  destruct (h_phase h); [discriminate|reflexivity].
Qed.

Lemma is_live_writable s w : is_live s w = true -> live_writable s w.
Proof.
  unfold is_live, live_writable. destruct (s_hs s w) as [h|]; [|discriminate].
  destruct (h_phase h) eqn:P; [discriminate|]. intros _. exists h. auto.
Qed.
Lemma live_writable_is_live s w : live_writable s w -> is_live s w = true.
Proof. intros [h [H P]]. unfold is_live. now rewrite H, P. Qed.

Definition live_b (s : st) (w : N) : bool := is_live s w.

(* a handle as open() leaves it *)
Definition entering (s : st) (h : handle) : Prop :=
  (exists c, h_phase h = PFd c) /\ h_lock_ino h = s_dir s /\ h_file_ino h = s_dir s /\
  h_lock_mode h = LNone /\ (h_file_shared h = true -> h_lock_fds h = 2%nat).

Lemma entering_fresh s c : entering s (fresh_handle s c).
Proof. split; [exists c; reflexivity | cbn; auto]. Qed.

(* try_lock_exclusive succeeds; the correct protocol goes on only if the path still names the inode *)
Definition granted (fixed : bool) (s : st) (w : N) (h : handle) : Prop :=
  (exists c, h_phase h = PFd c) /\ others_hold s w (h_lock_ino h) = false /\
  (fixed = true -> h_lock_ino h = s_dir s).

(* In order: open(path) by a new handle; the correct protocol's re-open after a grant on a replaced inode;
   every descriptor closed (kill, drop, the retry loop run out); Memvid::create's truncation before the lock;
   the grant followed by open_locked, in place or with a replay; mark_dirty; put; a commit that has work.
   The index says whether only quiet histories are meant: put and commit are moves of the others only. *)
Inductive move (fixed : bool) : bool -> st -> st -> Prop :=
| m_enter q s w h : entering s h -> move fixed q s (set_h (add_dom s w) w (Some h))
| m_restart q s w h c : fixed = true -> s_hs s w = Some h ->
    move fixed q s (set_h s w (Some (fresh_handle s c)))
| m_leave q s w : move fixed q s (set_h s w None)
| m_truncate q s : fixed = false -> move fixed q s (set_file s (s_dir s) ([], []))
| m_live q s w h toc tp : s_hs s w = Some h -> granted fixed s w h ->
    move fixed q s (set_h (set_file s (h_file_ino h) (toc, [])) w (Some (live_in_place (with_ex h) toc tp)))
| m_live_replay q s w h toc : s_hs s w = Some h -> granted fixed s w h ->
    snd (s_files s (h_file_ino h)) <> [] ->
    move fixed q s (set_h (alloc s (toc, [])) w (Some (after_rename fixed s (with_ex h) toc)))
| m_mark q s w h : s_hs s w = Some h ->
    move fixed q s (set_h s w (Some (mkH (h_phase h) (h_lock_ino h) (h_lock_mode h) (h_lock_fds h) (h_file_shared h)
                                         (h_file_ino h) (h_toc h) (h_wpos h) true (h_tpend h))))
| m_put s w h c l t : s_hs s w = Some h -> h_phase h = PLive -> s_files s (h_file_ino h) = (c, l) ->
    move fixed false s
      (set_h (set_file s (h_file_ino h) (c, firstn (h_wpos h) l ++ [t])) w
             (Some (mkH PLive (h_lock_ino h) (h_lock_mode h) (h_lock_fds h) (h_file_shared h)
                        (h_file_ino h) (h_toc h) (S (h_wpos h)) true (h_tpend h))))
| m_commit s w h c l : s_hs s w = Some h -> h_phase h = PLive -> s_files s (h_file_ino h) = (c, l) ->
    move fixed false s (set_h (alloc s (h_toc h ++ frames_of l, [])) w
                              (Some (after_rename fixed s h (h_toc h ++ frames_of l)))).

Definition step_of (fixed : bool) (s : st) (o : op) : st :=
  match o with
  | OpenFd w => open_fd false false s w
  | CreateFd w => open_fd (negb fixed) true s w
  | OpenLock w => lockstep_of fixed s w
  | GiveUp w => give_up s w
  | Open w => open_all (lockstep_of fixed) false false s w
  | Create w => open_all (lockstep_of fixed) (negb fixed) true s w
  | TryOpen w => try_open_with (lockstep_of fixed) s w
  | Put w t => put s w t
  | Commit w => commit_of fixed s w
  | Vacuum w => commit_of fixed s w
  | Drop w => drop_with (commit_of fixed) s w
  | Kill w => kill s w
  | Doctor w => match s_hs s w with
                | Some _ => s
                | None => drop_with (commit_of fixed) (mark_dirty (try_open_with (lockstep_of fixed) s w) w) w
                end
  | Touch w => s
  | EnableVec w => set_dirty_live s w
  end.

Lemma step_of_impl s o : step_of false s o = step_impl s o.
Proof. destruct o; reflexivity. Qed.
Lemma step_of_fixed s o : step_of true s o = step_fixed s o.
Proof. destruct o; reflexivity. Qed.

Section Keeps.
  Variables (fixed q : bool) (I : st -> Prop).
  Hypothesis I_move : forall s s', move fixed q s s' -> I s -> I s'.

  (* only the implementation truncates before the lock *)
  Lemma keeps_open_fd trunc c s w : (trunc = true -> fixed = false) -> I s -> I (open_fd trunc c s w).
  Proof.
    intros Ht H. unfold open_fd. destruct (s_hs s w); [exact H|].
    apply (I_move _ _ (m_enter fixed q _ w _ (entering_fresh _ c))).
    destruct trunc; [|exact H]. exact (I_move _ _ (m_truncate fixed q s (Ht eq_refl)) H).
  Qed.

  Lemma keeps_give_up s w : I s -> I (give_up s w).
  Proof.
    intros H. unfold give_up. destruct (s_hs s w) as [h|]; [|exact H].
    destruct (h_phase h); [exact (I_move _ _ (m_leave fixed q s w) H) | exact H].
  Qed.

  Lemma keeps_lockstep s w : I s -> I (lockstep_of fixed s w).
  Proof.
    intros H. destruct (lockstep_eq fixed s w) as [->|(h & c & E & P & Ho & [[-> Hd]|[-> F]])].
    - exact H.
    - assert (G : granted fixed s w h) by (split; [exists c; exact P | split; [exact Ho | exact Hd]]).
      destruct (go_live_eq fixed s w (with_ex h)) as [(toc & tp & ->)|(toc & Hl & ->)].
      + exact (I_move _ _ (m_live fixed q s w h toc tp E G) H).
      + exact (I_move _ _ (m_live_replay fixed q s w h toc E G Hl) H).
    - exact (I_move _ _ (m_restart fixed q s w h c F E) H).
  Qed.

  Lemma keeps_open_all trunc c s w :
    (trunc = true -> fixed = false) -> I s -> I (open_all (lockstep_of fixed) trunc c s w).
  Proof.
    intros Ht H. unfold open_all. destruct (s_hs s w); [exact H|].
    apply keeps_give_up, keeps_lockstep, keeps_open_fd; assumption.
  Qed.

  Lemma keeps_try_open s w : I s -> I (try_open_with (lockstep_of fixed) s w).
  Proof.
    intros H. unfold try_open_with. destruct (s_hs s w); [exact H|].
    apply keeps_give_up, keeps_lockstep. refine (I_move _ _ (m_enter fixed q s w _ _) H).
    split; [exists false; reflexivity | cbn; repeat split; discriminate].
  Qed.

  Lemma keeps_mark_dirty s w : I s -> I (mark_dirty s w).
  Proof.
    intros H. unfold mark_dirty. destruct (s_hs s w) as [h|] eqn:E; [|exact H].
    exact (I_move _ _ (m_mark fixed q s w h E) H).
  Qed.

  Lemma keeps_set_dirty_live s w : I s -> I (set_dirty_live s w).
  Proof. intros H. unfold set_dirty_live. destruct (is_live s w); [apply keeps_mark_dirty|]; exact H. Qed.

  Lemma keeps_put s w t : q = false -> I s -> I (put s w t).
  Proof.
    intros Hq H. unfold put. destruct (s_hs s w) as [h|] eqn:E; [|exact H].
    destruct (h_phase h) eqn:P; [exact H|].
    destruct (s_files s (h_file_ino h)) as [c l] eqn:F.
    rewrite Hq in I_move. exact (I_move _ _ (m_put fixed s w h c l t E P F) H).
  Qed.

  Lemma keeps_commit s w : q = false -> I s -> I (commit_of fixed s w).
  Proof.
    intros Hq H. destruct (commit_eq fixed s w) as [->|(h & c & l & E & P & F & ->)]; [exact H|].
    rewrite Hq in I_move. exact (I_move _ _ (m_commit fixed s w h c l E P F) H).
  Qed.

  Lemma keeps_drop s w : q = false -> I s -> I (drop_with (commit_of fixed) s w).
  Proof.
    intros Hq H. unfold drop_with. destruct (s_hs s w) as [h|]; [|exact H].
    destruct (h_phase h); apply (I_move _ _ (m_leave fixed q _ w)); [exact H|].
    destruct (h_dirty h); [apply keeps_commit|]; assumption.
  Qed.

  Theorem keeps_step o s : (quiet_op o = false -> q = false) -> I s -> I (step_of fixed s o).
  Proof.
    intros Hq H. destruct o as [w|w|w|w|w|w|w|w t|w|w|w|w|w|w|w]; cbn [step_of].
    - apply keeps_open_fd; [discriminate | exact H].
    - apply keeps_open_fd; [exact (proj1 (negb_true_iff fixed)) | exact H].
    - apply keeps_lockstep, H.
    - apply keeps_give_up, H.
    - apply keeps_open_all; [discriminate | exact H].
    - apply keeps_open_all; [exact (proj1 (negb_true_iff fixed)) | exact H].
    - apply keeps_try_open, H.
    - apply keeps_put; [exact (Hq eq_refl) | exact H].
    - apply keeps_commit; [exact (Hq eq_refl) | exact H].
    - apply keeps_commit; [exact (Hq eq_refl) | exact H].
    - apply keeps_drop; [exact (Hq eq_refl) | exact H].
    - exact (I_move _ _ (m_leave fixed q s w) H).
    - (* Doctor *)
      destruct (s_hs s w); [exact H|].
      apply keeps_drop; [exact (Hq eq_refl)|]. apply keeps_mark_dirty, keeps_try_open, H.
    - exact H.
    - apply keeps_set_dirty_live, H.
  Qed.
End Keeps.

Definition inodes_below (n : N) (h : handle) : Prop := h_lock_ino h < n /\ h_file_ino h < n.

(* no lock is ever lost: a live handle holds the flock its open was granted, whatever the path names now *)
Definition held (h : handle) : Prop :=
  (h_phase h = PLive -> h_lock_mode h = LEx) /\ (h_file_shared h = true -> h_lock_fds h = 2%nat).

Record table_ok (s : st) : Prop := {
  t_dom : dom_ok s;
  t_sound : lock_sound (s_hs s);
  t_dir : s_dir s < s_next s;
  t_below : each (inodes_below (s_next s)) (s_hs s);
  t_held : each held (s_hs s)
}.

Lemma table_ok_init : table_ok init.
Proof. split; cbn; try (intros ? **; discriminate). lia. Qed.

Lemma table_ok_set s s1 w h :
  table_ok s -> same_handles s s1 -> In w (s_dom s1) -> inodes_below (s_next s1) h -> held h ->
  lock_sound (upd (s_hs s) w (Some h)) -> table_ok (set_h s1 w (Some h)).
Proof.
  intros [Hd Hs Hdir Hb Hh] Hsame Hin Bh Lh Hsnd. pose proof Hsame as (Ehs & _ & Hn & Hdir1). split.
  - apply (dom_ok_set s); auto.
  - cbn. rewrite Ehs. exact Hsnd.
  - exact (Hdir1 Hdir).
  - cbn. rewrite Ehs. apply each_upd; [|intros ? [= <-]; exact Bh].
    intros v hv _ Hv. destruct (Hb v hv Hv) as [B1 B2]. split; lia.
  - cbn. rewrite Ehs. apply each_set; assumption.
Qed.

(* the implementation keeps the old description, whose lock survives the drop of self.file since both
   descriptors were open; the correct protocol locks the new inode, where nobody can be *)
Lemma after_rename_ok fixed s w h toc :
  table_ok s -> s_hs s w = Some h -> (h_lock_mode h = LEx \/ others_hold s w (h_lock_ino h) = false) ->
  table_ok (set_h (alloc s (toc, [])) w (Some (after_rename fixed s (with_ex h) toc))).
Proof.
  intros H E Hm. destruct (t_below s H w h E) as [Hb _].
  (* inodes_below, held, soundness: each for the correct protocol, then for the implementation *)
  apply (table_ok_set s); [exact H | apply same_alloc | exact (t_dom s H w h E) | | | ]; destruct fixed; cbn [after_rename].
  - split; cbn; lia.
  - split; cbn; [rewrite file_dropped_ino; cbn|]; lia.
  - split; reflexivity.
  - split; [intros _; exact (file_dropped_lock (with_ex h) (proj2 (t_held s H w h E))) | discriminate].
  - apply sound_fresh_ino; [apply H|]. cbn. intros v hv _ Hv. destruct (t_below s H v hv Hv) as [B _]. lia.
  - cbn. rewrite (file_dropped_lock (with_ex h) (proj2 (t_held s H w h E))), file_dropped_ino.
    destruct Hm as [Hm|Ho].
    + apply (sound_set_keep _ w h); [apply H | exact E | reflexivity | cbn; congruence].
    + apply sound_grant; [apply H | apply H | exact Ho].
Qed.

Lemma after_rename_held fixed s h toc :
  h_lock_mode h = LEx -> after_rename fixed s (with_ex h) toc = after_rename fixed s h toc.
Proof. destruct h. cbn. intros ->. reflexivity. Qed.

Lemma table_ok_move fixed q s s' : move fixed q s s' -> table_ok s -> table_ok s'.
Proof.
  intros M H.
  destruct M as [q s w h He | q s w h c F E | q s w | q s F | q s w h toc tp E G
                | q s w h toc E G Hl | q s w h E | s w h c l t E P F | s w h c l E P F].
  - destruct He as ((c & P) & Hi & Hf & Hm & Hsh).
    apply (table_ok_set s); [exact H | apply same_add_dom | left; reflexivity | | | ].
    + unfold inodes_below. rewrite Hi, Hf. split; apply H.
    + split; [congruence | exact Hsh].
    + apply sound_set_free; [apply H | exact Hm].
  - (* m_restart *)
    apply (table_ok_set s); [exact H | apply same_refl | exact (t_dom s H w h E) | split; apply H | | ].
    + split; [discriminate | reflexivity].
    + apply sound_set_free; [apply H | reflexivity].
  - (* m_leave *)
    destruct H as [Hd Hs Hdir Hb Hh]. split; cbn.
    + apply (dom_ok_set s); [exact Hd | apply same_refl | congruence].
    + now apply sound_remove.
    + exact Hdir.
    + now apply each_remove.
    + now apply each_remove.
  - (* m_truncate: the table reads no file *) destruct H as [Hd Hs Hdir Hb Hh]. split; assumption.
  - (* m_live *)
    destruct G as (_ & Ho & _).
    apply (table_ok_set s); [exact H | apply same_set_file | exact (t_dom s H w h E) | exact (t_below s H w h E) | | ].
    + split; [reflexivity | exact (proj2 (t_held s H w h E))].
    + apply sound_grant; [apply H | apply H | exact Ho].
  - (* m_live_replay *) exact (after_rename_ok fixed s w h toc H E (or_intror (proj1 (proj2 G)))).
  - (* m_mark *)
    apply (table_ok_set s); [exact H | apply same_refl | exact (t_dom s H w h E) | exact (t_below s H w h E) | exact (t_held s H w h E) | ].
    apply (sound_set_keep _ w h); [apply H | exact E | reflexivity | reflexivity].
  - (* m_put *)
    apply (table_ok_set s); [exact H | apply same_set_file | exact (t_dom s H w h E) | exact (t_below s H w h E) | | ].
    + split; [intros _; exact (proj1 (t_held s H w h E) P) | exact (proj2 (t_held s H w h E))].
    + apply (sound_set_keep _ w h); [apply H | exact E | reflexivity | reflexivity].
  - (* m_commit *)
    pose proof (proj1 (t_held s H w h E) P) as Hex. rewrite <- (after_rename_held fixed s h _ Hex).
    exact (after_rename_ok fixed s w h _ H E (or_introl Hex)).
Qed.

Lemma table_ok_step fixed s o : table_ok s -> table_ok (step_of fixed s o).
Proof. apply (keeps_step fixed (quiet_op o)); [exact (table_ok_move fixed _) | exact (fun E => E)]. Qed.

Lemma table_ok_impl ops : table_ok (run_impl ops).
Proof.
  apply (fold_left_invariant step_impl table_ok); [|exact table_ok_init].
  intros s o. rewrite <- step_of_impl. apply table_ok_step.
Qed.

Lemma one_writer_per_inode s w1 w2 h1 h2 :
  table_ok s -> s_hs s w1 = Some h1 -> s_hs s w2 = Some h2 ->
  h_phase h1 = PLive -> h_phase h2 = PLive -> h_lock_ino h1 = h_lock_ino h2 -> w1 = w2.
Proof.
  intros T H1 H2 P1 P2.
  exact (sound_one_ex _ w1 w2 h1 h2 (t_sound s T) H1 H2 (proj1 (t_held s T w1 h1 H1) P1) (proj1 (t_held s T w2 h2 H2) P2)).
Qed.

Definition live_on_path (s : st) : Prop :=
  forall w h, s_hs s w = Some h -> h_phase h = PLive -> h_lock_ino h = s_dir s.

Lemma on_path_one_writer s : table_ok s -> live_on_path s -> one_writer s.
Proof.
  intros T Hl w1 w2 [h1 [H1 P1]] [h2 [H2 P2]].
  apply (one_writer_per_inode s w1 w2 h1 h2 T H1 H2 P1 P2). rewrite (Hl w1 h1 H1 P1), (Hl w2 h2 H2 P2). reflexivity.
Qed.

Lemma stale_false_iff s : dom_ok s -> stale s = false <-> live_on_path s.
Proof.
  intros Hd. split.
  - intros Hst w h Hw P.
    apply existsb_false with (x := w) in Hst; [|eapply Hd, Hw].
    rewrite Hw in Hst. unfold stale_handle in Hst. rewrite P in Hst.
    apply N.eqb_eq. now destruct (h_lock_ino h =? s_dir s).
  - intros Hl. unfold stale. destruct (existsb _ _) eqn:E; [exfalso|reflexivity].
    apply existsb_exists in E as [w [_ Hw]].
    destruct (s_hs s w) as [h|] eqn:Eh; [|discriminate].
    unfold stale_handle in Hw. destruct (h_phase h) eqn:P; [discriminate|].
    rewrite (Hl w h Eh P), N.eqb_refl in Hw. discriminate.
Qed.

Theorem impl_one_writer_outside_known ops :
  stale (run_impl ops) = false -> one_writer (run_impl ops).
Proof.
  intros Hst. pose proof (table_ok_impl ops) as T.
  apply (on_path_one_writer _ T), (stale_false_iff _ (t_dom _ T)), Hst.
Qed.

Definition unrenamed (s : st) : Prop := s_next s = 1 /\ forall i, snd (s_files s i) = [].

Lemma unrenamed_set_file s i toc : unrenamed s -> unrenamed (set_file s i (toc, [])).
Proof.
  intros [Hn Hl]. split; [exact Hn|]. intros j. cbn. unfold upd. destruct (j =? i); [reflexivity | apply Hl].
Qed.

Lemma unrenamed_move fixed s s' : move fixed true s s' -> unrenamed s -> unrenamed s'.
Proof.
  intros M U. remember true as q eqn:Q.
  destruct M as [q s w h He | q s w h c F E | q s w | q s F | q s w h toc tp E G
                | q s w h toc E G Hr | q s w h E | s w h c l t E P F | s w h c l E P F].
  - exact U.
  - exact U.
  - exact U.
  - exact (unrenamed_set_file s _ _ U).
  - exact (unrenamed_set_file s _ _ U).
  - (* m_live_replay: nothing to replay *) destruct (Hr (proj2 U _)).
  - exact U.
  - discriminate Q.
  - discriminate Q.
Qed.

Lemma unrenamed_run ops : forallb quiet_op ops = true -> unrenamed (run_impl ops).
Proof.
  intros Hq. apply (fold_left_invariant_In step_impl unrenamed); [|split; reflexivity].
  intros s o Ho. rewrite <- step_of_impl. apply (keeps_step false true unrenamed (unrenamed_move false)).
  rewrite (proj1 (forallb_forall _ _) Hq o Ho). discriminate.
Qed.

Definition coherent (s : st) (h : handle) : Prop :=
  match h_phase h with
  | PLive => h_lock_ino h = s_dir s /\ h_file_ino h = s_dir s /\
             h_toc h = fst (s_files s (s_dir s)) /\ h_wpos h = length (snd (s_files s (s_dir s)))
  | PFd _ => h_file_ino h = h_lock_ino h
  end.

Definition sole_writer (s : st) (w : N) : Prop :=
  forall v hv, v <> w -> s_hs s v = Some hv -> h_phase hv <> PLive.

Section Coherent.
  Variable s : st.
  Hypothesis T : table_ok s.
  Hypothesis H : each (coherent s) (s_hs s).

  Lemma coherent_live w h : s_hs s w = Some h -> h_phase h = PLive ->
    h_lock_mode h = LEx /\ h_lock_ino h = s_dir s /\ h_file_ino h = s_dir s /\
    h_toc h = fst (s_files s (s_dir s)) /\ h_wpos h = length (snd (s_files s (s_dir s))).
  Proof.
    intros Hw P. pose proof (H w h Hw) as C. unfold coherent in C. rewrite P in C.
    exact (conj (proj1 (t_held s T w h Hw) P) C).
  Qed.

  Lemma coherent_on_path : live_on_path s.
  Proof. intros w h Hw P. apply (coherent_live w h Hw P). Qed.

  Lemma granted_alone w : others_hold s w (s_dir s) = false -> sole_writer s w.
  Proof.
    intros Ho v hv Hvw Hv P.
    pose proof (others_hold_false s w _ (t_dom s T) Ho v hv Hvw Hv) as F.
    destruct (coherent_live v hv Hv P) as (Hm & Hino & _).
    unfold holds_on in F. rewrite Hino, N.eqb_refl, Hm in F. discriminate.
  Qed.

  Lemma live_alone w h : s_hs s w = Some h -> h_phase h = PLive -> sole_writer s w.
  Proof.
    intros Hw P v hv Hvw Hv Pv.
    exact (Hvw (on_path_one_writer s T coherent_on_path v w (ex_intro _ hv (conj Hv Pv)) (ex_intro _ h (conj Hw P)))).
  Qed.

  (* waiting handles do not care what the sole writer does to files and path *)
  Lemma alone_set s1 w h : sole_writer s w -> s_hs s1 = s_hs s -> coherent s1 h ->
    each (coherent (set_h s1 w (Some h))) (s_hs (set_h s1 w (Some h))).
  Proof.
    intros Alone Ehs Hh. cbn [set_h s_hs]. rewrite Ehs. apply each_upd; [|intros ? [= <-]; exact Hh].
    intros v hv Hne Hv. pose proof (H v hv Hv) as C. pose proof (Alone v hv Hne Hv) as P.
    unfold coherent in *. destruct (h_phase hv); [exact C | contradiction].
  Qed.
End Coherent.

Lemma coherent_move q s s' :
  move true q s s' -> table_ok s -> each (coherent s) (s_hs s) -> each (coherent s') (s_hs s').
Proof.
  intros M T H.
  destruct M as [q s w h He | q s w h c F E | q s w | q s F | q s w h toc tp E G
                | q s w h toc E G Hl | q s w h E | s w h c l t E P F | s w h c l E P F].
  - destruct He as ((c & P) & Hi & Hf & _).
    apply (each_set _ (s_hs s)); [exact H | unfold coherent; rewrite P; congruence].
  - (* m_restart *) apply (each_set _ (s_hs s)); [exact H | reflexivity].
  - apply each_remove, H.
  - discriminate F.
  - (* m_live: granted on the path's inode, so alone *)
    destruct G as ((c & P) & Ho & Hd). specialize (Hd eq_refl). rewrite Hd in Ho.
    pose proof (H w h E) as Hfi. unfold coherent in Hfi. rewrite P in Hfi.
    apply (alone_set s H); [exact (granted_alone s T H w Ho) | reflexivity|].
    unfold coherent. cbn. rewrite Hfi, Hd, upd_same. auto.
  - (* m_live_replay *)
    destruct G as (_ & Ho & Hd). specialize (Hd eq_refl). rewrite Hd in Ho.
    apply (alone_set s H); [exact (granted_alone s T H w Ho) | reflexivity|].
    unfold coherent. cbn. rewrite upd_same. auto.
  - (* m_mark: coherent does not read the dirty flag *)
    apply (each_set _ (s_hs s)); [exact H | exact (H w h E)].
  - (* m_put: alone; its write position is the end of the log, so it appends *)
    destruct (coherent_live s T H w h E P) as (_ & Hino & Hfi & Htoc & Hwp).
    apply (alone_set s H); [exact (live_alone s T H w h E P) | reflexivity|].
    rewrite Hfi in F. rewrite F in Htoc, Hwp. cbn [fst snd] in Htoc, Hwp.
    unfold coherent. cbn. rewrite Hfi, upd_same. cbn.
    rewrite Hwp, firstn_all, app_length. cbn. repeat split; auto. lia.
  - (* m_commit *)
    apply (alone_set s H); [exact (live_alone s T H w h E P) | reflexivity|].
    unfold coherent. cbn. rewrite upd_same. auto.
Qed.

Record inv_fixed (s : st) : Prop := {
  if_table : table_ok s;
  if_each : each (coherent s) (s_hs s)
}.

Lemma inv_fixed_init : inv_fixed init.
Proof. split; [exact table_ok_init | intros w h Hw; discriminate Hw]. Qed.

Lemma inv_fixed_step s o : inv_fixed s -> inv_fixed (step_fixed s o).
Proof.
  rewrite <- step_of_fixed. apply (keeps_step true (quiet_op o)); [|exact (fun E => E)].
  intros s0 s1 M [T H]. split; [exact (table_ok_move true (quiet_op o) s0 s1 M T) | exact (coherent_move (quiet_op o) s0 s1 M T H)].
Qed.

Lemma inv_fixed_run ops : inv_fixed (run_fixed ops).
Proof. apply (fold_left_invariant step_fixed inv_fixed); [exact inv_fixed_step|]. apply inv_fixed_init. Qed.

(* a temporary FileLock on a clone of self.file inside a writer's operation, before the handle's first
   commit (C17_guard_on_clone_admits_second_writer) *)
Definition before_guard : list op := [Create 0; Touch 0; Put 0 1].

(* why the quiet histories exclude put: replaying a log on open renames (C17_replay_on_open_refuted) *)
Definition witness_replay_on_open : list op := [Create 0; Put 0 1; Kill 0; Open 1; Open 2].

Definition witness_two_writers : list op := [Create 0; Commit 0; Open 1].

Lemma witness_is_stale : stale (run_impl witness_two_writers) = true.
Proof. vm_compute. reflexivity. Qed.

Definition witness_lost_commit : list op :=
  [Open 0; Put 0 1; Commit 0; Open 1; Put 0 2; Commit 0; Put 1 3; Commit 1].

(* handle 1 waits in the retry loop on the inode the path named when it started, while 0 commits twice and closes *)
Definition witness_waiter : list op :=
  [Open 0; OpenFd 1; OpenLock 1; Put 0 1; Commit 0; Put 0 2; Commit 0; Drop 0; OpenLock 1; Put 1 3; Commit 1].

Definition witness_failed_create : list op := [Open 0; Put 0 7; Put 0 8; Create 1].
