(* Proofs about Model/Doctor.v (C21), part 2.  `sound` and `damage`: the property's fault model; every
   damaged sound file is `wf`.  The phases on an opened handle end in a `settled` file, given in closed form
   (`run_phases_settles`); that it is healthy is read off it (`settled_healthy`).  `healed f m`: what a run
   makes of a listed file.  `doctor_opens`: the file a run opens, whatever state the log is in; `doctor_run`
   is the theorem the others are instances of. *)
From MV Require Import Base.Prelude Model.Doctor Proofs.DoctorProofs.
Local Open Scope N_scope.

(* a file as commit leaves it (indexes in any state), closed normally or crash-interrupted with pending records *)
Definition sound (f : afile) : Prop :=
  f_ptr f = f_toc f /\ f_H f = f_S f /\ f_S f = f_C f /\ f_footer f = true /\ f_tocbytes f = true /\
  f_tocdec f = true /\ f_older f = None /\ log_ok f.

Inductive damage :=
| DNone
| DPtr (p : N)        (* header.footer_offset overwritten: +-k, zero, beyond EOF, the footer's position *)
| DHdrCk (h : N)      (* header.toc_checksum flipped *)
| DTocCk (s : N)      (* the checksum stored inside the TOC flipped (the footer hash then no longer matches) *)
| DFooter             (* footer magic / toc_len / toc_hash flipped *)
| DFooterGen          (* footer generation flipped: not covered by any check *)
| DTime | DVec        (* time index / vector index zeroed *)
| DLexSeg.            (* a Tantivy segment zeroed: not looked at by probe, open or verify *)

Definition damage_file (d : damage) (f : afile) : afile :=
  match d with
  | DNone | DFooterGen | DLexSeg => f
  | DPtr p => with_hdr f p (f_H f)
  | DHdrCk h => with_hdr f (f_ptr f) h
  | DTocCk s => mkFile (f_ptr f) (f_toc f) (f_foot f) (f_H f) s (f_C f) (f_footer f) false (f_tocdec f) (f_older f)
                       (f_wal f) (f_seq f) (f_time f) (f_lex f) (f_vec f) (f_nvec f) (f_rows f)
  | DFooter => mkFile (f_ptr f) (f_toc f) (f_foot f) (f_H f) (f_S f) (f_C f) false (f_tocbytes f) (f_tocdec f) (f_older f)
                      (f_wal f) (f_seq f) (f_time f) (f_lex f) (f_vec f) (f_nvec f) (f_rows f)
  | DTime => mkFile (f_ptr f) (f_toc f) (f_foot f) (f_H f) (f_S f) (f_C f) (f_footer f) (f_tocbytes f) (f_tocdec f) (f_older f)
                    (f_wal f) (f_seq f) IxBad (f_lex f) (f_vec f) (f_nvec f) (f_rows f)
  | DVec => mkFile (f_ptr f) (f_toc f) (f_foot f) (f_H f) (f_S f) (f_C f) (f_footer f) (f_tocbytes f) (f_tocdec f) (f_older f)
                   (f_wal f) (f_seq f) (f_time f) (f_lex f) IxBad (f_nvec f) (f_rows f)
  end.

(* a pointer damage leaves footer and TOC bytes intact; every other damage leaves the pointer on the TOC *)
Lemma damage_wf : forall d f, sound f -> wf (damage_file d f) /\ view (damage_file d f) = view f.
Proof.
  intros d f (Hp & _ & _ & Hf & Htb & Hd & Ho & Hl).
  split; [|destruct d; reflexivity].
  split; [destruct d; exact Hd|]. split; [destruct d; exact Ho|]. split; [destruct d; exact Hl|].
  destruct d; try (right; exact Hp). left. split; [exact Hf|exact Htb].
Qed.

Lemma healthy_verify m : healthy m -> verify m = Ok true.
Proof.
  intros (_ & _ & HS & Hf & Htb & Hd & Hw & Ht & _). unfold verify.
  rewrite Hf, Htb, Hd, HS, N.eqb_refl, Hw. destruct Ht as [->|[-> _]]; reflexivity.
Qed.

Lemma healthy_wf : forall m, healthy m -> f_older m = None -> wf m /\ known_toc_cksum m = false.
Proof.
  intros m (_ & _ & HS & Hf & Htb & Hd & Hw & _) Ho. split.
  - split; [exact Hd|]. split; [exact Ho|]. split; [unfold log_ok; rewrite Hw; exact I|]. left. split; [exact Hf|exact Htb].
  - rewrite known_toc_cksum_eq, HS, N.eqb_refl. reflexivity.
Qed.

Lemma healthy_noop o m : healthy m -> f_older m = None -> is_noop (compute o m) = negb (forces o).
Proof.
  intros Hh Ho. apply Bool.eq_iff_eq_true. rewrite (is_noop_wf o m (proj1 (healthy_wf m Hh Ho))), negb_true_iff.
  destruct Hh as (Hp & HH & _ & Hf & Htb & Hd & Hw & Ht & Hv).
  assert (read_toc m = true) by (apply read_toc_true; auto).
  assert (replayed m = false) by (unfold replayed; rewrite Hw; reflexivity).
  assert (needs_time_of m = false) by (unfold needs_time_of, needs_time; destruct Ht as [->|[-> ->]]; reflexivity).
  assert (vec_bad (f_vec m) = false) by (destruct (f_vec m); [reflexivity..|contradiction Hv; reflexivity]).
  tauto.
Qed.

(* pointer and TOC offset as one variable: every TOC rewrite lands on the TOC, and the result is again of that shape *)
Lemma rewrite_toc_ptr_on_toc : forall toc foot H S C footer tocbytes tocdec older wal seq time lex vec nvec rows b,
  rewrite_toc (mkFile toc toc foot H S C footer tocbytes tocdec older wal seq time lex vec nvec rows) b
  = mkFile toc toc foot (C + 1) (C + 1) (C + 1) true true true older wal seq time lex vec nvec rows.
Proof. intros. unfold rewrite_toc. cbn [f_ptr f_toc]. rewrite N.eqb_refl. reflexivity. Qed.

Lemma vacuum_ptr_on_toc : forall toc foot H S C footer tocbytes tocdec older wal seq time lex vec nvec rows b,
  vacuum (mkFile toc toc foot H S C footer tocbytes tocdec older wal seq time lex vec nvec rows) b
  = mkFile toc toc foot (C + 1) (C + 1) (C + 1) true true true None wal seq
           (match time with IxBad => IxBad | _ => IxOk end) lex vec nvec rows.
Proof. intros. unfold vacuum. rewrite rewrite_toc_ptr_on_toc. reflexivity. Qed.

Lemma rebuild_ptr_on_toc : forall toc foot H S C footer tocbytes tocdec older wal seq time lex vec nvec rows t l v b,
  t || l || v = true ->
  rebuild (mkFile toc toc foot H S C footer tocbytes tocdec older wal seq time lex vec nvec rows) t l v b
  = mkFile toc toc foot (C + 1) (C + 1) (C + 1) true true true None WClean 0 IxOk (lex || l)
           (if v then vec_reencoded vec else vec) (if v && vec_bad vec then 0 else nvec) rows.
Proof.
  intros until b. intros Hany. unfold rebuild. rewrite Hany, rewrite_toc_ptr_on_toc. unfold reset_wal, zero_log.
  cbn [f_ptr f_toc f_foot f_H f_S f_C f_footer f_tocbytes f_tocdec f_older f_wal f_seq f_time f_lex f_vec f_nvec f_rows].
  rewrite N.eqb_refl. reflexivity.
Qed.

Lemma rebuild_none : forall m b, rebuild m false false false b = m.
Proof. reflexivity. Qed.

Lemma heal_ptr_behind m t : t <= f_ptr m -> heal_ptr m (Some t) = m.
Proof. intros Hle. unfold heal_ptr. apply N.ltb_ge in Hle. rewrite Hle. reflexivity. Qed.

Definition settled toc foot c ol tm lx vc nv rows : afile :=
  mkFile toc toc foot c c c true true true ol WClean 0 tm lx vc nv rows.

Lemma settled_healthy toc foot c ol tm lx vc nv rows :
  (tm = IxOk \/ (tm = IxNone /\ rows = [])) -> vc <> IxBad -> healthy (settled toc foot c ol tm lx vc nv rows).
Proof. intros Htm Hvc. repeat (split; [reflexivity|]). split; [exact Htm|exact Hvc]. Qed.

Lemma finalize_settles : forall toc foot H S C fo tb td w sq tm lx vc nv rows t l v b,
  exists c, reset_wal (rewrite_toc (rebuild (mkFile toc toc foot H S C fo tb td None w sq tm lx vc nv rows) t l v b) b)
  = settled toc foot c None (if t || l || v then IxOk else tm) (lx || l) (if v then vec_reencoded vc else vc)
            (if v && vec_bad vc then 0 else nv) rows.
Proof.
  intros. destruct (t || l || v) eqn:Eany.
  - rewrite rebuild_ptr_on_toc by exact Eany. rewrite rewrite_toc_ptr_on_toc. eexists. reflexivity.
  - apply orb_false_elim in Eany as [Eany ->]. apply orb_false_elim in Eany as [-> ->].
    rewrite rebuild_none, rewrite_toc_ptr_on_toc, orb_false_r. eexists. reflexivity.
Qed.

(* the last TOC rewrite -- or, with nothing planned, the handle itself -- has header, TOC and footer in agreement *)
Lemma run_phases_settles : forall pl base m0,
  f_ptr m0 = f_toc m0 -> f_S m0 = f_C m0 -> f_tocdec m0 = true -> f_older m0 = None ->
  (match pl_heal_ptr pl with Some t => t <= f_toc m0 | None => True end) ->
  (pl_finalize pl = false -> f_footer m0 = true /\ f_tocbytes m0 = true /\ pl_heal_ck pl = None /\ f_H m0 = f_S m0 /\
                             pl_vacuum pl = false /\ pl_time pl = false /\ pl_lex pl = false /\ pl_vec pl = false) ->
  exists c, run_phases pl base m0 =
    settled (f_toc m0) (f_foot m0) c None
      (if pl_time pl || pl_lex pl || pl_vec pl then IxOk
       else if pl_vacuum pl then match f_time m0 with IxBad => IxBad | _ => IxOk end else f_time m0)
      (f_lex m0 || pl_lex pl) (if pl_vec pl then vec_reencoded (f_vec m0) else f_vec m0)
      (if pl_vec pl && vec_bad (f_vec m0) then 0 else f_nvec m0) (f_rows m0).
Proof.
  intros [hp hc rp vac t l v fin fnd wb] base
         [ptr toc foot H S C footer tocbytes tocdec older wal seq time lex vec nvec rows].
  cbn [f_ptr f_toc f_foot f_H f_S f_C f_footer f_tocbytes f_tocdec f_older f_wal f_seq f_time f_lex f_vec f_nvec f_rows
       pl_heal_ptr pl_heal_ck pl_vacuum pl_time pl_lex pl_vec pl_finalize].
  intros -> -> -> -> Hhp Hfin.
  unfold run_phases, run_phases_gen.
  cbn [pl_heal_ptr pl_heal_ck pl_vacuum pl_time pl_lex pl_vec pl_finalize].
  replace (heal_ptr _ hp) with (mkFile toc toc foot H C C footer tocbytes true None wal seq time lex vec nvec rows)
    by (destruct hp; [symmetry; apply heal_ptr_behind; exact Hhp|reflexivity]).
  (* HealTocChecksum touches the header checksum only *)
  assert (E : exists H', heal_ck (mkFile toc toc foot H C C footer tocbytes true None wal seq time lex vec nvec rows) hc
               = mkFile toc toc foot H' C C footer tocbytes true None wal seq time lex vec nvec rows /\ (hc = None -> H' = H)).
  { destruct hc as [e|]; [|eexists; split; reflexivity].
    unfold heal_ck, with_hdr. cbn [f_H]. destruct (H =? e); eexists; (split; [reflexivity|discriminate]). }
  destruct E as (H' & -> & HH').
  destruct fin.
  - destruct vac.
    + (* a vacuum runs first: it writes the time index afresh unless it is damaged *)
      rewrite vacuum_ptr_on_toc. apply finalize_settles.
    + apply finalize_settles.
  - destruct (Hfin eq_refl) as (-> & -> & -> & <- & -> & -> & -> & ->). rewrite (HH' eq_refl), rebuild_none.
    exists H. rewrite (orb_false_r lex). reflexivity.
Qed.

(* what a run makes of f; the embeddings are lost only with a damaged index that no replay rewrote *)
Record healed (f m : afile) : Prop := {
  hl_healthy : healthy m;
  hl_older : f_older m = None;
  hl_rows : f_rows m = view f;
  hl_nvec : f_nvec m = (if vec_bad (f_vec f) && negb (replayed f) then 0 else f_nvec f) }.

(* the planned pointer target is the TOC offset the probe saw; a replay can only have moved the TOC forward *)
Lemma target_behind o f fnd wb :
  match pl_heal_ptr (plan_of o f fnd wb) with Some t => t <= f_toc (handle_of f) | None => True end.
Proof.
  cbn [plan_of pl_heal_ptr handle_of f_toc]. destruct (f_ptr f =? f_toc f); [exact I|].
  destruct (moved f); [apply N.le_add_r|apply N.le_refl].
Qed.

Lemma phases_heal o f fnd wb base :
  wf f -> known_toc_cksum f = false -> healed f (run_phases (plan_of o f fnd wb) base (handle_of f)).
Proof.
  intros Hwf Hk.
  assert (Hlog : log_ok f) by (destruct Hwf as (_ & _ & ? & _); assumption).
  destruct (run_phases_settles (plan_of o f fnd wb) base (handle_of f) eq_refl eq_refl eq_refl eq_refl) as (c & ->).
  - apply target_behind.
  - (* no Finalize: every disjunct of the plan's test is false, so the TOC was read directly and nothing replayed *)
    cbn [plan_of pl_finalize pl_heal_ck pl_vacuum pl_time pl_lex pl_vec handle_of f_footer f_tocbytes f_H f_S].
    rewrite !orb_false_iff, !negb_false_iff.
    intros (Hrt & ((((((_ & HHS) & Hnr) & Hvac) & Ht) & Hl) & Hv)).
    rewrite known_toc_cksum_eq, Hnr, andb_true_r in Hk. apply negb_false_iff, N.eqb_eq in Hk.
    rewrite Hnr, Hrt, HHS. apply N.eqb_eq in HHS. apply read_toc_true in Hrt as (_ & Hfo & Htb & _).
    split; [exact Hfo|]. split; [exact Htb|]. split; [reflexivity|]. split; [congruence|]. tauto.
  - cbn [plan_of pl_time pl_lex pl_vec pl_vacuum handle_of f_time f_rows f_vec f_nvec f_lex f_toc f_foot]. constructor.
    + apply settled_healthy.
      * (* rebuilt; else fine in the file, or written by the replay's commit; a vacuum leaves a fine index fine *)
        destruct (needs_time_of f || o_time o || o_lex o || (vec_bad (f_vec f) || o_vec o)) eqn:Eany; [left; reflexivity|].
        apply orb_false_elim in Eany as [Eany _]. apply orb_false_elim in Eany as [Et _].
        apply orb_false_elim in Et as [Ent _].
        assert (Ht : time_fine (handle_of f)).
        { unfold time_fine. cbn [handle_of f_time f_rows].
          destruct (replayed f) eqn:Er; [left; reflexivity|]. rewrite (view_not_replayed f Hlog Er).
          unfold needs_time_of, needs_time in Ent.
          destruct (f_time f); [right; split; [reflexivity|destruct (f_rows f); [reflexivity|discriminate]] | left; reflexivity | discriminate]. }
        unfold time_fine in Ht. cbn [handle_of f_time f_rows] in Ht.
        destruct (o_vac o); [|exact Ht]. destruct Ht as [->|[-> _]]; left; reflexivity.
      * (* a rebuild leaves no damaged vector index; else it decodes, or the replay's commit wrote a fresh one *)
        destruct (replayed f), (f_vec f), (o_vec o); cbn; congruence.
    + reflexivity.
    + reflexivity.
    + destruct (replayed f), (f_vec f), (o_vec o); reflexivity.
Qed.

Lemma doctor_verified o f m0 extra :
  o_dry o = false -> open_for_doctor (compute o f) f = inl (m0, extra) ->
  verify (run_phases (compute o f) (length (f_rows f)) m0) = Ok true ->
  doctor o f = (run_phases (compute o f) (length (f_rows f)) m0,
                mkReport (if is_noop (compute o f) then 0 else 1) (pl_findings (compute o f) ++ extra)
                         (plan_phases (compute o f)) (Some true)).
Proof.
  intros Hdry Hopen Hv. unfold doctor, doctor_gen. rewrite Hdry, Hopen.
  change (run_phases_gen heal_ptr) with run_phases. rewrite Hv. reflexivity.
Qed.

(* the file the run opens: an unreadable log is zeroed first (try_recover_from_wal_corruption) *)
Definition doctor_opens (f : afile) : afile := if wal_bad (f_wal f) then zero_log f else f.

(* the plan made on f is the plan for the opened file as well: the two differ only in the log, and the probe
   counts an unreadable log as nothing pending *)
Theorem doctor_run o f :
  o_dry o = false -> wf (doctor_opens f) -> known_toc_cksum (doctor_opens f) = false ->
  healed (doctor_opens f) (fst (doctor o f)) /\
  r_status (snd (doctor o f)) = (if is_noop (compute o f) then 0 else 1) /\
  r_verified (snd (doctor o f)) = Some true.
Proof.
  intros Hdry Hwf Hk.
  assert (Hf : toc_found f).
  { apply wf_toc_found in Hwf. unfold doctor_opens in Hwf. destruct (wal_bad (f_wal f)); exact Hwf. }
  assert (Hpl : compute o f = plan_of o (doctor_opens f) (pl_findings (compute o f)) (wal_bad (f_wal f))).
  { rewrite (compute_found o f Hf) at 1. unfold doctor_opens. destruct (f_wal f) eqn:Hw; cbn [wal_bad]; [reflexivity|reflexivity|].
    unfold plan_of, replayed. rewrite Hw. reflexivity. }
  pose proof (phases_heal o _ (pl_findings (compute o f)) (wal_bad (f_wal f)) (length (f_rows f)) Hwf Hk) as Hh.
  rewrite <- Hpl in Hh.
  rewrite (doctor_verified o f (handle_of (doctor_opens f)) (if wal_bad (f_wal f) then [F_WalChecksumMismatch] else []) Hdry).
  - split; [exact Hh|]. split; reflexivity.
  - unfold open_for_doctor. rewrite Hpl at 1. cbn [plan_of pl_walbad].
    pose proof (try_open_wf _ Hwf Hk) as Hopen. unfold doctor_opens in Hopen |- *.
    destruct (wal_bad (f_wal f)); rewrite Hopen; reflexivity.
  - exact (healthy_verify _ (hl_healthy _ _ Hh)).
Qed.

Theorem doctor_heals : forall o f,
  o_dry o = false -> wf f -> known_toc_cksum f = false ->
  healed f (fst (doctor o f)) /\
  r_status (snd (doctor o f)) = (if is_noop (compute o f) then 0 else 1) /\
  r_verified (snd (doctor o f)) = Some true.
Proof.
  intros o f Hdry Hwf Hk. pose proof (doctor_run o f Hdry) as R.
  assert (E : doctor_opens f = f).
  { destruct Hwf as (_ & _ & Hlog & _). unfold doctor_opens, log_ok in *. destruct (f_wal f); [reflexivity|reflexivity|destruct Hlog]. }
  rewrite E in R. exact (R Hwf Hk).
Qed.

(* second run: Clean exactly when the options force nothing; never Failed; rows untouched *)
Theorem doctor_second_run : forall o m,
  o_dry o = false -> healthy m -> f_older m = None ->
  healthy (fst (doctor o m)) /\ f_rows (fst (doctor o m)) = f_rows m /\
  r_status (snd (doctor o m)) = (if forces o then 1 else 0).
Proof.
  intros o m Hdry Hh Ho.
  destruct (healthy_wf m Hh Ho) as (Hwf & Hk).
  destruct (doctor_heals o m Hdry Hwf Hk) as (H1 & H3 & _).
  split; [exact (hl_healthy _ _ H1)|]. split.
  - rewrite (hl_rows _ _ H1). assert (Hw : f_wal m = WClean) by apply Hh. unfold view. rewrite Hw. reflexivity.
  - rewrite H3, (healthy_noop o m Hh Ho). destruct (forces o); reflexivity.
Qed.

(* the records the log held are gone; every damage of the list may come on top *)
Theorem doctor_corrupt_log o f ps :
  o_dry o = false -> f_wal f = WCorrupt ps -> wf (zero_log f) -> known_toc_cksum (zero_log f) = false ->
  healed (zero_log f) (fst (doctor o f)) /\
  r_status (snd (doctor o f)) = (if is_noop (compute o f) then 0 else 1).
Proof.
  intros Hdry Hw Hwf Hk. pose proof (doctor_run o f Hdry) as R.
  unfold doctor_opens in R. rewrite Hw in R. destruct (R Hwf Hk) as (Hh & Hs & _).
  split; [exact Hh|exact Hs].
Qed.

(* HealHeaderPointer's branch (target ahead of the handle's pointer: write it) is never taken on a listed file *)
Theorem heal_ptr_target_never_ahead : forall o f m0 extra t,
  wf f -> known_toc_cksum f = false ->
  open_for_doctor (compute o f) f = inl (m0, extra) -> pl_heal_ptr (compute o f) = Some t ->
  t <= f_ptr m0 /\ heal_ptr m0 (Some t) = m0.
Proof.
  intros o f m0 extra t Hwf Hk Hopen Hp.
  rewrite (compute_wf o f Hwf) in Hopen, Hp.
  unfold open_for_doctor in Hopen. cbn [plan_of pl_walbad] in Hopen. rewrite (try_open_wf f Hwf Hk) in Hopen. inversion Hopen; subst m0 extra.
  pose proof (target_behind o f (pl_findings (compute o f)) false) as Hle. rewrite Hp in Hle.
  split; [exact Hle|apply heal_ptr_behind; exact Hle].
Qed.
