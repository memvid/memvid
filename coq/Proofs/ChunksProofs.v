(* Proofs about Model/Chunks.v: the unstructured chunk planner partitions the text.  The loop is
   followed through [chain s rs t] (contiguous non-empty ranges from s to t); chain 0 rs (length text)
   gives is_partition, the concatenation and the non-empty chunks.  What each fallible function returns
   is a [post] statement (Base/Facts.v). *)
From MV Require Import Base.Prelude Base.Facts Model.Chunks.

Fixpoint chain (s : nat) (rs : list range) (t : nat) : Prop :=
  match rs with
  | [] => s = t
  | (a, b) :: r => a = s /\ s < b /\ chain b r t
  end.

Section Proofs.
  Context {A : Type}.
  Variables is_nl is_term is_ws : A -> bool.

  Notation fwd_terms := (fwd_terms is_nl is_term).
  Notation bwd_terms := (bwd_terms is_nl is_term).
  Notation fwd_ws := (fwd_ws is_ws).
  Notation bwd_ws := (bwd_ws is_ws).
  Notation choose := (choose_chunk_boundary is_nl is_term is_ws).
  Notation loop := (manifest_loop is_nl is_term is_ws).
  Notation build := (build_chunk_manifest is_nl is_term is_ws).
  Notation plan_naive := (plan_naive_chunks is_nl is_term is_ws).
  Notation plan_text := (plan_text_chunks is_nl is_term is_ws).

  Definition within (lo hi : nat) (p : nat) : Prop := lo < p /\ p <= hi.

  Lemma fwd_terms_bounds l : forall idx c lo hi,
    lo <= idx -> idx + length l <= hi -> Forall (within lo hi) c ->
    match fwd_terms l idx c with
    | inl e => within lo hi e
    | inr c' => Forall (within lo hi) c'
    end.
  Proof.
    induction l as [|ch r IH]; intros idx c lo hi Hlo Hhi Hc; cbn [Chunks.fwd_terms length] in *.
    - exact Hc.
    - destruct (is_nl ch).
      + unfold within; lia.
      + destruct (is_term ch).
        * apply IH; [lia | lia |].
          apply Forall_app; split; [exact Hc|]. constructor; [unfold within; lia | constructor].
        * apply IH; [lia | lia | exact Hc].
  Qed.

  Lemma bwd_terms_bounds l : forall pos c lo hi,
    lo + length l <= pos -> pos <= hi -> Forall (within lo hi) c ->
    match bwd_terms l pos c with
    | inl e => within lo hi e
    | inr c' => Forall (within lo hi) c'
    end.
  Proof.
    induction l as [|ch r IH]; intros pos c lo hi Hlo Hhi Hc; cbn [Chunks.bwd_terms length] in *.
    - exact Hc.
    - destruct (is_nl ch).
      + unfold within; lia.
      + destruct (is_term ch).
        * apply Forall_app; split; [exact Hc|]. constructor; [unfold within; lia | constructor].
        * apply IH; [lia | lia | exact Hc].
  Qed.

  Lemma min_by_key_in key l x : min_by_key key l = Some x -> In x l.
  Proof.
    destruct l as [|y r]; cbn [min_by_key]; [discriminate|]. intros [= <-].
    apply (fold_left_invariant_In _ (fun b => In b (y :: r))); [|left; reflexivity].
    intros b z Hz Hb. destruct (key z <? key b); [right; exact Hz|exact Hb].
  Qed.

  Lemma min_by_key_none key l : min_by_key key l = None -> l = [].
  Proof. destruct l; cbn [min_by_key]; [reflexivity | discriminate]. Qed.

  Lemma fwd_ws_bounds l : forall idx e lo hi,
    lo <= idx -> idx + length l <= hi -> fwd_ws l idx = Some e -> within lo hi e.
  Proof.
    induction l as [|ch r IH]; intros idx e lo hi Hlo Hhi; cbn [Chunks.fwd_ws length] in *; [discriminate|].
    destruct (is_ws ch).
    - intros E; injection E as <-. unfold within; lia.
    - apply IH; lia.
  Qed.

  Lemma bwd_ws_bounds l : forall pos e lo hi,
    lo + length l <= pos -> pos <= hi -> bwd_ws l pos = Some e -> within lo hi e.
  Proof.
    induction l as [|ch r IH]; intros pos e lo hi Hlo Hhi; cbn [Chunks.bwd_ws length] in *; [discriminate|].
    destruct (is_ws ch).
    - intros E; injection E as <-. unfold within; lia.
    - apply IH; lia.
  Qed.

  Lemma choose_bounds chars start target total slack :
    length chars = total -> start < target -> target <= total ->
    post (choose chars start target total slack)
         (fun e => start < e /\ e <= total /\ e <= target + slack) (fun _ => False) False.
  Proof.
    intros Hlen Hst Htt. unfold choose_chunk_boundary.
    destruct (total <=? target) eqn:Et; [cbn [post]; lia|].
    set (fl := Nat.min (target + slack) total).
    assert (Hfl : fl <= total /\ fl <= target + slack /\ target <= fl) by (unfold fl; lia).
    destruct (length chars <? fl) eqn:Ep; [lia|].
    set (fwd := slice chars target (fl - target)).
    set (bwd := rev (slice chars start (target - start))).
    assert (Hf : target + length fwd <= fl).
    { unfold fwd. pose proof (slice_length_le chars target (fl - target)). lia. }
    assert (Hb : start + length bwd <= target).
    { unfold bwd. rewrite rev_length. pose proof (slice_length_le chars start (target - start)). lia. }
    assert (W : forall e, within start fl e -> start < e /\ e <= total /\ e <= target + slack)
      by (unfold within; intros; lia).
    pose proof (fwd_terms_bounds fwd target [] start fl ltac:(lia) Hf (Forall_nil _)) as H1.
    destruct (fwd_terms fwd target []) as [e|c1]; [exact (W e H1)|].
    pose proof (bwd_terms_bounds bwd target c1 start fl Hb ltac:(lia) H1) as H2.
    destruct (bwd_terms bwd target c1) as [e|c2]; [exact (W e H2)|].
    destruct (min_by_key (fun pos => pos - target) c2) as [choice|] eqn:Em.
    { apply W. rewrite Forall_forall in H2. apply H2, (min_by_key_in _ _ _ Em). }
    destruct (fwd_ws fwd target) as [e|] eqn:E3.
    { apply W. eapply fwd_ws_bounds; [| |exact E3]; lia. }
    destruct (bwd_ws bwd target) as [e|] eqn:E4.
    { apply W. eapply bwd_ws_bounds; [| |exact E4]; lia. }
    cbn [post]. lia.
  Qed.

  Lemma loop_chain : forall fuel chars total cc slack start,
    length chars = total -> 0 < cc -> start <= total -> total - start <= fuel ->
    post (loop fuel chars total cc slack start)
         (fun rs => chain start rs total /\ Forall (fun r => snd r - fst r <= cc + slack) rs)
         (fun _ => False) False.
  Proof.
    induction fuel as [|f IH]; intros chars total cc slack start Hlen Hcc Hs Hfuel; cbn [manifest_loop];
      destruct (start <? total) eqn:E.
    (* start = total: the loop ends with no range *)
    2, 4: split; [cbn [chain]; lia|constructor].
    - (* start < total needs fuel *) lia.
    - set (target := Nat.min (start + cc) total).
      assert (Ht : start < target /\ target <= total /\ target <= start + cc) by (unfold target; lia).
      apply (post_then (choose_bounds chars start target total slack Hlen ltac:(lia) ltac:(lia))).
      intros e _ (He1 & He2 & He3).
      (* the loop's fallback branch (no progress) is never taken: the boundary is beyond start *)
      destruct (e <=? start) eqn:Ee; [lia|].
      apply (post_then (IH chars total cc slack e Hlen Hcc He2 ltac:(lia))).
      intros rs _ (Hch & Hsz). split; [cbn [chain]; auto|]. constructor; [cbn [fst snd]; lia | exact Hsz].
  Qed.

  Lemma chain_le : forall rs s t, chain s rs t -> s <= t.
  Proof.
    induction rs as [|[a b] r IH]; intros s t; cbn [chain]; [lia|].
    intros (_ & Hlt & Hc). apply IH in Hc. lia.
  Qed.

  Lemma chain_nonempty_ranges : forall rs s t, chain s rs t -> forall r, In r rs -> fst r < snd r.
  Proof.
    induction rs as [|[a b] r IH]; intros s t; cbn [chain In]; [tauto|].
    intros (-> & Hlt & Hc) x [<-|Hin]; [exact Hlt | eapply IH; eauto].
  Qed.

  Lemma chain_last : forall rs s t, chain s rs t -> rs <> [] -> snd (last rs (0, 0)) = t.
  Proof.
    induction rs as [|[a b] r IH]; intros s t; [congruence|].
    cbn [chain]. intros (_ & _ & Hc) _.
    destruct r as [|x r'].
    - cbn [chain last snd] in *. exact Hc.
    - change (last ((a, b) :: x :: r') (0, 0)) with (last (x :: r') (0, 0)).
      eapply IH; [exact Hc | discriminate].
  Qed.

  Lemma chain_adjacent : forall rs s t, chain s rs t ->
    forall i, S i < length rs -> snd (nth i rs (0, 0)) = fst (nth (S i) rs (0, 0)).
  Proof.
    induction rs as [|[a b] r IH]; intros s t Hc i Hi; cbn [length] in Hi; [lia|].
    cbn [chain] in Hc. destruct Hc as (_ & _ & Hc).
    destruct i as [|i].
    - destruct r as [|[a' b'] r']; cbn [length] in Hi; [lia|].
      cbn [chain] in Hc. destruct Hc as (-> & _). reflexivity.
    - change (nth (S i) ((a, b) :: r) (0, 0)) with (nth i r (0, 0)).
      change (nth (S (S i)) ((a, b) :: r) (0, 0)) with (nth (S i) r (0, 0)).
      eapply IH; [exact Hc | lia].
  Qed.

  Lemma chain_is_partition rs t : 0 < t -> chain 0 rs t -> is_partition rs t.
  Proof.
    intros Ht Hc. assert (Hne : rs <> []).
    { destruct rs; [cbn [chain] in Hc; lia | discriminate]. }
    unfold is_partition. split; [exact Hne|]. split.
    { destruct rs as [|[a b] r]; [congruence|]. cbn [chain] in Hc. cbn [hd fst]. tauto. }
    split; [eapply chain_last; eauto|].
    split; [eapply chain_adjacent; eauto | eapply chain_nonempty_ranges; eauto].
  Qed.

  Lemma chain_concat (text : list A) : forall rs s t,
    chain s rs t ->
    concat (map (slice_text_range text) rs) = firstn (t - s) (skipn s text).
  Proof.
    induction rs as [|[a b] r IH]; intros s t Hc.
    - cbn [chain] in Hc. subst. rewrite Nat.sub_diag. reflexivity.
    - cbn [chain] in Hc. destruct Hc as (-> & Hlt & Hc).
      pose proof (chain_le _ _ _ Hc) as Hbt.
      cbn [map concat]. rewrite (IH b t Hc).
      unfold slice_text_range. destruct (b <=? s) eqn:E; [lia|].
      replace (t - s) with ((b - s) + (t - b)) by lia.
      rewrite firstn_add. f_equal. rewrite skipn_skipn.
      replace (s + (b - s)) with b by lia. reflexivity.
  Qed.

  Lemma chain_chunks_nonempty (text : list A) : forall rs s t,
    chain s rs t -> t <= length text ->
    forall c, In c (map (slice_text_range text) rs) -> c <> [].
  Proof.
    induction rs as [|[a b] r IH]; intros s t Hc Ht c; cbn [map In]; [tauto|].
    cbn [chain] in Hc. destruct Hc as (-> & Hlt & Hc).
    pose proof (chain_le _ _ _ Hc) as Hbt.
    intros [<-|Hin]; [|eapply IH; eauto].
    unfold slice_text_range. destruct (b <=? s) eqn:E; [lia|].
    intros Hnil. apply (f_equal (@length A)) in Hnil.
    rewrite firstn_length, skipn_length in Hnil. cbn [length] in Hnil. lia.
  Qed.

  Lemma build_post text cc :
    post (build text cc)
         (fun r => match r with
                   | None => cc = 0 \/ length text <= cc
                   | Some rs => 0 < cc < length text /\ chain 0 rs (length text) /\
                                Forall (fun r => snd r - fst r <= cc + chunk_slack cc) rs
                   end) (fun _ => False) False.
  Proof.
    unfold build_chunk_manifest.
    destruct (cc =? 0) eqn:E0; [cbn [post]; lia|].
    destruct (length text <=? cc) eqn:E1; [cbn [post]; lia|].
    apply (post_then (loop_chain (length text) text (length text) cc (chunk_slack cc) 0 eq_refl ltac:(lia) ltac:(lia) ltac:(lia))).
    intros rs _ Hrs. split; [lia | exact Hrs].
  Qed.

  Lemma build_none_iff text cc :
    build text cc = Ok None <-> cc = 0 \/ length text <= cc.
  Proof.
    pose proof (build_post text cc) as H.
    destruct (build text cc) as [[rs|]|k|s]; cbn [post] in H; [|tauto|destruct H..].
    split; [discriminate | lia].
  Qed.

  Theorem build_partition text cc :
    0 < cc -> cc < length text ->
    exists rs, build text cc = Ok (Some rs) /\
               chain 0 rs (length text) /\
               is_partition rs (length text) /\
               concat (map (slice_text_range text) rs) = text /\
               (forall c, In c (map (slice_text_range text) rs) -> c <> []) /\
               Forall (fun r => snd r - fst r <= cc + chunk_slack cc) rs.
  Proof.
    intros Hcc Hlen. pose proof (build_post text cc) as H.
    destruct (build text cc) as [[rs|]|k|s]; cbn [post] in H; [|lia|destruct H..]. destruct H as (_ & Hch & Hsz).
    exists rs. split; [reflexivity|]. split; [exact Hch|].
    split; [apply chain_is_partition; [lia | exact Hch]|].
    split.
    { rewrite (chain_concat text rs 0 (length text) Hch).
      rewrite Nat.sub_0_r. cbn [skipn]. apply firstn_all. }
    split; [eapply chain_chunks_nonempty; [exact Hch | apply le_n] | exact Hsz].
  Qed.

  (* lets the correspondence runner (Corr/C34.v) keep usize::MAX out of unary arithmetic *)
  Lemma build_clamp text cc :
    build text cc = build text (Nat.min cc (S (length text))).
  Proof.
    destruct (le_lt_dec (length text) cc) as [Hle|Hlt].
    - transitivity (@Ok (option (list range)) None); [|symmetry]; apply build_none_iff; lia.
    - f_equal. lia.
  Qed.

  Lemma chain_two rs t m :
    chain 0 rs t -> Forall (fun r => snd r - fst r <= m) rs -> m < t -> 2 <= length rs.
  Proof.
    destruct rs as [|[a b] [|x r]]; cbn [chain length]; [lia| |lia].
    intros (-> & _ & <-) Hsz Hm. apply Forall_inv in Hsz. cbn [fst snd] in Hsz. lia.
  Qed.

  (* CHUNK_MIN_CHARS = 2 * 1200 exceeds one default chunk with its slack, 1200 + 240: a text that
     is planned at all gets at least two chunks.  The numbers are compared by evaluation and kept
     out of lia's sight (they are unary). *)
  Theorem plan_naive_partition text :
    CHUNK_MIN_CHARS <= length text ->
    exists rs, plan_naive text = Ok (Some (DEFAULT_CHUNK_CHARS, rs, map (slice_text_range text) rs)) /\
               2 <= length rs /\
               is_partition rs (length text) /\
               concat (map (slice_text_range text) rs) = text /\
               (forall c, In c (map (slice_text_range text) rs) -> c <> []) /\
               Forall (fun r => snd r - fst r <= 1440) rs.
  Proof.
    intros Hlen. unfold plan_naive_chunks.
    assert (Hbig : DEFAULT_CHUNK_CHARS + chunk_slack DEFAULT_CHUNK_CHARS < length text).
    { eapply Nat.lt_le_trans; [|exact Hlen]. apply Nat.ltb_lt. reflexivity. }
    destruct (build_partition text DEFAULT_CHUNK_CHARS) as (rs & -> & Hch & Hpart & Hcat & Hne & Hsz).
    { apply Nat.lt_0_succ. }
    { eapply Nat.le_lt_trans; [apply Nat.le_add_r|exact Hbig]. }
    pose proof (chain_two _ _ _ Hch Hsz Hbig) as H2.
    rewrite (proj2 (Nat.leb_gt _ _) H2).
    exists rs. split; [reflexivity|]. split; [exact H2|]. split; [exact Hpart|].
    split; [exact Hcat|]. split; [exact Hne|exact Hsz].
  Qed.

  Theorem plan_text_unstructured (t : list A) structural :
    CHUNK_MIN_CHARS <= length t ->
    exists rs, plan_text (Some t) false structural
                 = Ok (Some (DEFAULT_CHUNK_CHARS, rs, map (slice_text_range t) rs)) /\
               2 <= length rs /\
               is_partition rs (length t) /\
               concat (map (slice_text_range t) rs) = t /\
               (forall c, In c (map (slice_text_range t) rs) -> c <> []) /\
               Forall (fun r => snd r - fst r <= 1440) rs.
  Proof.
    intros Hlen. unfold plan_text_chunks. rewrite (proj2 (Nat.ltb_ge _ _) Hlen).
    apply plan_naive_partition; exact Hlen.
  Qed.
End Proofs.

Lemma flat_map_concat {A B} (f : A -> list B) (ls : list (list A)) :
  flat_map f (concat ls) = concat (map (flat_map f) ls).
Proof. induction ls as [|l ls IH]; [reflexivity|]. simpl. rewrite flat_map_app, IH. reflexivity. Qed.
