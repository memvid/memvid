(* Proofs for C10 (every search hit is a valid answer): the composition of C32 (evaluator), C35
   (snippet slices) and C16 (page loop shape) over Model/Hits.v.  Each fallible function of the
   Tantivy and lex-fallback pipelines, and the match loop of the filters-only route, has one
   statement (`post`, Base/Facts.v): what an Ok result satisfies and when it can panic.  The page
   loops keep page_inv: at most k hits, ranks 1..n, every hit good; what "good" means comes from
   the evaluation loop in front of them.  tantivy_post_post holds for ANY engine output, ANY
   analyser output, ANY re-sort that returns members of its input; a panic needs a text or a
   snippet size out of machine range (C35's call-site theorem discharges the slice arithmetic,
   slices_sane the `chunk_text[a..b]` slicing).
   Three lengths meet here: Snippet's `len` (bytes), Hits' `llen` and SearchPage's `len` (lists); all
   are N.of_nat (length _), core_len passes between the last two. *)
From Coq Require Import Permutation.
From MV Require Import Base.Prelude Base.Facts Base.SortFacts Model.Query Model.Snippet Proofs.SnippetProofs Model.Hits.
From MV Require Model.SearchPage Proofs.SearchPageProofs.
Local Open Scope N_scope.

Lemma dedup_incl l : incl (dedup l) l.
Proof.
  induction l as [|x [|y r] IH]; cbn [dedup]; [apply incl_refl.. |].
  destruct (pair_eqb x y); [apply incl_tl, IH | apply incl_cons; [left; reflexivity | apply incl_tl, IH]].
Qed.

Lemma collect_incl hay tokens :
  incl (collect_token_occurrences hay tokens) (collect_token_occurrences_unsorted hay tokens).
Proof.
  unfold collect_token_occurrences. intros o Ho. apply dedup_incl in Ho.
  eapply Permutation_in; [apply isort_perm | exact Ho].
Qed.

Lemma get_In {tbl id f} : get tbl id = Some f -> In f tbl.
Proof. unfold get. apply nth_error_In. Qed.

Lemma document_chunk_frames_In tbl pid c : In c (document_chunk_frames tbl pid) -> In c tbl.
Proof.
  unfold document_chunk_frames. intros H.
  eapply Permutation_in in H; [|apply isort_perm]. apply filter_In in H. tauto.
Qed.

(* payloads of the table are valid UTF-8: from_utf8_lossy changes nothing, so the decoded byte
   length is the length of the text *)
Definition payloads_utf8 (tbl : table) : Prop :=
  forall f n s, In f tbl -> f_payload f = Some (n, s) -> n = len (utf8 s).

Definition ci_consistent (ci : chunk_info) : Prop := ci_end ci = ci_start ci + len (utf8 (ci_text ci)).

Lemma ci_of_payload_consistent tbl f start n s :
  payloads_utf8 tbl -> In f tbl -> f_payload f = Some (n, s) -> ci_consistent (ci_of_payload start (n, s)).
Proof.
  intros HP Hf Hp. unfold ci_consistent, ci_of_payload. cbn [ci_start ci_end ci_text fst snd].
  rewrite (HP f n s Hf Hp). reflexivity.
Qed.

Lemma decoded_payload_post f : post (decoded_payload f) (fun p => f_payload f = Some p) (fun _ => True) False.
Proof.
  unfold decoded_payload. destruct (f_payload f) as [[n t]|]; [|exact I].
  destruct (f_canon_len f) as [e|]; [destruct (n =? e); [reflexivity | exact I] | reflexivity].
Qed.

Lemma collect_payloads_post cs :
  post (collect_payloads cs)
       (fun ps => map fst ps = cs /\ Forall (fun cp => f_payload (fst cp) = Some (snd cp)) ps)
       (fun _ => True) False.
Proof.
  induction cs as [|c r IH]; cbn [collect_payloads]; [split; [reflexivity | constructor]|].
  apply (post_then (decoded_payload_post c)). intros p _ Hp.
  apply (post_then IH). intros ps _ [H1 H2].
  split; [cbn [map fst]; rewrite H1; reflexivity | constructor; [exact Hp | exact H2]].
Qed.

Lemma document_chunk_payloads_post tbl f :
  post (document_chunk_payloads tbl f)
       (Forall (fun cp => In (fst cp) tbl /\ f_payload (fst cp) = Some (snd cp))) (fun _ => True) False.
Proof.
  unfold document_chunk_payloads. destruct (f_manifest f); [|exact I].
  destruct (document_chunk_frames tbl (f_id f)) eqn:E; [exact I|].
  destruct (_ =? _); [|exact I].
  apply (post_impl (collect_payloads_post _)). intros ps _ [H1 H2].
  rewrite Forall_forall in *. intros cp Hcp. split; [|apply H2; exact Hcp].
  apply (document_chunk_frames_In tbl (f_id f)). rewrite E, <- H1. apply in_map. exact Hcp.
Qed.

Lemma own_ci_post tbl f :
  post (own_ci f) (fun ci => payloads_utf8 tbl -> In f tbl -> ci_consistent ci) (fun _ => True) False.
Proof.
  unfold own_ci. destruct (f_search_text f) as [s|]; [intros _ _; reflexivity|].
  apply (post_then (decoded_payload_post f)). intros [n s] _ Hp HP Hf.
  exact (ci_of_payload_consistent tbl f 0 n s HP Hf Hp).
Qed.

Lemma resolve_post tbl f :
  post (resolve_chunk_context tbl f) (fun ci => payloads_utf8 tbl -> In f tbl -> ci_consistent ci)
       (fun _ => True) False.
Proof.
  unfold resolve_chunk_context. destruct (f_role f =? 0).
  - destruct (f_manifest f) as [nch|]; [|apply own_ci_post].
    apply (post_then (document_chunk_payloads_post tbl f)). intros [|[c [n s]] r] _ Hall; [exact I|].
    intros HP _. apply Forall_inv in Hall as [Hin Hpay]. exact (ci_of_payload_consistent tbl c 0 n s HP Hin Hpay).
  - destruct (f_role f =? 1); [|intros _ _; reflexivity].
    destruct (chunk_via_parent tbl f) as [ci'|] eqn:E; [|apply own_ci_post].
    intros HP _. unfold chunk_via_parent in E.
    destruct (f_parent f) as [pid|]; [|discriminate].
    destruct (get tbl pid) as [parent|]; [|discriminate].
    destruct (f_manifest parent) as [nch|]; [|discriminate].
    pose proof (document_chunk_payloads_post tbl parent) as EP.
    destruct (document_chunk_payloads tbl parent) as [ps| |]; try discriminate.
    destruct (f_chunk_index f) as [idx|]; [|discriminate].
    destruct (nth_error ps (N.to_nat idx)) as [[c [n s]]|] eqn:EN; [|discriminate].
    injection E as <-. cbn [post] in EP. rewrite Forall_forall in EP.
    destruct (EP _ (nth_error_In _ _ EN)) as [Hin Hpay].
    exact (ci_of_payload_consistent tbl c _ n s HP Hin Hpay).
Qed.

Definition ranks_ok (hits : list hit) : Prop :=
  map h_rank hits = map N.of_nat (seq 1 (length hits)).

Lemma ranks_ok_snoc hits h : ranks_ok hits -> h_rank h = llen hits + 1 -> ranks_ok (hits ++ [h]).
Proof.
  unfold ranks_ok. intros H Hr. rewrite map_app, app_length. cbn [length map].
  replace (length hits + 1)%nat with (S (length hits)) by lia.
  rewrite seq_S, map_app, H. cbn [map]. f_equal. rewrite Hr. unfold llen. f_equal. lia.
Qed.

Definition page_inv (good : hit -> Prop) (k : N) (hits : list hit) : Prop :=
  llen hits <= k /\ ranks_ok hits /\ Forall good hits.

Lemma page_inv_nil good k : page_inv good k [].
Proof. split; [unfold llen; cbn [length]; lia|]. split; [reflexivity | constructor]. Qed.

Lemma page_inv_snoc good k hits h :
  page_inv good k hits -> llen hits <> k -> h_rank h = llen hits + 1 -> good h ->
  page_inv good k (hits ++ [h]).
Proof.
  intros (Hlen & Hranks & Hall) Hk Hr Hg.
  split; [unfold llen in *; rewrite app_length; cbn [length]; lia|].
  split; [apply ranks_ok_snoc; assumption|].
  apply Forall_app. split; [exact Hall | constructor; [exact Hg | constructor]].
Qed.

(* body of `for (start, end) in slices` of try_tantivy_search after the two guards: the hit that a
   slice gives, if any *)
Definition emit_hit (d : ev) (rank : N) (sl : N * N) : outcome (option hit) :=
  let chunk_bytes := utf8 (ci_text (ev_ci d)) in
  let local_start := N.min (fst sl) (len chunk_bytes) in
  let local_end := N.min (snd sl) (len chunk_bytes) in
  if local_end <=? local_start then Ok None
  else
    let global_start := ci_start (ev_ci d) + local_start in
    let global_end := ci_start (ev_ci d) + local_end in
    if global_end <=? global_start then Ok None
    else
      match str_slice chunk_bytes local_start local_end with
      | Ok snippet_text =>
          Ok (Some (mkHit rank (ev_frame d) (global_start, global_end) snippet_text
                          (matches_in (ev_occ d) local_start local_end)
                          (ci_start (ev_ci d), ci_end (ev_ci d)) chunk_bytes (ev_score d)))
      | Err e => Err e
      | Panic s => Panic s
      end.

Lemma inner_loop_cons k offset d sl r hits produced :
  inner_loop k offset d (sl :: r) (hits, produced) =
  if produced <? offset then inner_loop k offset d r (hits, produced + 1)
  else if llen hits =? k then Ok (hits, produced)
  else match emit_hit d (llen hits + 1) sl with
       | Ok None => inner_loop k offset d r (hits, produced + 1)
       | Ok (Some h) => inner_loop k offset d r (hits ++ [h], produced + 1)
       | Err e => Err e
       | Panic s => Panic s
       end.
Proof.
  destruct sl as [start end_]. cbn [inner_loop]. unfold emit_hit. cbn [fst snd].
  destruct (produced <? offset); [reflexivity|]. destruct (llen hits =? k); [reflexivity|].
  destruct (_ <=? _); [reflexivity|]. destruct (_ <=? _); [reflexivity|].
  destruct (str_slice _ _ _); reflexivity.
Qed.

Section Pipeline.
  Variable parse_date : str -> option Z.
  Variable content_ts : list str -> option Z.
  Variable resort : list ev -> list ev.
  Variable tbl : table.
  Variable parsed : expr.
  Variable tokens : list bytes.
  Variable rq : request.

  (* the three culls of the evaluation loop, as a predicate on a frame of the table *)
  Definition cand_ok (f : frame) (ci : chunk_info) : Prop :=
    passes_filters rq f = true /\
    resolve_chunk_context tbl f = Ok ci /\
    eval parse_date parsed (doc_of f (eval_text f ci)) = true.

  (* what the evaluation loop guarantees of every element of `evaluated` *)
  Definition ev_good (cands : list (N * N)) (d : ev) : Prop :=
    In (ev_frame d, ev_score d) cands /\
    exists f, get tbl (ev_frame d) = Some f /\ cand_ok f (ev_ci d) /\
      ev_occ d = collect_token_occurrences (utf8 (eval_text f (ev_ci d))) tokens /\
      compute_snippet_slices (utf8 (ci_text (ev_ci d))) (ev_occ d) (snippet_window rq) (max_snippets_per_doc rq)
        = Ok (ev_slices d) /\
      ev_slices d <> [].

  (* what the property says of one hit *)
  Definition hit_good (cands : list (N * N)) (h : hit) : Prop :=
    In (h_frame h, h_score h) cands /\
    exists f ci, get tbl (h_frame h) = Some f /\ cand_ok f ci /\
      h_chunk_range h = (ci_start ci, ci_end ci) /\
      h_chunk_text h = utf8 (ci_text ci) /\
      ci_start ci <= fst (h_range h) /\ fst (h_range h) < snd (h_range h) /\
      snd (h_range h) <= ci_start ci + len (h_chunk_text h) /\
      str_slice (h_chunk_text h) (fst (h_range h) - ci_start ci) (snd (h_range h) - ci_start ci) = Ok (h_text h) /\
      h_text h <> [] /\ 1 <= h_matches h.

  (* a Rust String is shorter than isize::MAX bytes *)
  Definition texts_in_range : Prop :=
    forall f ci, In f tbl -> resolve_chunk_context tbl f = Ok ci -> len (utf8 (eval_text f ci)) < ISIZE_LIMIT.

  Lemma emit_hit_post cands d rank sl :
    ev_good cands d -> slice_sane (utf8 (ci_text (ev_ci d))) sl ->
    post (emit_hit d rank sl) (fun o => forall h, o = Some h -> hit_good cands h /\ h_rank h = rank)
         (fun _ => True) False.
  Proof.
    intros (Hin & f & Hget & Hok & _) (Hle & Hlen & _ & _ & txt & Es). unfold emit_hit.
    set (cb := utf8 (ci_text (ev_ci d))) in *. set (cs := ci_start (ev_ci d)).
    rewrite !N.min_l by lia. rewrite Es.
    destruct (N.leb_spec (snd sl) (fst sl)) as [|Hl]; [discriminate|].
    destruct (N.leb_spec (cs + snd sl) (cs + fst sl)); [discriminate|].
    intros h [= <-]. split; [|reflexivity].
    unfold hit_good. cbn [h_frame h_score h_range h_text h_matches h_chunk_range h_chunk_text fst snd].
    split; [exact Hin|]. exists f, (ev_ci d). split; [exact Hget|]. split; [exact Hok|].
    split; [reflexivity|]. split; [reflexivity|]. fold cb cs.
    split; [lia|]. split; [lia|]. split; [lia|].
    rewrite !(N.add_comm cs), !N.add_sub.
    split; [exact Es|]. split; [|unfold matches_in; lia].
    eapply str_slice_nonempty; [exact Es | exact Hl | lia].
  Qed.

  Lemma inner_loop_post cands k offset d sls : forall hits produced,
    ev_good cands d -> Forall (slice_sane (utf8 (ci_text (ev_ci d)))) sls ->
    page_inv (hit_good cands) k hits ->
    post (inner_loop k offset d sls (hits, produced)) (fun st' => page_inv (hit_good cands) k (fst st'))
         (fun _ => True) False.
  Proof.
    induction sls as [|sl r IH]; intros hits produced Hd Hall Hinv; [exact Hinv|].
    apply Forall_cons_iff in Hall as [Hs Hr]. rewrite inner_loop_cons.
    destruct (produced <? offset); [exact (IH _ _ Hd Hr Hinv)|].
    destruct (llen hits =? k) eqn:Ek; [exact Hinv|].
    apply (post_then (emit_hit_post cands d (llen hits + 1) sl Hd Hs)).
    intros [h|] _ Hh; [|exact (IH _ _ Hd Hr Hinv)].
    destruct (Hh h eq_refl) as [Hg Hrk].
    apply (IH _ _ Hd Hr). apply page_inv_snoc; [exact Hinv | lia | exact Hrk | exact Hg].
  Qed.

  Lemma ev_good_sane cands d : ev_good cands d -> Forall (slice_sane (utf8 (ci_text (ev_ci d)))) (ev_slices d).
  Proof. intros (Hin & f & Hget & Hok & Hocc & Hslices & Hne). exact (slices_sane Hslices). Qed.

  Lemma outer_loop_post cands k offset evs : forall hits produced,
    Forall (ev_good cands) evs -> page_inv (hit_good cands) k hits ->
    post (outer_loop tbl k offset evs (hits, produced)) (fun st' => page_inv (hit_good cands) k (fst st'))
         (fun _ => True) False.
  Proof.
    induction evs as [|d r IH]; intros hits produced Hall Hinv; cbn [outer_loop]; [exact Hinv|].
    apply Forall_cons_iff in Hall as [Hd Hr].
    destruct ((llen hits =? k) && (offset <=? produced)); [exact Hinv|].
    destruct (get tbl (ev_frame d)); [|exact (IH _ _ Hr Hinv)].
    apply (post_then (inner_loop_post cands k offset d _ hits produced Hd (ev_good_sane _ _ Hd) Hinv)).
    intros [h1 p1] _ Hinv1. exact (IH _ _ Hr Hinv1).
  Qed.

  (* with these bounds no occurrence end overflows in compute_snippet_slices, the only place where the
     pipeline can panic *)
  Definition sizes_ok : Prop := texts_in_range /\ rq_snippet_chars rq < USIZE_LIMIT.

  Lemma post_eval_one_post cands c :
    In c cands ->
    post (post_eval_one parse_date content_ts tbl parsed tokens rq c)
         (fun o => forall d, o = Some d -> ev_good cands d) (fun _ => True) (~ sizes_ok).
  Proof.
    intros Hc. unfold post_eval_one. destruct (get tbl (fst c)) as [f|] eqn:Eg; [|discriminate].
    destruct (passes_filters rq f) eqn:Ef; cbn [negb]; [|discriminate].
    pose proof (resolve_post tbl f) as Hr.
    destruct (resolve_chunk_context tbl f) as [ci| |] eqn:Er; [|discriminate | destruct Hr].
    destruct (eval parse_date parsed (doc_of f (eval_text f ci))) eqn:Ee; cbn [negb]; [|discriminate].
    destruct (compute_snippet_slices _ _ _ _) as [[|s sl]| |] eqn:Ec; [discriminate | | exact I |].
    - intros d [= <-]. unfold ev_good. cbn [ev_frame ev_score ev_ci ev_occ ev_slices].
      split; [destruct c; exact Hc|].
      exists f. split; [exact Eg|]. split; [unfold cand_ok; auto|].
      split; [reflexivity|]. split; [exact Ec | discriminate].
    - intros [HT HS].
      pose proof (callsite_with_collected_occurrences (utf8 (ci_text ci)) (utf8 (eval_text f ci)) tokens
                    (collect_token_occurrences (utf8 (eval_text f ci)) tokens) (rq_snippet_chars rq) (rq_top_k rq)
                    (HT f ci (get_In Eg) Er) HS (collect_incl _ _)) as Hok.
      unfold snippet_window, max_snippets_per_doc in Ec. rewrite Ec in Hok. exact Hok.
  Qed.

  Lemma evaluate_all_post cands0 cands :
    incl cands cands0 ->
    post (evaluate_all parse_date content_ts tbl parsed tokens rq cands) (Forall (ev_good cands0))
         (fun _ => True) (~ sizes_ok).
  Proof.
    induction cands as [|c r IH]; cbn [evaluate_all]; intros Hi; [constructor|].
    apply incl_cons_inv in Hi as [Hc Hi].
    apply (post_then (post_eval_one_post cands0 c Hc)). intros o _ Ho.
    apply (post_then (IH Hi)). intros l _ Hl.
    destruct o as [d|]; [|exact Hl]. constructor; [exact (Ho d eq_refl) | exact Hl].
  Qed.

  Hypothesis resort_members : forall l x, In x (resort l) -> In x l.

  Theorem tantivy_post_post has_lex cands :
    post (tantivy_post parse_date content_ts resort has_lex tbl parsed tokens rq cands)
         (fun o => forall r, o = Some r -> page_inv (hit_good cands) (N.max (rq_top_k rq) 1) (r_hits r))
         (fun _ => True) (~ sizes_ok).
  Proof.
    unfold tantivy_post. destruct cands as [|c0 cr].
    - destruct has_lex; [discriminate|]. intros r [= <-]. apply page_inv_nil.
    - set (cands := c0 :: cr).
      apply (post_then (evaluate_all_post cands cands (incl_refl _))). intros ev0 _ Hev.
      assert (Hevs : Forall (ev_good cands) (if 1 <? llen ev0 then resort ev0 else ev0)).
      { destruct (1 <? llen ev0); [|exact Hev].
        rewrite Forall_forall in *. intros x Hx. apply Hev, resort_members, Hx. }
      destruct (if 1 <? llen ev0 then resort ev0 else ev0) as [|e1 er]; [discriminate|].
      set (evs := e1 :: er) in *.
      destruct (total_slices evs =? 0); [discriminate|].
      pose proof (SearchPageProofs.parse_cursor_post (rq_cursor rq) (total_slices evs)) as Hp.
      destruct (SearchPage.parse_cursor (rq_cursor rq) (total_slices evs)) as [offset| |]; [|exact I | destruct Hp].
      pose proof (outer_loop_post cands (N.max (rq_top_k rq) 1) offset evs [] 0 Hevs (page_inv_nil _ _)) as Ho.
      destruct (outer_loop tbl (N.max (rq_top_k rq) 1) offset evs ([], 0)) as [[hits produced]| |];
        [|exact I | destruct Ho].
      intros r [= <-]. exact Ho.
  Qed.

  Theorem hits_valid has_lex cands r :
    tantivy_post parse_date content_ts resort has_lex tbl parsed tokens rq cands = Ok (Some r) ->
    llen (r_hits r) <= N.max (rq_top_k rq) 1 /\
    ranks_ok (r_hits r) /\
    Forall (hit_good cands) (r_hits r).
  Proof. intros H. exact (post_ok (tantivy_post_post has_lex cands) H r eq_refl). Qed.

End Pipeline.

(* Forgetting text, matches, chunk range, rank and score, hit assembly is the page loop of
   Model/SearchPage.v (C16) with emit_tantivy over the same evaluated list: C16's pagination
   theorems speak about the (frame, range) projection of the hits proved valid here. *)
Definition edoc_of (d : ev) : SearchPage.edoc :=
  SearchPage.mkEdoc (ev_frame d) (ev_score d) (ci_start (ev_ci d)) (len (utf8 (ci_text (ev_ci d))))
                    (ev_slices d) (ev_ts d).
Definition core (h : hit) : SearchPage.hit := (h_frame h, h_range h).

Lemma core_len hits : SearchPage.len (map core hits) = llen hits.
Proof. unfold SearchPage.len, llen. rewrite map_length. reflexivity. Qed.

Lemma emit_hit_core {d rank sl o} :
  emit_hit d rank sl = Ok o -> SearchPage.emit_tantivy (edoc_of d) sl = option_map core o.
Proof.
  unfold emit_hit, SearchPage.emit_tantivy. cbn [edoc_of SearchPage.e_clen SearchPage.e_cstart SearchPage.e_frame].
  destruct (_ <=? _); [intros [= <-]; reflexivity|].
  destruct (_ <=? _); [intros [= <-]; reflexivity|].
  destruct (str_slice _ _ _); try discriminate. intros [= <-]. reflexivity.
Qed.

Lemma inner_loop_sim k offset d sls : forall hits produced st',
  inner_loop k offset d sls (hits, produced) = Ok st' ->
  SearchPage.inner_loop SearchPage.emit_tantivy k offset (edoc_of d) sls (map core hits, produced)
  = (map core (fst st'), snd st').
Proof.
  induction sls as [|sl r IH]; intros hits produced st' H; [injection H as <-; reflexivity|].
  rewrite inner_loop_cons in H. cbn [SearchPage.inner_loop]. rewrite core_len.
  destruct (produced <? offset); [apply IH; exact H|].
  destruct (llen hits =? k); [injection H as <-; reflexivity|].
  destruct (emit_hit d (llen hits + 1) sl) as [o| |] eqn:Ee; try discriminate.
  rewrite (emit_hit_core Ee).
  destruct o as [h|]; cbn [option_map]; apply IH in H; [rewrite map_app in H|]; exact H.
Qed.

Lemma outer_loop_sim tbl k offset evs hits produced st' :
  Forall (fun d => get tbl (ev_frame d) <> None) evs ->
  outer_loop tbl k offset evs (hits, produced) = Ok st' ->
  SearchPage.outer_loop SearchPage.emit_tantivy k offset true (map edoc_of evs) (map core hits, produced)
  = (map core (fst st'), snd st').
Proof.
  revert hits produced st'. induction evs as [|d r IH]; intros hits produced st' Hall H;
    cbn [outer_loop] in H; [injection H as <-; reflexivity|].
  cbn [map SearchPage.outer_loop]. apply Forall_cons_iff in Hall as [Hd Hr]. rewrite core_len. cbn [andb].
  destruct ((llen hits =? k) && (offset <=? produced)); [injection H as <-; reflexivity|].
  destruct (get tbl (ev_frame d)) as [fm|]; [|congruence].
  destruct (inner_loop k offset d (ev_slices d) (hits, produced)) as [[h1 p1]| |] eqn:Ei; try discriminate.
  apply inner_loop_sim in Ei. cbn [fst snd] in Ei.
  change (SearchPage.e_slices (edoc_of d)) with (ev_slices d). rewrite Ei.
  apply IH; [exact Hr | exact H].
Qed.

Section Fallback.
  Variable parse_date : str -> option Z.
  Variable canonical_text : frame -> outcome str.
  Variable tbl : table.
  Variable parsed : expr.
  Variable rq : request.
  Variable candidate_filter : option (list N).

  (* what search_with_lex_fallback itself guarantees of a hit, for ANY answer of the legacy index *)
  Definition lex_hit_good (ms : list lex_match) (h : hit) : Prop :=
    exists m f canonical,
      In m ms /\ lm_frame m = h_frame h /\ in_filter candidate_filter (h_frame h) = true /\
      get tbl (h_frame h) = Some f /\
      eval parse_date parsed (doc_of f (lower (lm_content m))) = true /\
      frame_content canonical_text f = Ok canonical /\
      fst (h_chunk_range h) <= fst (h_range h) /\ fst (h_range h) < snd (h_range h) /\
      snd (h_range h) <= snd (h_chunk_range h) /\ snd (h_chunk_range h) <= len (utf8 canonical) /\
      h_text h = byte_slice (utf8 canonical) (fst (h_range h)) (snd (h_range h)).

  (* what the first loop guarantees of every element of `evaluated` *)
  Definition lex_ev_good (ms : list lex_match) (x : lex_match * list (N * N)) : Prop :=
    In (fst x) ms /\ in_filter candidate_filter (lm_frame (fst x)) = true /\
    exists f, get tbl (lm_frame (fst x)) = Some f /\
              eval parse_date parsed (doc_of f (lower (lm_content (fst x)))) = true.

  Lemma lex_eval_one_post ms m :
    In m ms ->
    post (lex_eval_one parse_date tbl parsed rq candidate_filter m)
         (fun o => forall x, o = Some x -> lex_ev_good ms x) (fun _ => True) True.
  Proof.
    intros Hm. unfold lex_eval_one.
    destruct (in_filter candidate_filter (lm_frame m)) eqn:Ef; cbn [negb]; [|discriminate].
    destruct (get tbl (lm_frame m)) as [f|] eqn:Eg; [|discriminate].
    destruct (eval parse_date parsed (doc_of f (lower (lm_content m)))) eqn:Ee; cbn [negb]; [|discriminate].
    destruct (compute_snippet_slices _ _ _ _) as [sl| |]; [|exact I | exact I].
    intros x [= <-]. unfold lex_ev_good. cbn [fst].
    split; [exact Hm|]. split; [exact Ef|]. exists f. split; [exact Eg | exact Ee].
  Qed.

  Lemma lex_evaluate_post ms0 ms :
    incl ms ms0 ->
    post (lex_evaluate parse_date tbl parsed rq candidate_filter ms) (Forall (lex_ev_good ms0))
         (fun _ => True) True.
  Proof.
    induction ms as [|m r IH]; cbn [lex_evaluate]; intros Hi; [constructor|].
    apply incl_cons_inv in Hi as [Hm Hi].
    apply (post_then (lex_eval_one_post ms0 m Hm)). intros o _ Ho.
    apply (post_then (IH Hi)). intros l _ Hl.
    destruct o as [x|]; [|exact Hl]. constructor; [exact (Ho x eq_refl) | exact Hl].
  Qed.

  Lemma lex_inner_inv {ms k offset m sls0 fm canonical} sls : forall hits produced,
    lex_ev_good ms (m, sls0) -> get tbl (lm_frame m) = Some fm ->
    frame_content canonical_text fm = Ok canonical ->
    page_inv (lex_hit_good ms) k hits ->
    page_inv (lex_hit_good ms) k (fst (lex_inner k offset m fm (utf8 canonical) sls (hits, produced))).
  Proof.
    intros hits produced (Hm & Hf & f & Hg & He) Hget Hc. cbn [fst] in *. rewrite Hget in Hg. injection Hg as <-.
    revert hits produced. induction sls as [|[start end_] r IH]; intros hits produced Hinv; [exact Hinv|].
    cbn [lex_inner]. destruct (produced <? offset); [apply IH; exact Hinv|].
    destruct (llen hits =? k) eqn:Ek; [exact Hinv|].
    (* of the clamping only chunk_end <= effective_len <= canonical.len() matters *)
    set (eff := N.min _ (len (utf8 canonical))).
    assert (Heff : eff <= len (utf8 canonical)) by apply N.le_min_r. clearbody eff.
    set (cs := lm_chunk_offset m). set (ce := N.min _ eff).
    assert (Hce : ce <= eff) by apply N.le_min_r. clearbody ce.
    destruct (N.leb_spec ce cs); [apply IH; exact Hinv|].
    destruct (N.leb_spec (N.min (cs + end_) ce) (N.min (cs + start) ce)); [apply IH; exact Hinv|].
    apply IH, page_inv_snoc; [exact Hinv | lia | reflexivity|]. clear IH Hinv.
    exists m, fm, canonical. cbn [h_frame h_range h_text h_chunk_range fst snd].
    split; [exact Hm|]. split; [reflexivity|]. split; [exact Hf|]. split; [exact Hget|].
    split; [exact He|]. split; [exact Hc|].
    split; [lia|]. split; [lia|]. split; [lia|]. split; [lia | reflexivity].
  Qed.

  Lemma lex_outer_post ms k offset evs : forall st,
    Forall (lex_ev_good ms) evs -> page_inv (lex_hit_good ms) k (fst st) ->
    post (lex_outer canonical_text tbl k offset evs st)
         (fun st' => page_inv (lex_hit_good ms) k (fst st')) (fun _ => True) True.
  Proof.
    induction evs as [|[m sls] r IH]; intros [hits produced] Hall Hinv; cbn [lex_outer]; [exact Hinv|].
    apply Forall_cons_iff in Hall as [Hd Hr]. cbn [fst] in Hinv.
    destruct (get tbl (lm_frame m)) as [fm|] eqn:Eg; [|exact (IH (hits, produced) Hr Hinv)].
    destruct (frame_content canonical_text fm) as [canonical| |] eqn:Ec; [|exact I | exact I].
    apply (IH _ Hr). exact (lex_inner_inv sls hits produced Hd Eg Ec Hinv).
  Qed.

  Theorem lex_fallback_post ms :
    post (lex_fallback parse_date canonical_text tbl parsed rq candidate_filter (Some ms))
         (fun r => page_inv (lex_hit_good ms) (N.max (rq_top_k rq) 1) (r_hits r)) (fun _ => True) True.
  Proof.
    unfold lex_fallback.
    apply (post_then (lex_evaluate_post ms ms (incl_refl _))). intros evs _ Hev.
    destruct (_ =? 0); [apply page_inv_nil|].
    destruct (SearchPage.parse_cursor _ _) as [offset| |]; [|exact I | exact I].
    apply (post_then (lex_outer_post ms _ offset evs ([], 0) Hev (page_inv_nil _ _))).
    intros [hits produced] _ Hinv. exact Hinv.
  Qed.

End Fallback.

Section FiltersOnly.
  Variable parse_date : str -> option Z.
  Variable frame_search_text : frame -> outcome str.
  Variable parsed : expr.
  Variable rq : request.

  (* what the match loop guarantees of every element of `matches` *)
  Definition fo_match_ok (frames : list frame) (x : frame * str) : Prop :=
    In (fst x) frames /\ f_status (fst x) = 0 /\ passes_filters rq (fst x) = true /\
    frame_search_text (fst x) = Ok (snd x) /\
    eval parse_date parsed (doc_of (fst x) (lower (snd x))) = true.

  Lemma fo_matches_post frames0 frames :
    incl frames frames0 ->
    post (fo_matches parse_date frame_search_text parsed rq frames) (Forall (fo_match_ok frames0))
         (fun _ => True) True.
  Proof.
    induction frames as [|f r IH]; cbn [fo_matches]; intros Hi; [constructor|].
    apply incl_cons_inv in Hi as [Hf Hi].
    destruct (f_status f =? 0) eqn:Es; cbn [negb]; [|exact (IH Hi)].
    destruct (passes_filters rq f) eqn:Ep; cbn [negb]; [|exact (IH Hi)].
    destruct (frame_search_text f) as [st| |] eqn:E1; [|exact I | exact I].
    apply (post_then (IH Hi)). intros l _ Hl.
    destruct (eval parse_date parsed (doc_of f (lower st))) eqn:Ee; [|exact Hl].
    constructor; [|exact Hl]. unfold fo_match_ok. cbn [fst snd].
    split; [exact Hf|]. split; [lia|]. split; [exact Ep|]. split; [exact E1 | exact Ee].
  Qed.

  Definition fo_hit_good (frames : list frame) (h : hit) : Prop :=
    exists f st, In f frames /\ f_id f = h_frame h /\ f_status f = 0 /\ passes_filters rq f = true /\
      frame_search_text f = Ok st /\
      eval parse_date parsed (doc_of f (lower st)) = true /\
      h_text h = utf8 (firstn (N.to_nat (N.max (rq_snippet_chars rq) 80)) st) /\
      h_range h = (0, len (h_text h)) /\ h_chunk_range h = h_range h.

  Lemma fo_hits_spec frames k : forall rank ms,
    Forall (fo_match_ok frames) ms ->
    let hits := fo_hits rq k rank ms in
    (length hits <= k)%nat /\ map h_rank hits = map (fun i => rank + N.of_nat i) (seq 0 (length hits)) /\
    Forall (fo_hit_good frames) hits.
  Proof.
    induction k as [|k IH]; intros rank ms Hall; cbn [fo_hits].
    - cbn. split; [lia|]. split; [reflexivity|constructor].
    - destruct ms as [|x r]; [cbn; split; [lia|]; split; [reflexivity|constructor]|].
      inversion Hall as [|y l Hx Hr]; subst. destruct (IH (rank + 1) r Hr) as (H1 & H2 & H3).
      cbn [length map seq]. split; [lia|]. split.
      + f_equal; [unfold fo_hit; cbn [h_rank]; lia|]. rewrite H2, <- seq_shift, map_map.
        apply map_ext. intros i. lia.
      + constructor; [|exact H3]. destruct Hx as (Ha & Hb & Hc & Hd & He).
        exists (fst x), (snd x). unfold fo_hit. cbn [h_frame h_text h_range h_chunk_range].
        repeat split; assumption.
  Qed.

  Theorem filters_only_valid tbl candidate_filter r :
    filters_only parse_date frame_search_text tbl parsed rq candidate_filter = Ok r ->
    llen (r_hits r) <= N.max (rq_top_k rq) 1 /\
    map h_rank (r_hits r) = map (fun i => 1 + N.of_nat i) (seq 0 (length (r_hits r))) /\
    Forall (fo_hit_good tbl) (r_hits r) /\
    forall h, In h (r_hits r) -> in_filter candidate_filter (h_frame h) = true.
  Proof.
    unfold filters_only.
    set (frames := match candidate_filter with Some l => filter _ tbl | None => tbl end).
    assert (Hsub : forall f, In f frames -> In f tbl /\ in_filter candidate_filter (f_id f) = true).
    { unfold frames, in_filter. destruct candidate_filter as [l|]; intros f Hf; [|split; [exact Hf|reflexivity]].
      apply filter_In in Hf. exact Hf. }
    pose proof (fo_matches_post frames frames (incl_refl _)) as Em.
    destruct (fo_matches _ _ _ _ frames) as [ms| |]; try discriminate. cbn [post] in Em.
    destruct (llen ms =? 0).
    - intros H. inversion H. unfold empty_response. cbn [r_hits].
      split; [unfold llen; cbn [length]; lia|]. split; [reflexivity|]. split; [constructor|intros h []].
    - destruct (SearchPage.parse_cursor _ _) as [offset| |]; try discriminate.
      intros H. inversion H; subst r. clear H. cbn [r_hits].
      assert (Hsk : Forall (fo_match_ok frames) (skipn (N.to_nat offset) ms)).
      { rewrite <- (firstn_skipn (N.to_nat offset) ms) in Em. apply Forall_app in Em. apply Em. }
      destruct (fo_hits_spec frames (N.to_nat (N.max (rq_top_k rq) 1)) 1 _ Hsk) as (H1 & H2 & H3).
      split; [unfold llen; lia|]. split; [exact H2|]. split.
      + eapply Forall_impl; [|exact H3]. intros h (f & st & Ha & Hb). exists f, st. split; [apply Hsub; exact Ha|exact Hb].
      + intros h Hh. rewrite Forall_forall in H3. destruct (H3 h Hh) as (f & st & Ha & Hb & _).
        rewrite <- Hb. apply Hsub. exact Ha.
  Qed.
End FiltersOnly.

(* frame ids are table positions (C06) *)
Definition dense (tbl : table) : Prop := forall i f, nth_error tbl i = Some f -> f_id f = N.of_nat i.

Lemma dense_get tbl f : dense tbl -> In f tbl -> get tbl (f_id f) = Some f.
Proof. intros Hd Hin. apply In_nth_error in Hin as [i Hi]. unfold get. rewrite (Hd i f Hi), Nat2N.id. exact Hi. Qed.

(* witnesses for the filters-only route on the query `*` (no text token, no engine answer): on them
   C10_filters_only_regression evaluates that a Deleted frame and a frame outside the requested scope
   are not returned (the cases of findings F-C10-1 / F-C10-2) *)
Definition w_text : str := [97; 108; 112; 104; 97].                 (* "alpha" *)
Definition w_frame (id status : N) (uri : option str) : frame :=
  mkFrame id status 0 uri None [] [] 0%Z [] (Some w_text) None None None None None.
Definition w_fst (f : frame) : outcome str := Ok (match f_search_text f with Some s => s | None => [] end).
Definition w_query : expr := ETerm (TWild [42]).
Definition w_rq (scope : option str) : request := mkRq 5 80 None scope None.
Definition w_search (tbl : table) (rq : request) : outcome response :=
  search_pipelines (fun _ => None) (fun _ => None) (fun l => l) w_fst w_fst tbl w_query [] rq None false false None None.
Definition w_uri_a : str := [109; 118; 50; 58; 47; 47; 97].          (* mv2://a *)
Definition w_uri_b : str := [109; 118; 50; 58; 47; 47; 98].          (* mv2://b *)

