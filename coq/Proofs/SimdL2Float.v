(* IEEE facts about round-to-nearest-even binary floats, proved from Flocq's definitions
   and correctness theorems (any precision/exponent range), then the carrier-generic
   theorems of Proofs/SimdL2Proofs.v instantiated at binary32 (Model/SimdL2F32.v).
   The symmetry part unfolds Flocq's rounding functions (binary_round_aux, shr_fexp, Fplus_naive:
   Flocq 4.1) and uses none of Flocq's correctness theorems; the sign part (nonneg: not NaN and
   sign bit clear, taken apart by nonneg_cases) goes through them.
   Either way a statement that mentions Bplus, Bminus, Bmult or Bsqrt carries the four
   standard-library axioms of Flocq's reals, because the definitions of these operations do (their
   validity proofs); only what mentions none of them (B2SF_Babs, SFabs_round_aux_NE, nonneg_cases,
   finite_not_nan, overflow_NE) is closed. *)
From Coq Require Import Reals Floats.SpecFloat.
From Flocq Require Import Core.Core IEEE754.BinarySingleNaN.
From MV Require Import Base.Prelude Model.SimdL2 Model.SimdL2F32 Proofs.SimdL2Proofs.

Section FloatFacts.
  Variables prec emax : Z.
  Context (prec_gt_0_ : FLX.Prec_gt_0 prec) (prec_lt_emax_ : Prec_lt_emax prec emax).
  Notation bf := (binary_float prec emax).

  (* Symmetry of the difference is stated with Babs: fl(x-y) = -fl(y-x) fails at x = y (both are +0).
     It holds for round-to-nearest-even because that mode, unlike the directed ones, does not look
     at the sign. *)
  Lemma B2SF_Babs : forall x : bf, B2SF (Babs x) = SFabs (B2SF x).
  Proof. now intros [s|s| |s m e H]. Qed.

  Lemma SFabs_round_aux_NE :
    forall s1 s2 mx ex lx,
      SFabs (binary_round_aux prec emax mode_NE s1 mx ex lx) =
      SFabs (binary_round_aux prec emax mode_NE s2 mx ex lx).
  Proof.
    intros s1 s2 mx ex lx. unfold binary_round_aux. cbn [choice_mode].
    destruct (shr_fexp prec emax mx ex lx) as [mrs1 e1].
    destruct (shr_fexp prec emax _ e1 loc_Exact) as [mrs2 e2].
    destruct (shr_m mrs2) as [|p|p]; try reflexivity.
    unfold binary_fit_aux, binary_overflow. cbn [overflow_to_inf].
    destruct (Zle_bool e2 (emax - prec)); reflexivity.
  Qed.

  Lemma Babs_normalize_opp :
    forall z e,
      Babs (binary_normalize prec emax _ _ mode_NE (- z) e false) =
      Babs (binary_normalize prec emax _ _ mode_NE z e false).
  Proof.
    (* z = +-p: both calls round the same mantissa at the same exponent and differ only in the sign
       given to binary_round_aux *)
    intros z e. destruct z as [|p|p]; cbn [Z.opp binary_normalize]; try reflexivity;
      apply B2SF_inj; rewrite !B2SF_Babs, !B2SF_SF2B; unfold binary_round;
      destruct (shl_align_fexp prec emax p e) as [mz ez]; apply SFabs_round_aux_NE.
  Qed.

  Lemma Babs_minus_sym :
    forall x y : bf, Babs (Bminus mode_NE x y) = Babs (Bminus mode_NE y x).
  Proof.
    (* left: finite - finite, where the two exact differences are opposite integers at the common exponent *)
    intros [sx|sx| |sx mx ex Hx] [sy|sy| |sy my ey Hy]; cbn [Bminus]; try reflexivity;
      try (destruct sx, sy; reflexivity).
    rewrite (Z.min_comm ey ex).
    replace (Fplus_naive sy my ey (negb sx) mx ex (Z.min ex ey))
       with (- Fplus_naive sx mx ex (negb sy) my ey (Z.min ex ey))%Z.
    - symmetry. apply Babs_normalize_opp.
    - unfold Fplus_naive. destruct sx, sy; cbn [cond_Zopp negb]; lia.
  Qed.

  Lemma Bmult_self_abs :
    forall m (x y : bf), Babs x = Babs y -> Bmult m x x = Bmult m y y.
  Proof.
    (* left: two finite numbers with equal mantissa and exponent, and s xor s = false for either sign *)
    intros m x y H. apply (f_equal (@B2SF prec emax)) in H. rewrite !B2SF_Babs in H.
    destruct x as [sx|sx| |sx mx ex Hx], y as [sy|sy| |sy my ey Hy]; cbn [B2SF SFabs] in H;
      try discriminate H; cbn [Bmult]; try reflexivity; try (destruct sx, sy; reflexivity).
    inversion H; subst my ey. apply B2SF_inj. rewrite !B2SF_SF2B, !xorb_nilpotent. reflexivity.
  Qed.

  Theorem sqdiff_sym_NE :
    forall x y : bf,
      Bmult mode_NE (Bminus mode_NE x y) (Bminus mode_NE x y) =
      Bmult mode_NE (Bminus mode_NE y x) (Bminus mode_NE y x).
  Proof. intros x y. apply Bmult_self_abs, Babs_minus_sym. Qed.

  Lemma Bminus_self_NE :
    forall x : bf, is_finite x = true -> Bminus mode_NE x x = B754_zero false.
  Proof.
    intros [s|s| |s m e H] Hf; try discriminate Hf; cbn [Bminus].
    - destruct s; reflexivity.
    - replace (Fplus_naive s m e (negb s) m e (Z.min e e)) with 0%Z; [reflexivity|].
      unfold Fplus_naive. destruct s; cbn [cond_Zopp negb]; lia.
  Qed.

  Definition nonneg (x : bf) : Prop := is_nan x = false /\ Bsign x = false.

  Lemma nonneg_cases (P : bf -> Prop) :
    P (B754_zero false) -> P (B754_infinity false) -> (forall m e H, P (B754_finite false m e H)) ->
    forall x, nonneg x -> P x.
  Proof.
    intros Pz Pi Pf [s|s| |s m e H] [Hn Hs]; try discriminate Hn; cbn [Bsign] in Hs; subst s; auto.
  Qed.

  Lemma finite_not_nan : forall x : bf, is_finite x = true -> is_nan x = false.
  Proof. now intros [s|s| |s m e H]. Qed.

  Lemma overflow_NE : forall (z : bf) s, B2SF z = binary_overflow prec emax mode_NE s -> z = B754_infinity s.
  Proof. intros [s'|s'| |s' m e H] s E; try discriminate E. inversion E. reflexivity. Qed.

  Lemma Bminus_finite_not_nan :
    forall x y : bf, is_finite x = true -> is_finite y = true -> is_nan (Bminus mode_NE x y) = false.
  Proof.
    intros x y Hx Hy. pose proof (Bminus_correct prec emax _ _ mode_NE x y Hx Hy) as C.
    destruct (Rlt_bool _ _).
    - destruct C as [_ [Hf _]]. apply finite_not_nan, Hf.
    - destruct C as [E _]. rewrite (overflow_NE _ _ E). reflexivity.
  Qed.

  Lemma Bmult_self_nonneg : forall d : bf, is_nan d = false -> nonneg (Bmult mode_NE d d).
  Proof.
    intros d Hd. destruct (is_finite d) eqn:Fd.
    - pose proof (Bmult_correct prec emax _ _ mode_NE d d) as C. rewrite xorb_nilpotent in C.
      destruct (Rlt_bool _ _).
      + destruct C as [_ [Hf Hsg]]. rewrite Fd in Hf. cbn [andb] in Hf.
        pose proof (finite_not_nan _ Hf) as Hn. split; [exact Hn | exact (Hsg Hn)].
      + rewrite (overflow_NE _ _ C). split; reflexivity.
    - destruct d as [s|s| |s m e H]; try discriminate Fd; try discriminate Hd.
      cbn [Bmult]. rewrite xorb_nilpotent. split; reflexivity.
  Qed.

  Lemma sqdiff_nonneg :
    forall x y : bf, is_finite x = true -> is_finite y = true ->
      nonneg (Bmult mode_NE (Bminus mode_NE x y) (Bminus mode_NE x y)).
  Proof. intros x y Hx Hy. apply Bmult_self_nonneg, Bminus_finite_not_nan; assumption. Qed.

  Lemma Bplus_nonneg : forall x y : bf, nonneg x -> nonneg y -> nonneg (Bplus mode_NE x y).
  Proof.
    intros x y Hx Hy.
    destruct Hx as [| |mx ex Vx] using nonneg_cases; destruct Hy as [| |my ey Vy] using nonneg_cases;
      try (split; reflexivity).
    set (x := B754_finite false mx ex Vx). set (y := B754_finite false my ey Vy).
    pose proof (Bplus_correct prec emax _ _ mode_NE x y eq_refl eq_refl) as C.
    destruct (Rlt_bool _ _).
    - destruct C as [_ [Hf Hsg]]. split; [apply finite_not_nan, Hf|].
      rewrite Hsg, Rcompare_Gt; [reflexivity|]. apply Rplus_lt_0_compat; apply F2R_gt_0; reflexivity.
    - destruct C as [E _]. rewrite (overflow_NE _ _ E). split; reflexivity.
  Qed.

  (* the horizontal sum starts from -0.0 *)
  Lemma Bplus_nzero_nonneg : forall x : bf, nonneg x -> nonneg (Bplus mode_NE (B754_zero true) x).
  Proof. apply nonneg_cases; split; reflexivity. Qed.

  Lemma Bsqrt_nonneg : forall x : bf, nonneg x -> nonneg (Bsqrt mode_NE x).
  Proof.
    apply nonneg_cases; try (split; reflexivity). intros m e H.
    destruct (Bsqrt_correct prec emax _ _ mode_NE (B754_finite false m e H)) as [_ [Hf Hsg]].
    pose proof (finite_not_nan _ Hf) as Hn. split; [exact Hn | exact (Hsg Hn)].
  Qed.
End FloatFacts.

Definition f32_finite (x : f32) : Prop := is_finite x = true.
Definition f32_nonneg (x : f32) : Prop := nonneg 24 128 x.

Lemma f32_sqd_sym : forall x y : f32, sqdiff f32 f32_sub f32_mul x y = sqdiff f32 f32_sub f32_mul y x.
Proof. intros x y. unfold sqdiff, f32_sub, f32_mul. cbv zeta. apply sqdiff_sym_NE. Qed.

Theorem f32_simd_sq_sym : forall a b, f32_l2_distance_squared_simd a b = f32_l2_distance_squared_simd b a.
Proof. exact (simd_sq_sym f32 f32_pzero f32_nzero f32_add f32_sub f32_mul f32_sqd_sym). Qed.

Theorem f32_simd_sym : forall a b, f32_l2_distance_simd a b = f32_l2_distance_simd b a.
Proof. exact (simd_sym f32 f32_pzero f32_nzero f32_add f32_sub f32_mul f32_sqrt f32_sqd_sym). Qed.

Theorem f32_simd_sq_self_zero :
  forall a, Forall f32_finite a -> f32_l2_distance_squared_simd a a = Ok f32_pzero.
Proof.
  apply (simd_sq_self_zero f32 f32_pzero f32_nzero f32_add f32_sub f32_mul f32_finite).
  - intros x Hx. apply Bminus_self_NE. exact Hx.
  - reflexivity.
  - reflexivity.
  - reflexivity.
Qed.

Theorem f32_simd_self_zero :
  forall a, Forall f32_finite a -> f32_l2_distance_simd a a = Ok f32_pzero.
Proof.
  intros a Ha. unfold f32_l2_distance_simd, l2_distance_simd.
  fold f32_l2_distance_squared_simd. rewrite (f32_simd_sq_self_zero a Ha). reflexivity.
Qed.

Theorem f32_body_nonneg :
  forall a b, length a = length b -> Forall f32_finite a -> Forall f32_finite b ->
    f32_nonneg (f32_l2sq_body a b).
Proof.
  apply (body_not_neg f32 f32_pzero f32_nzero f32_add f32_sub f32_mul f32_finite f32_nonneg).
  - intros x y Hx Hy. apply sqdiff_nonneg; assumption.
  - intros x y. apply Bplus_nonneg.
  - split; reflexivity.
  - intros x. apply Bplus_nzero_nonneg.
Qed.
