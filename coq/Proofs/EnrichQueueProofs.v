(* C41 (Model/Enrich.v), the invariant: safety over ALL schedules is one invariant, `Inv`, of two
   halves.  InvE is about the shared state alone: the frame table refines the foreground's history
   (J, K of StoreProofs), queue and process log together hold exactly the ids pushed by a queued
   put, all below next_frame_id, and the three outcome lists are the log.  InvW is what holds of the
   task the worker has in hand (`held`), and Once (a field of it) what holds while no foreground
   drain has overlapped a task in flight: queue and log partition e_queued, bar the task about to be
   completed.  Once and InvW are stated over the lists they read and the overlap flag, so an action
   that leaves those alone keeps them by conversion.  A round of the foreground drain is the worker's
   get, process, complete from and to a free hand, so the drain needs no invariant of its own. *)
From MV Require Import Base.Prelude Model.Store Model.StoreSpec Proofs.StoreProofs Model.Enrich Proofs.EnrichProofs.
Local Open Scope N_scope.

Definition below (l : list N) (b : N) : Prop := forall t, In t l -> t < b.

Record InvE (e : est) : Prop := mkInvE {
  E_K : K (e_st e);
  E_J : run_ok [] (e_hist e) = true -> J (e_st e) (ref_run [] (e_hist e));
  E_cover : forall t, In t (e_queued e) <-> In t (e_queue e) \/ In t (e_plog e);
  E_done : forall t, done e t <-> In t (e_plog e);
  E_below : below (e_queued e) (next_frame_id (e_st e));
  E_nodup : NoDup (e_queue e) }.

Lemma E_queue e : InvE e -> incl (e_queue e) (e_queued e).
Proof. intros HI t Ht. apply (E_cover _ HI). left. exact Ht. Qed.
Lemma E_plog e : InvE e -> incl (e_plog e) (e_queued e).
Proof. intros HI t Ht. apply (E_cover _ HI). right. exact Ht. Qed.

Lemma InvE_marked e : InvE e -> incl (e_marked e) (e_queued e).
Proof. intros HI t Ht. apply (E_plog _ HI), (E_done _ HI). left. exact Ht. Qed.

Lemma InvE_process e t : InvE e -> In t (e_queued e) -> InvE (fst (process e t)).
Proof.
  intros [HK HJ C D B ND] Ht. pose proof (process_store e t) as HS.
  constructor; rewrite ?process_queue, ?process_queued, ?process_plog, ?process_hist, ?(same_store_nfi _ _ HS).
  - exact (same_store_K _ _ HS HK).
  - intros Hok. exact (same_store_J _ _ _ HS (HJ Hok)).
  - apply C in Ht. intros x. rewrite In_snoc, (C x). split; [tauto|]. intros [H|[H| ->]]; tauto.
  - intros x. rewrite process_done, In_snoc, D. reflexivity.
  - exact B.
  - exact ND.
Qed.

Lemma InvE_complete e t : InvE e -> In t (e_plog e) -> InvE (complete e t).
Proof.
  intros [HK HJ C D B ND] Ht.
  constructor; cbn [complete e_st e_hist e_queue e_queued e_plog].
  - exact HK.
  - intros Hok. exact (same_store_J _ _ _ (same_store_touch _) (HJ Hok)).
  - intros x. rewrite remove_id_In, (C x). destruct (N.eq_dec x t) as [->|Hn]; tauto.
  - exact D.
  - exact B.
  - apply NoDup_filter. exact ND.
Qed.

Lemma InvE_checkpoint e extra : InvE e -> InvE (checkpoint e extra).
Proof.
  intros [HK HJ C D B ND].
  constructor; cbn [checkpoint set_st e_st e_hist e_queue e_queued e_plog].
  - apply sstep_K. exact HK.
  - intros Hok. apply J_settle, HJ, Hok.
  - exact C.
  - exact D.
  - rewrite nfi_ocommit by exact HK. exact B.
  - exact ND.
Qed.

Lemma InvE_flags e stop ov : InvE e ->
  InvE (mkE (e_st e) (e_queue e) stop (e_marked e) (e_queued e) (e_early e) (e_gone e) (e_plog e) (e_hist e) ov).
Proof. intros [HK HJ C D B ND]. constructor; assumption. Qed.

Lemma InvE_drain fuel e : InvE e -> InvE (drain fuel e).
Proof.
  apply drain_inv. intros e1 t r Eq HI. apply InvE_complete.
  - apply InvE_process; [exact HI|]. apply (E_queue _ HI). rewrite Eq. left. reflexivity.
  - rewrite process_plog. apply In_snoc. right. reflexivity.
Qed.

(* A queued put pushes next_frame_id as read before the call: every id pushed so far is below it,
   so it is new to queue and log, and the put moves next_frame_id past it. *)
Lemma InvE_call e f so : sop_of_f f = Some so -> InvE e -> InvE (call e so (pushes f)).
Proof.
  intros Hso HI. pose proof (E_queue _ HI) as Q. destruct HI as [HK HJ C D B ND].
  pose proof (nfi_mono (e_st e) so HK) as Hmono.
  assert (HJ1 : run_ok [] (e_hist e ++ [(so, snd (sstep (e_st e) so))]) = true ->
                J (fst (sstep (e_st e) so)) (ref_run [] (e_hist e ++ [(so, snd (sstep (e_st e) so))]))).
  { rewrite run_ok_app, ref_run_app. cbn [run_ok ref_run fold_left]. rewrite andb_true_r.
    intros Hok. apply andb_true_iff in Hok as [H1 H2].
    pose proof (sstep_refines (e_st e) _ so (HJ H1)) as HS. destruct (sstep (e_st e) so). exact (HS H2). }
  destruct (pushes f) eqn:Epush.
  - (* a queued put *)
    assert (Hstrict : next_frame_id (e_st e) < next_frame_id (fst (sstep (e_st e) so))).
    { destruct f; try discriminate Epush. injection Hso as <-. rewrite nfi_put by exact HK. lia. }
    constructor; cbn [call e_st e_hist e_queue e_queued e_plog].
    + apply sstep_K. exact HK.
    + exact HJ1.
    + intros x. rewrite !In_snoc, (C x). tauto.
    + exact D.
    + intros x Hx. apply In_snoc in Hx as [Hx| ->]; [apply B in Hx; lia|exact Hstrict].
    + apply NoDup_snoc; [exact ND|]. intros H. apply Q, B in H. lia.
  - constructor; cbn [call e_st e_hist e_queue e_queued e_plog].
    + apply sstep_K. exact HK.
    + exact HJ1.
    + exact C.
    + exact D.
    + intros x Hx. apply B in Hx. lia.
    + exact ND.
Qed.

Definition held (p : wpc) : option (N * bool) :=
  match p with WHasTask t => Some (t, false) | WProcessed t => Some (t, true) | _ => None end.

Record Once (q pl : list N) (h : option (N * bool)) : Prop := mkOnce {
  O_nodup : NoDup pl;
  O_out : forall t, In t pl -> In t q -> h = Some (t, true);
  O_has : forall t, h = Some (t, false) -> In t q }.
Arguments O_nodup {q pl h}.

Lemma Once_get q pl t r : q = t :: r -> Once q pl None -> Once q pl (Some (t, false)).
Proof.
  intros Hq [A B C]. constructor.
  - exact A.
  - intros x Hx Hin. discriminate (B x Hx Hin).
  - intros x [= <-]. rewrite Hq. left. reflexivity.
Qed.

Lemma Once_process q pl t : Once q pl (Some (t, false)) -> Once q (pl ++ [t]) (Some (t, true)).
Proof.
  intros [A B C]. constructor.
  - apply NoDup_snoc; [exact A|]. intros H. discriminate (B t H (C t eq_refl)).
  - intros x Hx Hin. apply In_snoc in Hx as [Hx| ->]; [discriminate (B x Hx Hin)|reflexivity].
  - discriminate.
Qed.

Lemma Once_complete q pl t : Once q pl (Some (t, true)) -> Once (remove_id t q) pl None.
Proof.
  intros [A B C]. constructor.
  - exact A.
  - intros x Hx Hin. apply remove_id_In in Hin as [Hin Hne]. injection (B x Hx Hin) as ->. destruct (Hne eq_refl).
  - discriminate.
Qed.

Lemma Once_drain fuel e : Once (e_queue e) (e_plog e) None -> Once (e_queue (drain fuel e)) (e_plog (drain fuel e)) None.
Proof.
  apply (drain_inv (fun e1 => Once (e_queue e1) (e_plog e1) None)). intros e1 t r Eq H.
  cbn [complete e_queue e_plog]. rewrite process_queue, process_plog.
  exact (Once_complete _ _ t (Once_process _ _ t (Once_get _ _ t r Eq H))).
Qed.

Lemma Once_push q pl id h : ~ In id pl -> Once q pl h -> Once (q ++ [id]) pl h.
Proof.
  intros Hn [A B C]. constructor.
  - exact A.
  - intros t Ht Hin. apply In_snoc in Hin as [Hin| ->]; [exact (B t Ht Hin)|destruct (Hn Ht)].
  - intros t Ht. apply In_snoc. left. exact (C t Ht).
Qed.

Record InvW (q qd pl : list N) (ov : bool) (h : option (N * bool)) : Prop := mkInvW {
  W_flight : forall t b, h = Some (t, b) -> In t qd /\ (~ In t q \/ exists r, q = t :: r);
  W_proc : forall t, h = Some (t, true) -> In t pl;
  W_once : ov = false -> Once q pl h }.
Arguments W_flight {q qd pl ov h}.
Arguments W_proc {q qd pl ov h}.
Arguments W_once {q qd pl ov h}.

Lemma InvW_flight {q qd pl ov p} : InvW q qd pl ov (held p) ->
  forall t, p = WHasTask t \/ p = WProcessed t -> In t qd /\ (~ In t q \/ exists r, q = t :: r).
Proof. intros HW t [-> | ->]; exact (W_flight HW t _ eq_refl). Qed.

Lemma InvW_get q qd pl ov t r : incl q qd -> q = t :: r -> InvW q qd pl ov None -> InvW q qd pl ov (Some (t, false)).
Proof.
  intros Q Hq [F P O]. constructor.
  - intros x b [= <- <-]. split; [|right; exists r; exact Hq]. apply Q. rewrite Hq. left. reflexivity.
  - discriminate.
  - intros Hov. exact (Once_get q pl t r Hq (O Hov)).
Qed.

Lemma InvW_process q qd pl ov t : InvW q qd pl ov (Some (t, false)) -> InvW q qd (pl ++ [t]) ov (Some (t, true)).
Proof.
  intros [F P O]. constructor.
  - intros x b [= <- <-]. exact (F t false eq_refl).
  - intros x [= <-]. apply In_snoc. right. reflexivity.
  - intros Hov. exact (Once_process q pl t (O Hov)).
Qed.

Lemma InvW_complete q qd pl ov t : InvW q qd pl ov (Some (t, true)) -> InvW (remove_id t q) qd pl ov None.
Proof.
  intros [F P O]. constructor.
  - discriminate.
  - discriminate.
  - intros Hov. exact (Once_complete q pl t (O Hov)).
Qed.

Lemma drain_plog_grows fuel e : incl (e_plog e) (e_plog (drain fuel e)).
Proof.
  apply (drain_inv (fun e1 => incl (e_plog e) (e_plog e1))); [|apply incl_refl].
  intros e1 t r _ H. cbn [complete e_plog]. rewrite process_plog. apply incl_appl. exact H.
Qed.

Lemma InvW_drain e h ov :
  (ov = false -> e_overlap e = false /\ (e_queue e = [] \/ h = None)) ->
  InvW (e_queue e) (e_queued e) (e_plog e) (e_overlap e) h ->
  let e1 := drain (length (e_queue e)) e in InvW (e_queue e1) (e_queued e1) (e_plog e1) ov h.
Proof.
  intros Hov [F P O] e1. subst e1. constructor.
  - intros t b H. rewrite drain_queued, (drain_queue_nil _ e (le_n _)). split; [apply (F t b H)|left; intros []].
  - intros t E. apply drain_plog_grows, P, E.
  - intros E. destruct (Hov E) as [E0 [Hq| ->]].
    + rewrite Hq. exact (O E0).
    + apply Once_drain. exact (O E0).
Qed.

Lemma overlap_false e w :
  e_overlap e || (inflight w && negb (match e_queue e with [] => true | _ => false end)) = false ->
  e_overlap e = false /\ (e_queue e = [] \/ held (w_pc w) = None).
Proof.
  intros H. apply orb_false_iff in H as [H0 H1]. split; [exact H0|].
  destruct (e_queue e); [left; reflexivity|right]. cbn [negb] in H1. rewrite andb_true_r in H1.
  unfold inflight in H1. destruct (w_pc w); first [reflexivity | discriminate H1].
Qed.

Lemma InvW_push q qd pl ov id h : ~ In id qd -> incl pl qd -> InvW q qd pl ov h -> InvW (q ++ [id]) (qd ++ [id]) pl ov h.
Proof.
  intros Hnew Hp [F P O]. constructor.
  - intros t b H. destruct (F t b H) as [Hq Hh]. split; [apply In_snoc; left; exact Hq|]. destruct Hh as [Hn|[r Hr]].
    + left. intros Hin. apply In_snoc in Hin as [Hin| ->]; [exact (Hn Hin)|exact (Hnew Hq)].
    + right. exists (r ++ [id]). rewrite Hr. reflexivity.
  - exact P.
  - intros Hov. apply Once_push; [|exact (O Hov)]. intros H. exact (Hnew (Hp _ H)).
Qed.

Record Inv (x : est * wst) : Prop := mkInv {
  I_E : InvE (fst x);
  I_W : InvW (e_queue (fst x)) (e_queued (fst x)) (e_plog (fst x)) (e_overlap (fst x)) (held (w_pc (snd x))) }.

Lemma Inv_wtrans iv extra e w x1 : wtrans iv extra e w x1 -> Inv (e, w) -> Inv x1.
Proof.
  intros HT [HE HW]. cbn [fst snd] in HE, HW.
  destruct HT as [Hpc Hs|Hpc Hs Hq|t r Hpc Hs Hq|t Hpc|t Hpc|Hpc|Hpc]; rewrite Hpc in HW; constructor; cbn [fst snd set_pc w_pc].
  - destruct (0 <? w_since w); [apply InvE_checkpoint|]; exact HE.
  - destruct (0 <? w_since w); exact HW.
  - (* the queue is empty *) exact HE.
  - rewrite Hpc. exact HW.
  - (* get *) exact HE.
  - apply InvW_get with r; [exact (E_queue _ HE)|exact Hq|exact HW].
  - apply InvE_process; [exact HE|]. exact (proj1 (W_flight HW t false eq_refl)).
  - rewrite process_queue, process_queued, process_plog, process_overlap. apply InvW_process. exact HW.
  - apply InvE_complete; [exact HE|]. exact (W_proc HW t eq_refl).
  - destruct (iv <=? w_since w + 1); apply InvW_complete; exact HW.
  - apply InvE_checkpoint. exact HE.
  - exact HW.
  - (* stopped *) exact HE.
  - rewrite Hpc. exact HW.
Qed.

Lemma Inv_ftrans e w e1 : ftrans e w e1 -> Inv (e, w) -> Inv (e1, w).
Proof.
  intros HT [HE HW]. cbn [fst snd] in HE, HW. destruct HT as [| | |f so Hso]; constructor; cbn [fst snd].
  - (* search *) exact HE.
  - exact HW.
  - exact (InvE_flags e true _ HE).
  - exact HW.
  - exact (InvE_flags _ _ _ (InvE_drain _ e HE)).
  - apply InvW_drain; [apply overlap_false|exact HW].
  - apply InvE_call; assumption.
  - (* the id a queued put pushes is not below next_frame_id, so it was never pushed *)
    cbn [call e_queue e_queued e_plog e_overlap]. destruct (pushes f); [|exact HW].
    apply InvW_push; [|exact (E_plog _ HE)|exact HW]. intros H. apply (E_below _ HE) in H. lia.
Qed.

Theorem Inv_run_from iv sched x : Inv x -> Inv (run_from iv x sched).
Proof. apply run_from_inv; [apply Inv_wtrans|apply Inv_ftrans]. Qed.

Lemma Inv_init b : Inv (init b).
Proof.
  constructor; cbn [init fst snd w0 w_pc].
  - constructor; cbn [e_st e_hist e_queue e_queued e_plog].
    + apply K_store0.
    + intros _. apply J_store0.
    + intros t. cbn [In]. tauto.
    + intros t. unfold done. cbn [e_marked e_early e_gone In]. tauto.
    + intros t [].
    + constructor.
  - constructor; cbn [held e_queue e_plog].
    + discriminate.
    + discriminate.
    + intros _. constructor; [constructor|intros t []|discriminate].
Qed.

Theorem Inv_run iv b sched : Inv (run_pre iv b sched).
Proof. apply Inv_run_from, Inv_init. Qed.

(* C41 (1): exposed frames = reference table of the foreground history, for either entry flag *)
Theorem frame_table_any_entry_flag iv b sched :
  let e := fst (run_pre iv b sched) in
  run_ok [] (e_hist e) = true ->
  view (e_st e) = ref_run [] (e_hist e) /\ (pending (e_st e) = [] -> committed (e_st e) = ref_run [] (e_hist e)).
Proof.
  intros e Hok. pose proof (J_view _ _ (E_J _ (I_E _ (Inv_run iv b sched)) Hok)) as HV.
  split; [exact HV|]. intros Hp. rewrite <- (quiescent_committed _ Hp). exact HV.
Qed.
