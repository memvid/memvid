(* C26 (Model/Derived.v).  Inv: the store refines its reference table R (J, K of C01) and every
   card, enrichment record, queue entry and instant-index frame names the Document frame of R it was
   derived from (Good, GoodInst).  With `fixed = true` every step keeps Inv; with `fixed = false` the
   step is the same outside known_class and wrong inside it, and SeqAhead shows that without doctor
   every state is inside. *)
From MV Require Import Base.Prelude Model.Store Model.StoreSpec Proofs.StoreProofs Model.Derived.
Local Open Scope N_scope.

(* f_role = 0: a Document frame *)
Definition frame_at (R : list frame) (fid tag : N) : Prop :=
  exists f, nth_error R (N.to_nat fid) = Some f /\ f_id f = fid /\ f_tag f = tag /\ f_role f = 0.

Definition Good (R : list frame) (d : derived) : Prop :=
  (forall c, In c (cards d) -> frame_at R (c_src c) (c_text c)) /\
  (forall fid ids, In (fid, ids) (stamps d) ->
     forall i, In i ids -> exists c, In c (cards d) /\ c_id c = i /\ c_src c = fid) /\
  (forall fid tag, In (fid, tag) (queue d) -> frame_at R fid tag).

Definition GoodInst (R : list frame) (l : list (N * N)) : Prop :=
  forall fid tag, In (fid, tag) l -> frame_at R fid tag.

Lemma frame_at_extends R R' fid tag : Extends R R' -> frame_at R fid tag -> frame_at R' fid tag.
Proof.
  intros [_ HE] (f & Hn & Hi & Ht & Hr). destruct (HE _ _ Hn) as (f' & Hn' & S1).
  destruct S1 as (Iid & _ & Itag & Irole & _). exists f'. repeat split; congruence.
Qed.

Lemma Good_extends {R R' d} : Extends R R' -> Good R d -> Good R' d.
Proof.
  intros HE (G1 & G2 & G3). repeat split.
  - intros c Hc. eapply frame_at_extends; eauto.
  - exact G2.
  - intros fid tag Hq. eapply frame_at_extends; eauto.
Qed.

Lemma GoodInst_extends {R R' l} : Extends R R' -> GoodInst R l -> GoodInst R' l.
Proof. intros HE G fid tag Hq. eapply frame_at_extends; eauto. Qed.

Lemma Good_der0 R : Good R der0.
Proof. repeat split; cbn; intros; contradiction. Qed.

Lemma GoodInst_nil R : GoodInst R [].
Proof. intros fid tag H. contradiction. Qed.

Lemma GoodInst_snoc R l fid tag : GoodInst R l -> frame_at R fid tag -> GoodInst R (l ++ [(fid, tag)]).
Proof.
  intros G HF a b Hin. apply in_app_or in Hin as [Hin|[Hin|[]]]; [eapply G; eauto|]. inversion Hin; subst. exact HF.
Qed.

Lemma mk_cards_in n : forall first src tag k c,
  In c (mk_cards first src tag k n) -> c_src c = src /\ c_text c = tag /\ first <= c_id c < first + N.of_nat n.
Proof.
  induction n as [|n IH]; intros first src tag k c Hin; cbn [mk_cards] in Hin; [contradiction|].
  destruct Hin as [Hc|Hin].
  - subst c. cbn [c_src c_text c_id]. repeat split; lia.
  - apply IH in Hin as (Hsrc & Htext & Hid). repeat split; try assumption; lia.
Qed.

Lemma mk_cards_length n : forall first src tag k, length (mk_cards first src tag k n) = n.
Proof. induction n as [|n IH]; intros; cbn [mk_cards length]; [reflexivity|]. rewrite IH. reflexivity. Qed.

Lemma Good_add_cards R d src tag n :
  Good R d -> frame_at R src tag -> Good R (add_cards d src tag n).
Proof.
  intros (G1 & G2 & G3) HF. unfold add_cards. destruct (n =? 0); [repeat split; assumption|].
  repeat split; cbn [cards stamps queue].
  - intros c Hc. apply in_app_or in Hc as [Hc|Hc]; [apply G1; assumption|].
    apply mk_cards_in in Hc as (Hsrc & Htext & _). rewrite Hsrc, Htext. exact HF.
  - intros fid ids Hs i Hi. apply in_app_or in Hs as [Hs|[Hs|[]]].
    + destruct (G2 _ _ Hs _ Hi) as (c & Hc & E1 & E2). exists c. split; [apply in_or_app; left; assumption|split; assumption].
    + inversion Hs; subst fid ids. apply in_map_iff in Hi as (c & E & Hc).
      exists c. split; [apply in_or_app; right; assumption|]. split; [assumption|].
      apply mk_cards_in in Hc. apply Hc.
  - exact G3.
Qed.

Lemma Good_push_queue R d fid tag : Good R d -> frame_at R fid tag -> Good R (push_queue d fid tag).
Proof.
  intros (G1 & G2 & G3) HF. repeat split; cbn [push_queue cards stamps queue]; try assumption.
  intros a b Hin. apply in_app_or in Hin as [Hin|[Hin|[]]]; [eapply G3; eauto|]. inversion Hin; subst. exact HF.
Qed.

Lemma Good_clear_queue R d : Good R d -> Good R (clear_queue d).
Proof. intros (G1 & G2 & G3). repeat split; cbn [clear_queue cards stamps queue]; try assumption. intros; contradiction. Qed.

(* touch only sets `dirty`, which neither J nor K looks at *)
Lemma J_touch s R : J s R -> J (touch s) R.
Proof. intros HJ. exact HJ. Qed.
Lemma K_touch s : K s -> K (touch s).
Proof. intros HK. exact HK. Qed.

(* what a put returns is the log sequence number: the id the code as it is attaches *)
Lemma sstep_put_returns s uk tag n role auto :
  fst (fst (snd (sstep s (OPut uk tag n role auto)))) = Ok (seqno s + 1).
Proof. rewrite sstep_put. reflexivity. Qed.

Lemma ref_put_frame_at R uk tag nchunks : frame_at (ref_put R uk tag nchunks 0) (len R) tag.
Proof.
  destruct (ref_put_doc_frame R uk tag nchunks 0) as (f & Hn & Hi & Ht & Hr).
  exists f. unfold len at 1. rewrite Nat2N.id. repeat split; assumption.
Qed.

Definition Inv (ds : dstate) (R : list frame) : Prop :=
  J (st ds) R /\ K (st ds) /\ Good R (cur ds) /\ Good R (saved ds) /\ GoodInst R (inst ds).

(* `Inv ds R` is convertible with `J (st ds) R /\ K (st ds) /\ Der R ds` *)
Definition Der (R : list frame) (ds : dstate) : Prop := Good R (cur ds) /\ Good R (saved ds) /\ GoodInst R (inst ds).

Lemma Der_extends {R R' ds} : Extends R R' -> Der R ds -> Der R' ds.
Proof.
  intros HE (GC & GS & GI). exact (conj (Good_extends HE GC) (conj (Good_extends HE GS) (GoodInst_extends HE GI))).
Qed.

Lemma Der_store_after {R} o {ds} s1 : Der R ds -> Der R (dstore_after o ds s1).
Proof.
  intros (GC & GS & GI). pose proof (GoodInst_nil R) as GN. unfold dstore_after, Der.
  (* three shapes: everything written (cur, cur, []), nothing written (unchanged), crash (saved, saved, []) *)
  destruct o; try destruct (op_saves _); cbn [cur saved inst]; auto.
Qed.

Lemma st_store_after o ds s1 : st (dstore_after o ds s1) = s1.
Proof. unfold dstore_after. destruct o; try destruct (op_saves _); reflexivity. Qed.

Lemma Inv_ds0 : Inv ds0 [].
Proof. exact (conj J_store0 (conj K_store0 (conj (Good_der0 _) (conj (Good_der0 _) (GoodInst_nil _))))). Qed.

Lemma dstep_fixed_inv ds R op :
  Inv ds R ->
  match sop_of op with
  | Some so => ref_ok R (so, sout_of (snd (dstep true ds op))) = true ->
               Inv (fst (dstep true ds op)) (ref_step R (so, sout_of (snd (dstep true ds op))))
  | None => Inv (fst (dstep true ds op)) R
  end.
Proof.
  intros (HJ & HK & HD).
  destruct op as [uk tag nchunks auto fl|o| |]; cbn [sop_of dstep].
  - (* the id attached is next_frame_id read before the append = |R| = the id of the new document *)
    pose proof (sstep_put_J (st ds) R uk tag nchunks auto HJ) as HS.
    pose proof (sstep_K (st ds) (OPut uk tag nchunks 0 auto) HK) as HK1.
    pose proof (sstep_put_returns (st ds) uk tag nchunks 0 auto) as HA.
    destruct (sstep (st ds) (OPut uk tag nchunks 0 auto)) as [s3 o]. cbn [fst snd sout_of] in *.
    intros _. unfold ref_step, acked. rewrite HA.
    assert (HE : Extends R (ref_put R uk tag nchunks 0)).
    { unfold ref_put. eapply Extends_trans; [apply Extends_snoc|apply ref_chunks_extends]. }
    assert (HF : frame_at (ref_put R uk tag nchunks 0) (der_id true (st ds)) tag).
    { unfold der_id. rewrite (next_frame_id_is_view_length _ _ HJ HK). apply ref_put_frame_at. }
    destruct (Der_extends HE HD) as (GC & GS & GI).
    assert (GC1 : Good (ref_put R uk tag nchunks 0) (if df_queue fl then push_queue (cur ds) (der_id true (st ds)) tag else cur ds)).
    { destruct (df_queue fl); [apply Good_push_queue|]; assumption. }
    split; [apply J_touch; exact HS|]. split; [apply K_touch; exact HK1|]. cbn [cur saved inst]. split; [apply Good_add_cards; assumption|].
    (* the copy in the file: after an automatic checkpoint the queue-pushed copy (GC1) with no
       instant-index frame left, else the old copy (GS) *)
    destruct auto; (split; [assumption|]); [apply GoodInst_nil|].
    destruct (df_instant fl); [apply GoodInst_snoc|]; assumption.
  - (* plain store op: R grows, the derived data are only moved between the copies *)
    pose proof (sstep_refines (st ds) R o HJ) as HS.
    pose proof (sstep_K (st ds) o HK) as HK1.
    destruct (sstep (st ds) o) as [s1 out]. cbn [fst snd sout_of] in *.
    intros Hok. unfold Inv. rewrite st_store_after.
    exact (conj (HS Hok) (conj HK1 (Der_store_after _ _ (Der_extends (Extends_ref_step R (o, out)) HD)))).
  - (* drain: the queue is emptied, the store at most touched *)
    destruct HD as (GC & GS & GI). unfold Inv. cbn [fst st cur saved inst].
    split; [destruct (queue (cur ds)); [|apply J_touch]; exact HJ|]. split; [destruct (queue (cur ds)); [|apply K_touch]; exact HK|].
    split; [apply Good_clear_queue; exact GC|]. split; assumption.
  - exact (conj HJ (conj HK HD)).
Qed.

(* side condition of C01/C06 (Proofs/StoreProofs.v ref_ok) threaded through a derived history *)
Fixpoint drun_ok (R : list frame) (xs : list (dop * dout)) : bool :=
  match xs with
  | [] => true
  | (op, o) :: r =>
      match sop_of op with
      | Some so => ref_ok R (so, sout_of o) && drun_ok (ref_step R (so, sout_of o)) r
      | None => drun_ok R r
      end
  end.

Fixpoint dref_run (R : list frame) (xs : list (dop * dout)) : list frame :=
  match xs with
  | [] => R
  | (op, o) :: r =>
      match sop_of op with
      | Some so => dref_run (ref_step R (so, sout_of o)) r
      | None => dref_run R r
      end
  end.

Lemma drun_cons fixed ds op r :
  drun fixed ds (op :: r) =
  (fst (drun fixed (fst (dstep fixed ds op)) r), snd (dstep fixed ds op) :: snd (drun fixed (fst (dstep fixed ds op)) r)).
Proof. cbn [drun]. destruct (dstep fixed ds op) as [ds1 o]. cbn [fst snd]. destruct (drun fixed ds1 r). reflexivity. Qed.

Theorem drun_fixed_inv : forall ops ds R,
  Inv ds R ->
  drun_ok R (combine ops (snd (drun true ds ops))) = true ->
  Inv (fst (drun true ds ops)) (dref_run R (combine ops (snd (drun true ds ops)))).
Proof.
  induction ops as [|op ops IH]; intros ds R HI Hok; [exact HI|].
  pose proof (dstep_fixed_inv ds R op HI) as HS.
  rewrite drun_cons in *. cbn [fst snd combine drun_ok dref_run] in *.
  destruct (sop_of op) as [so|]; [apply andb_true_iff in Hok as [H1 Hok]; specialize (HS H1)|]; exact (IH _ _ HS Hok).
Qed.

(* C26 for the repaired code, all histories *)
Theorem fixed_derived_refer_to_their_frame ops :
  let ds := fst (drun true ds0 ops) in
  drun_ok [] (combine ops (snd (drun true ds0 ops))) = true ->
  Good (view (st ds)) (cur ds) /\ Good (view (st ds)) (saved ds) /\ GoodInst (view (st ds)) (inst ds).
Proof.
  intros ds Hok. destruct (drun_fixed_inv ops ds0 [] Inv_ds0 Hok) as (HJ & _ & GC & GS & GI).
  fold ds in HJ, GC, GS, GI. rewrite (J_view _ _ HJ). exact (conj GC (conj GS GI)).
Qed.

Lemma known_class_false s : known_class s = false <-> der_id false s = der_id true s.
Proof. unfold known_class. rewrite negb_false_iff. apply N.eqb_eq. Qed.

Definition no_derived (fl : dflags) : bool := negb (df_instant fl) && negb (df_queue fl) && (df_ncards fl =? 0).

Definition put_outside (ds : dstate) (op : dop) : bool :=
  match op with
  | DPut _ _ _ _ fl => negb (known_class (st ds)) || no_derived fl
  | _ => true
  end.

Lemma dstep_asis_eq_fixed ds op : put_outside ds op = true -> dstep false ds op = dstep true ds op.
Proof.
  destruct op as [uk tag nchunks auto fl|o| |]; try reflexivity.
  cbn [put_outside]. intros H. apply orb_true_iff in H as [H|H].
  - apply negb_true_iff, known_class_false in H. cbn [dstep]. rewrite H. reflexivity.
  - unfold no_derived in H. apply andb_true_iff in H as [H H3]. apply andb_true_iff in H as [H1 H2].
    apply negb_true_iff in H1, H2. destruct fl as [i q n]. cbn [df_instant df_queue df_ncards] in *. subst i q.
    assert (n = 0) by lia. subst n.
    cbn [dstep df_instant df_queue df_ncards add_cards N.eqb]. reflexivity.
Qed.

Fixpoint outside_run (ds : dstate) (ops : list dop) : bool :=
  match ops with
  | [] => true
  | op :: r => put_outside ds op && outside_run (fst (dstep false ds op)) r
  end.

Theorem drun_asis_eq_fixed : forall ops ds, outside_run ds ops = true -> drun false ds ops = drun true ds ops.
Proof.
  induction ops as [|op ops IH]; intros ds H; [reflexivity|].
  cbn [outside_run] in H. apply andb_true_iff in H as [H1 H2].
  rewrite !drun_cons, <- (dstep_asis_eq_fixed ds op H1), (IH _ H2). reflexivity.
Qed.

Lemma mk_cards_first first src tag n : n <> O -> In (mkCard first src tag 0) (mk_cards first src tag 0 n).
Proof. destruct n; [congruence|]. intros _. left. reflexivity. Qed.

(* inside the class every datum the put derives carries the log sequence number, which is not
   the id of the put's document frame *)
Theorem asis_in_class_wrong ds R uk tag nchunks auto fl :
  Inv ds R -> known_class (st ds) = true ->
  let ds1 := fst (dstep false ds (DPut uk tag nchunks auto fl)) in
  let doc_id := len R in   (* the id of the document frame this put creates: ref_put_frame_at *)
  (df_ncards fl <> 0 -> exists c, In c (cards (cur ds1)) /\ c_text c = tag /\ c_src c = seqno (st ds) + 1 /\ c_src c <> doc_id) /\
  (df_ncards fl <> 0 -> exists ids, In (seqno (st ds) + 1, ids) (stamps (cur ds1)) /\ ids <> [] /\ seqno (st ds) + 1 <> doc_id) /\
  (df_queue fl = true -> In (seqno (st ds) + 1, tag) (queue (cur ds1)) /\ seqno (st ds) + 1 <> doc_id).
Proof.
  intros (HJ & HK & _) Hc ds1 doc_id.
  assert (Hne : seqno (st ds) + 1 <> doc_id).
  { unfold doc_id. rewrite <- (next_frame_id_is_view_length _ _ HJ HK). unfold known_class in Hc. lia. }
  subst ds1. cbn [dstep]. destruct (sstep (st ds) (OPut uk tag nchunks 0 auto)) as [s3 o]. cbn [fst cur der_id].
  split; [|split].
  - intros Hn. exists (mkCard (next_card (if df_queue fl then push_queue (cur ds) (seqno (st ds) + 1) tag else cur ds)) (seqno (st ds) + 1) tag 0).
    cbn [c_text c_src]. repeat split; try assumption.
    unfold add_cards. replace (df_ncards fl =? 0) with false by lia. cbn [cards].
    apply in_or_app. right. apply mk_cards_first. lia.
  - intros Hn. unfold add_cards. replace (df_ncards fl =? 0) with false by lia. cbn [stamps].
    eexists. split; [apply in_or_app; right; left; reflexivity|]. split; [|assumption].
    destruct (N.to_nat (df_ncards fl)) eqn:E; [lia|]. cbn [mk_cards map]. discriminate.
  - intros Hq. rewrite Hq. split; [|assumption].
    unfold add_cards. destruct (df_ncards fl =? 0); cbn [queue push_queue]; apply in_or_app; right; left; reflexivity.
Qed.

(* every insert ever logged consumed one sequence number *)
Definition SeqAhead (s : store) : Prop := len (committed s) + count_ins (pending s) <= seqno s.

Lemma SeqAhead_commit s extra : SeqAhead s -> SeqAhead (do_commit s extra).
Proof. unfold SeqAhead, do_commit. cbn [committed pending seqno]. rewrite len_view, count_ins_nil. lia. Qed.
Lemma SeqAhead_bump s extra : SeqAhead s -> SeqAhead (bump s extra).
Proof. unfold SeqAhead, bump. cbn [committed pending seqno]. lia. Qed.
Lemma SeqAhead_append s e : SeqAhead s -> SeqAhead (fst (append s e)).
Proof.
  unfold SeqAhead, append. cbn [fst committed pending seqno]. rewrite count_ins_app, count_ins_cons, count_ins_nil. cbn [snd].
  destruct (is_insert e); lia.
Qed.
Lemma SeqAhead_touch s : SeqAhead s -> SeqAhead (touch s).
Proof. intros H. exact H. Qed.

Definition doctor_free_s (o : sop) : bool := match o with ODoctor _ => false | _ => true end.
Definition doctor_free (op : dop) : bool := match op with DStore o => doctor_free_s o | _ => true end.

Lemma sstep_SeqAhead s o : doctor_free_s o = true -> SeqAhead s -> SeqAhead (fst (sstep s o)).
Proof.
  intros Hd. apply sstep_closed.
  - intros s0 e. apply SeqAhead_append.
  - intros s0 e. apply SeqAhead_commit.
  - intros s0 e. apply SeqAhead_bump.
  - intros s0 q ->. discriminate Hd.
Qed.

Lemma dstep_store_facts fixed ds op :
  doctor_free op = true -> SeqAhead (st ds) -> K (st ds) ->
  SeqAhead (st (fst (dstep fixed ds op))) /\ K (st (fst (dstep fixed ds op))).
Proof.
  intros Hd HS HK. destruct op as [uk tag nchunks auto fl|o| |]; cbn [dstep].
  - pose proof (sstep_SeqAhead (st ds) (OPut uk tag nchunks 0 auto) eq_refl HS) as H1.
    pose proof (sstep_K (st ds) (OPut uk tag nchunks 0 auto) HK) as H2.
    destruct (sstep (st ds) (OPut uk tag nchunks 0 auto)) as [s3 o]. cbn [fst st] in *. split; assumption.
  - pose proof (sstep_SeqAhead (st ds) o Hd HS) as H1.
    pose proof (sstep_K (st ds) o HK) as H2.
    destruct (sstep (st ds) o) as [s1 out]. cbn [fst] in *. rewrite st_store_after. split; assumption.
  - cbn [fst st]. destruct (queue (cur ds)); split; assumption.
  - cbn [fst]. split; assumption.
Qed.

Lemma SeqAhead_store0 : SeqAhead store0.
Proof. unfold SeqAhead. vm_compute. discriminate. Qed.

Lemma drun_store_facts fixed : forall ops ds,
  forallb doctor_free ops = true -> SeqAhead (st ds) -> K (st ds) ->
  SeqAhead (st (fst (drun fixed ds ops))) /\ K (st (fst (drun fixed ds ops))).
Proof.
  induction ops as [|op ops IH]; intros ds Hd HS HK; [split; assumption|].
  cbn [forallb] in Hd. apply andb_true_iff in Hd as [H1 H2].
  destruct (dstep_store_facts fixed ds op H1 HS HK) as [A B]. rewrite drun_cons. exact (IH _ H2 A B).
Qed.

Lemma SeqAhead_in_class s : SeqAhead s -> K s -> known_class s = true.
Proof.
  unfold SeqAhead, K, known_class, next_frame_id. intros HS HK. rewrite HK. lia.
Qed.

(* the text clause, with the rule extractor as an oracle *)
Section TextClause.
  Variables text value : Type.
  Variable text_of : N -> text.                   (* the text of the content identified by a tag *)
  Variable extract : text -> list value.          (* RulesEngine: the values of the cards, in order *)

  Definition card_value (c : card) : option value := nth_error (extract (text_of (c_text c))) (N.to_nat (c_k c)).
  Definition frame_text (f : frame) : text := text_of (f_tag f).
End TextClause.
