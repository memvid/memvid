(* Proofs about Model/Text.v (normalize_text, truncate_at_grapheme_boundary).  Where the text is cut needs no
   Unicode hypothesis: both loops compute `fit`, the number of graphemes that fit (take_graphemes_fit,
   trunc_loop_fit), and return `taken` of them.  Cleaning: ' ' being whitespace, the flags only cache what is on
   top of the stack, so clean is a fold of `push` (clean_fold), which keeps clean_inv; the output is an infix of
   the cleaned text (out_infix), so what holds of every infix holds of it.  Idempotence: an untruncated output
   is a `normal_text`, on which cleaning and trimming are the identity (clean_id, normal_text_fixed).  After the
   section, the toy oracles of the model meet its hypotheses (toy_oracles_ok) and carry the two refutation
   witnesses of C33.
   In the section some proofs start with "clear <section hypotheses>" right after Proof using: there lia or
   congruence would otherwise put an undeclared hypothesis into the proof term, and Qed rejects a proof that
   uses more than it declares. *)
From MV Require Import Base.Prelude Base.Facts Base.Strings Model.Text.
Local Open Scope N_scope.

Lemma utf8_width_pos c : 1 <= utf8_width c.
Proof. unfold utf8_width. repeat match goal with |- context [if ?b then _ else _] => destruct b end; lia. Qed.

Lemma utf8_width_le4 c : utf8_width c <= 4.
Proof. unfold utf8_width. repeat match goal with |- context [if ?b then _ else _] => destruct b end; lia. Qed.

Lemma byte_len_app a b : byte_len (a ++ b) = byte_len a + byte_len b.
Proof. induction a as [|x a IH]; cbn [byte_len app]; [lia|]. rewrite IH. lia. Qed.

Lemma byte_len_pos s : s <> [] -> 1 <= byte_len s.
Proof. destruct s as [|c r]; [congruence|]. intros _. cbn [byte_len]. pose proof (utf8_width_pos c). lia. Qed.

Definition adjacent {A} (a b : A) (l : list A) : Prop := exists l1 l2, l = l1 ++ a :: b :: l2.

Lemma adjacent_nil {A} (a b : A) : ~ adjacent a b [].
Proof. intros (l1 & l2 & H). destruct l1; discriminate. Qed.

Lemma adjacent_cons {A} (a b c : A) l :
  adjacent a b (c :: l) <-> (c = a /\ exists l2, l = b :: l2) \/ adjacent a b l.
Proof.
  split.
  - intros (l1 & l2 & H). destruct l1 as [|x l1]; cbn [app] in H.
    + inversion H; subst. left. split; [reflexivity|]. eexists; reflexivity.
    + inversion H; subst. right. exists l1, l2. reflexivity.
  - intros [[-> (l2 & ->)] | (l1 & l2 & ->)].
    + exists [], l2. reflexivity.
    + exists (c :: l1), l2. reflexivity.
Qed.

Lemma adjacent_rev {A} (a b : A) l : adjacent a b (rev l) -> adjacent b a l.
Proof.
  intros (l1 & l2 & H). exists (rev l2), (rev l1).
  apply (f_equal (@rev A)) in H. rewrite rev_involutive in H. rewrite H.
  rewrite rev_app_distr. cbn [rev]. rewrite <- !app_assoc. reflexivity.
Qed.

Lemma adjacent_infix {A} (a b : A) p m q : adjacent a b m -> adjacent a b (p ++ m ++ q).
Proof.
  intros (l1 & l2 & ->). exists (p ++ l1), (l2 ++ q). rewrite <- !app_assoc. reflexivity.
Qed.

Lemma adjacent_app_inv {A} (a b : A) l r :
  adjacent a b (l ++ r) ->
  adjacent a b l \/ adjacent a b r \/ (exists l', l = l' ++ [a]) /\ (exists r', r = b :: r').
Proof.
  (* app_eq_app gives a middle piece m: l ends with the first 0, 1 or more elements of a :: b :: l2, or the pair lies in r *)
  intros (l1 & l2 & H). apply app_eq_app in H. destruct H as (m & [[-> H] | [-> H]]).
  - destruct m as [|x [|y m]]; cbn [app] in H.
    + right; left. exists [], l2. symmetry. exact H.
    + injection H as <- <-. right; right. split; [exists l1 | exists l2]; reflexivity.
    + injection H as <- <- ->. left. exists l1, m. reflexivity.
  - right; left. exists m, l2. exact H.
Qed.

Lemma last_rev_hd {A} (l : list A) d : last (rev l) d = hd d l.
Proof.
  destruct l as [|x l]; [reflexivity|]. cbn [rev hd]. apply last_last.
Qed.

Lemma last_app_cons {A} (l : list A) x d : last (l ++ [x]) d = x.
Proof. apply last_last. Qed.

Lemma hd_rev_last {A} (l : list A) d : hd d (rev l) = last l d.
Proof. rewrite <- (rev_involutive l) at 2. symmetry. apply last_rev_hd. Qed.

Lemma concat_firstn_all {A} (gs : list (list A)) : concat (firstn (length gs) gs) = concat gs.
Proof. rewrite firstn_all. reflexivity. Qed.

Lemma Forall_suffix {A} (P : A -> Prop) p l : Forall P (p ++ l) -> Forall P l.
Proof. intros H. apply Forall_app in H. destruct H as [Ha Hb]; assumption. Qed.

Lemma Forall_infix {A} (P : A -> Prop) p m q : Forall P (p ++ m ++ q) -> Forall P m.
Proof. intros H. apply Forall_app, proj2, Forall_app, proj1 in H. exact H. Qed.

Lemma cps_eqb_spec a b : cps_eqb a b = true <-> a = b.
Proof. apply list_eqb_spec. intros; apply N.eqb_eq. Qed.

Lemma drop_while_eq p s : drop_while p s = skip_while p s.
Proof. induction s as [|c r IH]; cbn [drop_while skip_while]; [|rewrite IH]; reflexivity. Qed.

Lemma byte_len_firstn_le (gs : list (list cp)) k :
  byte_len (concat (firstn k gs)) <= byte_len (concat gs).
Proof. rewrite <- (firstn_skipn k gs) at 2. rewrite concat_app, byte_len_app. lia. Qed.

Lemma byte_len_firstn_mono (gs : list (list cp)) a b :
  (a <= b)%nat -> byte_len (concat (firstn a gs)) <= byte_len (concat (firstn b gs)).
Proof. intros H. rewrite <- (Nat.min_l a b H), <- firstn_firstn. apply byte_len_firstn_le. Qed.

Fixpoint fit (limit c : N) (gs : list (list cp)) : nat :=
  match gs with
  | [] => 0%nat
  | g :: r => if limit <? c + byte_len g then 0%nat else S (fit limit (c + byte_len g) r)
  end.

Lemma take_graphemes_fit limit : forall gs c,
  take_graphemes limit c gs = (concat (firstn (fit limit c gs) gs), (fit limit c gs <? length gs)%nat).
Proof.
  induction gs as [|g r IH]; intros c; cbn [take_graphemes fit]; [reflexivity|].
  destruct (limit <? c + byte_len g); [reflexivity|].
  rewrite IH. reflexivity.
Qed.

Lemma trunc_loop_fit limit : forall gs c,
  trunc_loop limit c c gs = c + byte_len (concat (firstn (fit limit c gs) gs)).
Proof.
  induction gs as [|g r IH]; intros c; cbn [trunc_loop fit].
  - cbn [firstn concat byte_len]. lia.
  - destruct (limit <? c + byte_len g).
    + cbn [firstn concat byte_len]. lia.
    + rewrite IH. cbn [firstn concat]. rewrite byte_len_app. lia.
Qed.

Lemma fit_le limit : forall gs c, (fit limit c gs <= length gs)%nat.
Proof.
  induction gs as [|g r IH]; intros c; cbn [fit length]; [apply le_n|].
  destruct (limit <? c + byte_len g); [apply Nat.le_0_l | apply le_n_S, IH].
Qed.

Lemma fit_fits limit : forall gs c,
  c <= limit -> c + byte_len (concat (firstn (fit limit c gs) gs)) <= limit.
Proof.
  induction gs as [|g r IH]; intros c Hc; cbn [fit].
  - cbn [firstn concat byte_len]. lia.
  - destruct (N.ltb_spec limit (c + byte_len g)) as [_|Hg].
    + cbn [firstn concat byte_len]. lia.
    + cbn [firstn concat]. rewrite byte_len_app. specialize (IH _ Hg). lia.
Qed.

Lemma fit_next limit : forall gs c,
  (fit limit c gs < length gs)%nat -> limit < c + byte_len (concat (firstn (S (fit limit c gs)) gs)).
Proof.
  induction gs as [|g r IH]; intros c Hk; cbn [fit length] in Hk |- *; [lia|].
  destruct (N.ltb_spec limit (c + byte_len g)) as [Hg|_].
  - cbn [firstn concat]. rewrite app_nil_r. exact Hg.
  - apply Nat.succ_lt_mono in Hk. specialize (IH _ Hk).
    change (firstn (S (S ?k)) (g :: r)) with (g :: firstn (S k) r). cbn [concat]. rewrite byte_len_app. lia.
Qed.

Lemma fit_all limit gs c : c + byte_len (concat gs) <= limit -> fit limit c gs = length gs.
Proof.
  intros H. destruct (Nat.eq_dec (fit limit c gs) (length gs)) as [E|E]; [exact E|].
  pose proof (fit_le limit gs c). pose proof (fit_next limit gs c). pose proof (byte_len_firstn_le gs (S (fit limit c gs))). lia.
Qed.

(* those that fit, and the first one in any case *)
Definition taken (limit : N) (gs : list (list cp)) : nat := Nat.max (fit limit 0 gs) (Nat.min 1 (length gs)).

Lemma taken_le limit gs : (taken limit gs <= length gs)%nat.
Proof. unfold taken. pose proof (fit_le limit gs 0). lia. Qed.

Lemma taken_pos limit gs : gs <> [] -> (1 <= taken limit gs)%nat.
Proof. unfold taken. destruct gs; [congruence|]. cbn [length]. lia. Qed.

Lemma taken_cases limit gs :
  (fit limit 0 gs <> 0%nat /\ taken limit gs = fit limit 0 gs) \/
  (fit limit 0 gs = 0%nat /\ taken limit gs = Nat.min 1 (length gs)).
Proof. unfold taken. lia. Qed.

Lemma taken_whole limit gs : (length gs <= fit limit 0 gs)%nat -> taken limit gs = length gs.
Proof. intros H. unfold taken. pose proof (fit_le limit gs 0). lia. Qed.

Lemma taken_all limit gs : byte_len (concat gs) <= limit -> taken limit gs = length gs.
Proof. intros H. apply taken_whole. rewrite fit_all by lia. apply le_n. Qed.

Lemma taken_bound limit gs :
  byte_len (concat (firstn (taken limit gs) gs)) <= limit \/ (fit limit 0 gs = 0%nat /\ taken limit gs = 1%nat).
Proof.
  destruct (taken_cases limit gs) as [[_ ->] | [E ->]].
  - left. apply (fit_fits limit gs 0). lia.
  - destruct gs as [|g r]; [left; cbn; lia | right; split; [exact E | reflexivity]].
Qed.

Lemma taken_over limit gs :
  (fit limit 0 gs < length gs)%nat -> limit < byte_len (concat (firstn (S (taken limit gs)) gs)).
Proof.
  intros H. pose proof (fit_next limit gs 0 H) as Hn.
  pose proof (byte_len_firstn_mono gs (S (fit limit 0 gs)) (S (taken limit gs))) as Hm. unfold taken in *. lia.
Qed.

Lemma taken_next limit gs :
  taken limit gs = length gs \/ limit < byte_len (concat (firstn (S (taken limit gs)) gs)).
Proof.
  destruct (Nat.lt_ge_cases (fit limit 0 gs) (length gs)) as [H|H]; [right; apply taken_over, H | left; apply taken_whole, H].
Qed.

Lemma byte_len_firstn_ge (gs : list (list cp)) : Forall (fun g => g <> []) gs ->
  forall k, (k <= length gs)%nat -> N.of_nat k <= byte_len (concat (firstn k gs)).
Proof.
  induction 1 as [|g r Hg _ IH]; intros [|k] Hk; cbn [length firstn concat byte_len] in *; try lia.
  rewrite byte_len_app. pose proof (byte_len_pos g Hg). specialize (IH k). lia.
Qed.

Section Proofs.
  Variable nfkc : list cp -> list cp.
  Variable is_control : cp -> bool.
  Variable is_whitespace : cp -> bool.
  Variable graphemes : list cp -> list (list cp).

  Notation clean_step := (clean_step is_control is_whitespace).
  Notation clean_loop := (clean_loop is_control is_whitespace).
  Notation clean := (clean is_control is_whitespace).
  Notation removed := (removed is_control).
  Notation trim_ws := (trim_ws is_whitespace).
  Notation trimmed_of := (trimmed_of nfkc is_control is_whitespace).
  Notation normalize_text := (normalize_text nfkc is_control is_whitespace graphemes).
  Notation truncate_at_grapheme_boundary := (truncate_at_grapheme_boundary graphemes).

  Hypothesis space_is_ws : is_whitespace SP = true.
  Hypothesis newline_is_ws : is_whitespace NL = true.
  Hypothesis space_not_control : is_control SP = false.
  Hypothesis G_concat : forall s, concat (graphemes s) = s.
  Hypothesis G_nonempty : forall s, Forall (fun g => g <> []) (graphemes s).

  Lemma trim_ws_eq s : trim_ws s = trim_by is_whitespace s.
  Proof using Type. unfold Text.trim_ws, trim_by. rewrite !drop_while_eq. reflexivity. Qed.

  Lemma trim_ws_last s : trim_ws s <> [] -> is_whitespace (last (trim_ws s) 0) = false.
  Proof using Type.
    rewrite trim_ws_eq, <- hd_rev_last. intros Hne.
    destruct (rev (trim_by is_whitespace s)) as [|c r] eqn:E.
    - apply (f_equal (@rev cp)) in E. rewrite rev_involutive in E. contradiction.
    - exact (trim_by_last is_whitespace s c r E).
  Qed.

  Lemma trim_ws_id s :
    (forall c r, s = c :: r -> is_whitespace c = false) -> (s <> [] -> is_whitespace (last s 0) = false) -> trim_ws s = s.
  Proof using Type.
    intros Hh Hl. rewrite trim_ws_eq. apply trim_by_id; [exact Hh|].
    intros c r E. assert (Hs : s <> []) by (intros ->; discriminate).
    specialize (Hl Hs). rewrite <- hd_rev_last, E in Hl. exact Hl.
  Qed.

  (* what every character of `cleaned` satisfies *)
  Definition ctl_ok (c : cp) : Prop := (is_control c = false \/ c = NL) /\ c <> CR /\ c <> TAB.
  Definition ws_ok (c : cp) : Prop := is_whitespace c = true -> c = SP \/ c = NL.
  Definition clean_char (c : cp) : Prop := ctl_ok c /\ ws_ok c.

  Definition no_ws_pair (l : list cp) : Prop :=
    forall a b, adjacent a b l -> ~ (is_whitespace a = true /\ is_whitespace b = true).

  Definition clean_inv (rc : list cp) : Prop := Forall ws_ok rc /\ no_ws_pair rc.

  Lemma map_ch_not_cr_tab c : map_ch c <> CR /\ map_ch c <> TAB.
  Proof using Type.
    unfold map_ch. destruct (N.eqb_spec c CR) as [->|Hc].
    - vm_compute. split; discriminate.
    - destruct (N.eqb_spec c TAB) as [_|Ht]; [vm_compute; split; discriminate | split; [exact Hc | exact Ht]].
  Qed.

  Lemma pop_spaces_suffix rc : exists k, rc = repeat SP k ++ pop_spaces rc.
  Proof using Type.
    induction rc as [|c r IH]; cbn [pop_spaces].
    - exists 0%nat. reflexivity.
    - destruct (N.eqb_spec c SP) as [->|_].
      + destruct IH as (k & IH). exists (S k). cbn [repeat app]. congruence.
      + exists 0%nat. reflexivity.
  Qed.

  Lemma pop_spaces_hd rc c r : pop_spaces rc = c :: r -> c <> SP.
  Proof using Type.
    induction rc as [|x rc IH]; cbn [pop_spaces]; [discriminate|].
    destruct (N.eqb_spec x SP) as [_|Hx]; [exact IH|]. intros H; inversion H; subst; exact Hx.
  Qed.

  Lemma no_ws_pair_suffix p l : no_ws_pair (p ++ l) -> no_ws_pair l.
  Proof using Type.
    intros H a b Hab. apply (H a b). rewrite <- (app_nil_r l). apply adjacent_infix. exact Hab.
  Qed.

  Lemma no_ws_pair_cons c l :
    no_ws_pair l -> (forall x r, l = x :: r -> ~ (is_whitespace c = true /\ is_whitespace x = true)) -> no_ws_pair (c :: l).
  Proof using Type.
    intros Hl Hc a b Hab. apply adjacent_cons in Hab. destruct Hab as [[<- (l2 & ->)] | Hab].
    - apply (Hc b l2 eq_refl).
    - apply Hl; exact Hab.
  Qed.

  (* with the space before it popped, what precedes a pushed newline is not whitespace *)
  Lemma pop_spaces_top_not_ws rc x r :
    Forall ws_ok rc -> no_ws_pair rc -> ends_with rc NL = false ->
    pop_spaces rc = x :: r -> is_whitespace x = false.
  Proof using space_is_ws. clear newline_is_ws space_not_control G_concat G_nonempty.
    intros Hok Hadj Hnl Hp.
    destruct rc as [|c rc']; [discriminate|]. cbn [pop_spaces] in Hp. cbn [ends_with] in Hnl.
    destruct (N.eqb_spec c SP) as [->|Hc].
    - (* one space popped; the next one is not whitespace, so popping stops there *)
      destruct rc' as [|d rc'']; [discriminate|].
      assert (Hd : is_whitespace d = false).
      { destruct (is_whitespace d) eqn:E; [|reflexivity]. exfalso.
        apply (Hadj SP d); [exists [], rc''; reflexivity | split; [exact space_is_ws | exact E]]. }
      cbn [pop_spaces] in Hp. destruct (N.eqb_spec d SP) as [->|_]; [congruence|].
      inversion Hp; subst; exact Hd.
    - inversion Hp; subst. destruct (is_whitespace x) eqn:E; [|reflexivity]. exfalso.
      inversion Hok as [|? ? Hx _]; subst.
      destruct (Hx E) as [->| ->]; [congruence|]. apply N.eqb_neq in Hnl. congruence.
  Qed.

  Lemma clean_step_cases rc lws lwn c :
    let ch := map_ch c in
    let st' := clean_step (rc, lws, lwn) c in
    st' = (rc, lws, lwn) \/
    (lwn = false /\ st' = (NL :: pop_spaces rc, false, true)) \/
    (lws || ends_with rc NL = false /\ st' = (SP :: rc, true, false)) \/
    (removed ch = false /\ ch <> NL /\ is_whitespace ch = false /\ st' = (ch :: rc, false, false)).
  Proof using Type.
    cbn zeta. unfold Text.clean_step.
    destruct (removed (map_ch c)) eqn:Hrem; [left; reflexivity|].
    destruct (N.eqb_spec (map_ch c) NL) as [Hnl|Hnl].
    - destruct lwn; [left; reflexivity | right; left; auto].
    - destruct (is_whitespace (map_ch c)) eqn:Hws.
      + destruct (lws || ends_with rc NL) eqn:Eo; [left; reflexivity | right; right; left; auto].
      + right; right; right. auto.
  Qed.

  Lemma ctl_ok_NL : ctl_ok NL.
  Proof using Type. split; [right; reflexivity | split; discriminate]. Qed.
  Lemma ctl_ok_SP : ctl_ok SP.
  Proof using space_not_control. split; [left; exact space_not_control | split; discriminate]. Qed.
  Lemma ctl_ok_kept c : removed (map_ch c) = false -> ctl_ok (map_ch c).
  Proof using Type.
    intros Hrem. split; [|apply map_ch_not_cr_tab].
    unfold Text.removed in Hrem. apply andb_false_iff in Hrem. destruct Hrem as [Hc|Hc]; [left; exact Hc|].
    apply negb_false_iff, N.eqb_eq in Hc. right; exact Hc.
  Qed.

  Lemma Forall_pop_spaces (P : cp -> Prop) rc : Forall P rc -> Forall P (pop_spaces rc).
  Proof using Type. destruct (pop_spaces_suffix rc) as (k & Hk). rewrite Hk at 1. apply Forall_suffix. Qed.

  Lemma clean_step_Forall (P : cp -> Prop) :
    P NL -> P SP -> (forall c, removed (map_ch c) = false -> is_whitespace (map_ch c) = false -> P (map_ch c)) ->
    forall st c, Forall P (fst (fst st)) -> Forall P (fst (fst (clean_step st c))).
  Proof using Type.
    intros Hn Hs Hk [[rc lws] lwn] c Hok. cbn [fst] in Hok.
    destruct (clean_step_cases rc lws lwn c) as [-> | [(_ & ->) | [(_ & ->) | (Hrem & _ & Hws & ->)]]]; cbn [fst].
    - exact Hok.
    - constructor; [exact Hn | apply Forall_pop_spaces, Hok].
    - constructor; [exact Hs | exact Hok].
    - constructor; [exact (Hk c Hrem Hws) | exact Hok].
  Qed.

  Lemma clean_loop_Forall (P : cp -> Prop) :
    P NL -> P SP -> (forall c, removed (map_ch c) = false -> is_whitespace (map_ch c) = false -> P (map_ch c)) ->
    forall s st, Forall P (fst (fst st)) -> Forall P (fst (fst (clean_loop st s))).
  Proof using Type.
    intros Hn Hs Hk. induction s as [|c r IH]; intros st H; cbn [Text.clean_loop]; [exact H|].
    apply IH, clean_step_Forall; assumption.
  Qed.

  Lemma ws_ok_step st c : Forall ws_ok (fst (fst st)) -> Forall ws_ok (fst (fst (clean_step st c))).
  Proof using Type.
    apply (clean_step_Forall ws_ok).
    - intros _. right. reflexivity.
    - intros _. left. reflexivity.
    - intros c' _ Hws E. rewrite Hws in E. discriminate.
  Qed.

  Definition flagged (rc : list cp) : cstate := (rc, ends_with rc SP, ends_with rc NL).
  Definition push (rc : list cp) (c : cp) : list cp := fst (fst (clean_step (flagged rc) c)).

  Lemma clean_step_push rc c : clean_step (flagged rc) c = flagged (push rc c).
  Proof using space_is_ws.
    unfold push, flagged.
    destruct (clean_step_cases rc (ends_with rc SP) (ends_with rc NL) c) as [-> | [(_ & ->) | [(_ & ->) | (_ & Hnl & Hws & ->)]]];
      try reflexivity.
    cbn [fst ends_with]. apply N.eqb_neq in Hnl. rewrite Hnl.
    destruct (N.eqb_spec (map_ch c) SP) as [E|_]; [rewrite E, space_is_ws in Hws; discriminate | reflexivity].
  Qed.

  Lemma clean_fold s : clean s = rev (fold_left push s []).
  Proof using space_is_ws.
    unfold Text.clean. change ([], false, false) with (flagged []). generalize (@nil cp).
    induction s as [|c r IH]; intros rc; cbn [Text.clean_loop fold_left]; [reflexivity|].
    rewrite clean_step_push. apply IH.
  Qed.

  Lemma push_inv rc c : clean_inv rc -> clean_inv (push rc c).
  Proof using space_is_ws.
    intros [Hok Hadj]. split; [exact (ws_ok_step (flagged rc) c Hok)|]. unfold push, flagged.
    destruct (clean_step_cases rc (ends_with rc SP) (ends_with rc NL) c) as [-> | [(Hl & ->) | [(Ho & ->) | (_ & _ & Hws & ->)]]];
      cbn [fst].
    - exact Hadj.
    - apply no_ws_pair_cons.
      + destruct (pop_spaces_suffix rc) as (k & Hk). rewrite Hk in Hadj. eapply no_ws_pair_suffix; exact Hadj.
      + intros x r E [_ Hx]. rewrite (pop_spaces_top_not_ws rc x r Hok Hadj Hl E) in Hx. discriminate.
    - (* ' ' pushed: the last character is neither ' ' nor '\n', hence not whitespace *)
      apply orb_false_iff in Ho. destruct Ho as [El En].
      apply no_ws_pair_cons; [exact Hadj|]. intros x r -> [_ Hx].
      inversion Hok as [|? ? Hx' _]; subst.
      cbn [ends_with] in El, En. apply N.eqb_neq in El, En. destruct (Hx' Hx); congruence.
    - apply no_ws_pair_cons; [exact Hadj|]. intros x r _ [Hc _]. rewrite Hws in Hc. discriminate.
  Qed.

  Lemma clean_inv_init : clean_inv [].
  Proof using Type. split; [constructor|]. intros a b H. destruct (adjacent_nil _ _ H). Qed.

  Lemma clean_shape s : Forall ws_ok (clean s) /\ no_ws_pair (clean s).
  Proof using space_is_ws.
    rewrite clean_fold. destruct (fold_left_invariant push clean_inv s push_inv [] clean_inv_init) as [Hok Hadj].
    split; [apply Forall_rev; exact Hok|].
    intros a b Hab [Ha Hb]. apply adjacent_rev in Hab. apply (Hadj b a Hab). split; assumption.
  Qed.

  Lemma graphemes_nil s : graphemes s = [] -> s = [].
  Proof using G_concat. intros E. rewrite <- (G_concat s), E. reflexivity. Qed.

  (* G_nonempty enters the cut here and in truncate_taken only: the code tests "nothing taken" on the text
     (there: on the byte index), not on the count, and no grapheme being empty the tests agree *)
  Lemma normalize_text_taken input limit :
    let t := trimmed_of input in
    let gs := graphemes t in
    normalize_text input limit =
    match t with
    | [] => None
    | _ :: _ => Some (concat (firstn (taken (N.max limit 1) gs) gs), (fit (N.max limit 1) 0 gs <? length gs)%nat)
    end.
  Proof using G_concat G_nonempty. clear space_is_ws newline_is_ws space_not_control.
    intros t gs. unfold Text.normalize_text. fold (trimmed_of input). fold t. fold gs.
    pose proof (G_concat t) as Hc. pose proof (G_nonempty t) as Hne. fold gs in Hc, Hne. clearbody gs.
    destruct t as [|t0 t']; [reflexivity|].
    rewrite take_graphemes_fit. unfold taken.
    destruct gs as [|g r]; [discriminate Hc|].
    destruct (fit (N.max limit 1) 0 (g :: r)) as [|k].
    - cbn. rewrite app_nil_r. reflexivity.
    - inversion Hne; subst. cbn [length Nat.min Nat.max]. rewrite Nat.max_0_r.
      cbn. destruct g as [|g0 g']; [congruence | reflexivity].
  Qed.

  Lemma normalize_text_some {input limit out tr} :
    normalize_text input limit = Some (out, tr) ->
    let gs := graphemes (trimmed_of input) in
    gs <> [] /\ out = concat (firstn (taken (N.max limit 1) gs) gs) /\ tr = (fit (N.max limit 1) 0 gs <? length gs)%nat.
  Proof using G_concat G_nonempty.
    intros H gs. rewrite normalize_text_taken in H. cbn zeta in H. fold gs in H.
    split.
    - intros E. apply graphemes_nil in E. rewrite E in H. discriminate.
    - destruct (trimmed_of input); [discriminate|]. injection H as <- <-. split; reflexivity.
  Qed.

  Lemma out_is_prefix {input limit out tr} :
    normalize_text input limit = Some (out, tr) ->
    exists rest, trimmed_of input = out ++ rest /\ (tr = false -> rest = []).
  Proof using G_concat G_nonempty.
    intros H. destruct (normalize_text_some H) as (_ & -> & ->).
    set (gs := graphemes (trimmed_of input)). set (l := N.max limit 1).
    exists (concat (skipn (taken l gs) gs)). split.
    - rewrite <- concat_app, firstn_skipn. symmetry. apply G_concat.
    - intros Hf. apply Nat.ltb_ge in Hf. rewrite (taken_whole l gs Hf), skipn_all. reflexivity.
  Qed.

  Lemma out_nonempty {input limit out tr} :
    normalize_text input limit = Some (out, tr) -> out <> [].
  Proof using G_concat G_nonempty. clear space_is_ws newline_is_ws space_not_control.
    intros H. destruct (normalize_text_some H) as (Hgs & -> & _). intros E.
    pose proof (taken_pos (N.max limit 1) _ Hgs) as Hk.
    pose proof (byte_len_firstn_ge _ (G_nonempty (trimmed_of input)) _ (taken_le (N.max limit 1) _)) as Hge.
    rewrite E in Hge. cbn [byte_len] in Hge. lia.
  Qed.

  Lemma out_infix {input limit out tr} :
    normalize_text input limit = Some (out, tr) -> exists p q, clean (nfkc input) = p ++ out ++ q.
  Proof using G_concat G_nonempty.
    intros H. destruct (out_is_prefix H) as (rest & E & _). unfold Text.trimmed_of in E.
    rewrite trim_ws_eq in E. destruct (trim_by_split is_whitespace (clean (nfkc input))) as (pre & post & E2 & _).
    exists pre, (rest ++ post). rewrite E2 at 1. rewrite E, <- app_assoc. reflexivity.
  Qed.

  Lemma out_shape {input limit out tr} :
    normalize_text input limit = Some (out, tr) -> Forall ws_ok out /\ no_ws_pair out.
  Proof using space_is_ws G_concat G_nonempty.
    intros H. destruct (out_infix H) as (p & q & E).
    destruct (clean_shape (nfkc input)) as [Hok Hadj]. rewrite E in Hok, Hadj. split.
    - eapply Forall_infix; exact Hok.
    - intros a b Hab. apply (Hadj a b), adjacent_infix, Hab.
  Qed.

  (* C33 (1) no control character except newline; no CR, no TAB *)
  Lemma no_control {input limit out tr} :
    normalize_text input limit = Some (out, tr) -> Forall ctl_ok out.
  Proof using space_not_control G_concat G_nonempty.
    intros H. destruct (out_infix H) as (p & q & E).
    assert (Hc : Forall ctl_ok (clean (nfkc input))).
    { unfold Text.clean.
      pose proof (clean_loop_Forall ctl_ok ctl_ok_NL ctl_ok_SP (fun c Hrem _ => ctl_ok_kept c Hrem)
                    (nfkc input) ([], false, false)) as Hl.
      destruct (clean_loop ([], false, false) (nfkc input)) as [[rc lws] lwn]. cbn [fst] in Hl.
      apply Forall_rev, Hl. constructor. }
    rewrite E in Hc. eapply Forall_infix; exact Hc.
  Qed.

  (* C33 (2) whitespace: only ' ' and '\n', never two in a row, never first *)
  Lemma whitespace_shape {input limit out tr} :
    normalize_text input limit = Some (out, tr) ->
    Forall (fun c => is_whitespace c = true -> c = SP \/ c = NL) out /\
    (forall a b, adjacent a b out -> ~ (is_whitespace a = true /\ is_whitespace b = true)) /\
    is_whitespace (hd 0 out) = false.
  Proof using space_is_ws G_concat G_nonempty.
    intros H. destruct (out_shape H) as [Hok Hadj]. split; [exact Hok|]. split; [exact Hadj|].
    destruct (out_is_prefix H) as (rest & E & _).
    pose proof (out_nonempty H) as Hne. destruct out as [|c r]; [congruence|]. cbn [hd].
    unfold Text.trimmed_of in E. rewrite trim_ws_eq in E. exact (trim_by_hd is_whitespace _ c _ E).
  Qed.

  (* C33 (3) trailing whitespace: none when untruncated *)
  Lemma untruncated_is_trimmed {input limit out} :
    normalize_text input limit = Some (out, false) -> out = trimmed_of input.
  Proof using G_concat G_nonempty.
    intros H. destruct (out_is_prefix H) as (rest & E & Hr). rewrite (Hr eq_refl), app_nil_r in E. congruence.
  Qed.

  Lemma untruncated_no_trailing_ws {input limit out} :
    normalize_text input limit = Some (out, false) -> is_whitespace (last out 0) = false.
  Proof using G_concat G_nonempty.
    intros H. pose proof (out_nonempty H) as Hne.
    rewrite (untruncated_is_trimmed H) in *. unfold Text.trimmed_of in *. apply trim_ws_last. exact Hne.
  Qed.

  Lemma known_trailing_eq {input limit out tr} :
    normalize_text input limit = Some (out, tr) ->
    known_trailing nfkc is_control is_whitespace graphemes input limit = is_whitespace (last out 0).
  Proof using G_concat G_nonempty.
    intros H. unfold known_trailing. rewrite H. destruct tr; [reflexivity|].
    symmetry. exact (untruncated_no_trailing_ws H).
  Qed.

  (* C33 (4) + (5) byte bound with the first-grapheme exception; grapheme boundary; maximality; flag.
     Note: truncated = true does not imply that something was cut: when the whole trimmed text is
     one grapheme longer than the limit the fallback returns all of it with truncated = true. *)
  Lemma length_and_boundary input limit out tr :
    normalize_text input limit = Some (out, tr) ->
    let gs := graphemes (trimmed_of input) in
    exists k, (1 <= k <= length gs)%nat /\ out = concat (firstn k gs) /\
      (byte_len out <= limit \/ k = 1%nat) /\
      (byte_len out <= N.max limit 1 \/ (k = 1%nat /\ tr = true)) /\
      (tr = false -> out = trimmed_of input) /\
      (tr = true -> N.max limit 1 < byte_len (concat (firstn (S k) gs)) \/ (k = 1%nat /\ N.max limit 1 < byte_len out)).
  Proof using G_concat G_nonempty. clear space_is_ws newline_is_ws space_not_control.
    intros H gs. destruct (normalize_text_some H) as (Hgs & Ho & Htr). fold gs in Hgs, Ho, Htr.
    set (l := N.max limit 1) in *. set (k := taken l gs) in *.
    pose proof (fit_le l gs 0) as Hle. pose proof (taken_le l gs) as Hkle. pose proof (taken_pos l gs Hgs) as Hk1. fold k in Hkle, Hk1.
    exists k. split; [lia|]. split; [exact Ho|]. subst out.
    split; [|split; [|split]].
    - (* limit 0 acts as limit 1, and k graphemes have at least k bytes: at most one fits *)
      destruct (taken_bound l gs) as [Hb | [_ Hk]]; [|right; exact Hk]. fold k in Hb.
      pose proof (byte_len_firstn_ge gs (G_nonempty _) k Hkle) as Hge. lia.
    - destruct (taken_bound l gs) as [Hb | [E Hk]]; [left; exact Hb | right].
      split; [exact Hk|]. rewrite Htr, E. apply Nat.ltb_lt. lia.
    - intros ->. eapply untruncated_is_trimmed; exact H.
    - intros ->. symmetry in Htr. apply Nat.ltb_lt in Htr. left. exact (taken_over l gs Htr).
  Qed.

  Lemma truncate_taken s limit :
    truncate_at_grapheme_boundary s limit = byte_len (concat (firstn (taken limit (graphemes s)) (graphemes s))).
  Proof using G_concat G_nonempty. clear space_is_ws newline_is_ws space_not_control nfkc is_control is_whitespace.
    unfold Text.truncate_at_grapheme_boundary.
    pose proof (G_concat s) as Hc. pose proof (G_nonempty s) as Hne. set (gs := graphemes s) in *.
    destruct (N.leb_spec (byte_len s) limit) as [Hle|Hgt].
    - rewrite taken_all, firstn_all, Hc by (rewrite Hc; exact Hle). reflexivity.
    - rewrite trunc_loop_fit, N.add_0_l. unfold taken.
      destruct gs as [|g r]; [reflexivity|].
      destruct (fit limit 0 (g :: r)) as [|k].
      + cbn. rewrite app_nil_r. reflexivity.
      + inversion Hne as [|? ? Hg _]; subst. cbn [Nat.max Nat.min length]. rewrite Nat.max_0_r.
        cbn [firstn concat]. rewrite byte_len_app. pose proof (byte_len_pos g Hg).
        destruct (N.eqb_spec (byte_len g + byte_len (concat (firstn k r))) 0); [lia | reflexivity].
  Qed.

  Lemma map_ch_id c : c <> CR -> c <> TAB -> map_ch c = c.
  Proof using Type.
    intros H1 H2. unfold map_ch. destruct (N.eqb_spec c CR); [congruence|]. destruct (N.eqb_spec c TAB); [congruence|]. reflexivity.
  Qed.

  Lemma no_pair_ends_with rc c d :
    (forall x r, rc = x :: r -> ~ (is_whitespace x = true /\ is_whitespace c = true)) ->
    is_whitespace c = true -> is_whitespace d = true -> ends_with rc d = false.
  Proof using Type.
    intros Hp Hc Hd. destruct rc as [|x r]; [reflexivity|]. cbn [ends_with]. apply N.eqb_neq. intros ->.
    exact (Hp d r eq_refl (conj Hd Hc)).
  Qed.

  Lemma pop_spaces_id rc : ends_with rc SP = false -> pop_spaces rc = rc.
  Proof using Type. destruct rc as [|x r]; [reflexivity|]. cbn [ends_with pop_spaces]. intros ->. reflexivity. Qed.

  Lemma push_good rc c :
    clean_char c -> (forall x r, rc = x :: r -> ~ (is_whitespace x = true /\ is_whitespace c = true)) -> push rc c = c :: rc.
  Proof using space_is_ws newline_is_ws.
    intros ((Hctl & Hcr & Htab) & Hwsok) Hp. pose proof (fun d => no_pair_ends_with rc c d Hp) as Htop.
    unfold push, flagged, Text.clean_step. rewrite (map_ch_id c Hcr Htab).
    assert (Hrem : removed c = false).
    { unfold Text.removed. destruct Hctl as [->| ->]; [reflexivity|]. rewrite N.eqb_refl. apply andb_false_r. }
    rewrite Hrem.
    destruct (N.eqb_spec c NL) as [->|Hnl].
    - rewrite (Htop NL), pop_spaces_id; auto.
    - destruct (is_whitespace c) eqn:Hws; [|reflexivity].
      destruct (Hwsok Hws) as [->|E]; [|congruence].
      rewrite !Htop; auto.
  Qed.

  Lemma fold_push_good : forall s rc,
    Forall clean_char s -> no_ws_pair (rev rc ++ s) -> fold_left push s rc = rev s ++ rc.
  Proof using space_is_ws newline_is_ws.
    induction s as [|c s IH]; intros rc Hok Hadj; cbn [fold_left rev]; [reflexivity|].
    inversion Hok as [|? ? Hc Hok']; subst. rewrite push_good, IH, <- app_assoc; try assumption; try reflexivity.
    - cbn [rev]. rewrite <- app_assoc. exact Hadj.
    - intros x r -> Hx. apply (Hadj x c); [|exact Hx]. exists (rev r), s. cbn [rev]. rewrite <- app_assoc. reflexivity.
  Qed.

  Lemma clean_id s : Forall clean_char s -> no_ws_pair s -> clean s = s.
  Proof using space_is_ws newline_is_ws.
    intros Hok Hadj. rewrite clean_fold, (fold_push_good s [] Hok Hadj), app_nil_r. apply rev_involutive.
  Qed.

  Definition normal_text (s : list cp) : Prop :=
    Forall clean_char s /\ no_ws_pair s /\ is_whitespace (hd 0 s) = false /\ is_whitespace (last s 0) = false.

  Lemma normal_text_fixed s limit :
    normal_text s -> s <> [] -> nfkc s = s -> byte_len s <= N.max limit 1 -> normalize_text s limit = Some (s, false).
  Proof using space_is_ws newline_is_ws G_concat G_nonempty.
    intros (Hok & Hadj & Hhd & Hlast) Hne Hn Hfit.
    assert (Ht : trimmed_of s = s).
    { unfold Text.trimmed_of. rewrite Hn, (clean_id s Hok Hadj). apply trim_ws_id.
      - intros c r ->. exact Hhd.
      - intros _. exact Hlast. }
    rewrite normalize_text_taken. cbn zeta. rewrite Ht.
    destruct s as [|s0 s']; [congruence|].
    assert (Hall : byte_len (concat (graphemes (s0 :: s'))) <= N.max limit 1) by (rewrite G_concat; exact Hfit).
    rewrite (taken_all _ _ Hall), fit_all by (rewrite N.add_0_l; exact Hall).
    rewrite firstn_all, Nat.ltb_irrefl, G_concat. reflexivity.
  Qed.

  Lemma untruncated_normal input limit out : normalize_text input limit = Some (out, false) -> normal_text out.
  Proof using space_is_ws space_not_control G_concat G_nonempty.
    intros H. destruct (whitespace_shape H) as (Hok & Hadj & Hhd).
    split; [apply Forall_and; [exact (no_control H) | exact Hok]|].
    split; [exact Hadj|]. split; [exact Hhd|]. eapply untruncated_no_trailing_ws; exact H.
  Qed.

  (* C33 (7), conditional idempotence: an untruncated output that NFKC leaves alone is a normal text *)
  Lemma idempotent_if_nfkc_stable input limit out limit2 :
    normalize_text input limit = Some (out, false) ->
    nfkc out = out ->
    byte_len out <= N.max limit2 1 ->
    normalize_text out limit2 = Some (out, false).
  Proof using space_is_ws newline_is_ws space_not_control G_concat G_nonempty.
    intros H. apply normal_text_fixed; [eapply untruncated_normal; exact H | eapply out_nonempty; exact H].
  Qed.

  Lemma untruncated_fits input limit out :
    normalize_text input limit = Some (out, false) -> byte_len out <= N.max limit 1.
  Proof using G_concat G_nonempty. clear space_is_ws newline_is_ws space_not_control.
    intros H. destruct (normalize_text_some H) as (_ & -> & Htr).
    set (gs := graphemes (trimmed_of input)) in *. set (l := N.max limit 1) in *.
    symmetry in Htr. apply Nat.ltb_ge in Htr. rewrite (taken_whole l gs Htr).
    pose proof (fit_le l gs 0) as Hle. pose proof (fit_fits l gs 0) as Hfits.
    replace (fit l 0 gs) with (length gs) in Hfits by lia. lia.
  Qed.

  Lemma idempotent_same_limit input limit out :
    normalize_text input limit = Some (out, false) ->
    nfkc out = out ->
    normalize_text out limit = Some (out, false).
  Proof using space_is_ws newline_is_ws space_not_control G_concat G_nonempty.
    intros H Hn. apply (idempotent_if_nfkc_stable input limit out limit H Hn).
    exact (untruncated_fits input limit out H).
  Qed.

End Proofs.

Lemma toy_graphemes_from_concat : forall s cur, concat (toy_graphemes_from cur s) = rev cur ++ s.
Proof.
  induction s as [|c r IH]; intros cur; cbn [toy_graphemes_from].
  - cbn [concat]. reflexivity.
  - destruct (c =? 769).
    + rewrite IH. cbn [rev]. rewrite <- app_assoc. reflexivity.
    + cbn [concat]. rewrite IH. reflexivity.
Qed.

Lemma toy_graphemes_concat s : concat (toy_graphemes s) = s.
Proof. destruct s as [|c r]; [reflexivity|]. unfold toy_graphemes. rewrite toy_graphemes_from_concat. reflexivity. Qed.

Lemma toy_graphemes_from_nonempty : forall s cur, cur <> [] -> Forall (fun g => g <> []) (toy_graphemes_from cur s).
Proof.
  assert (Hr : forall cur : list cp, cur <> [] -> rev cur <> []).
  { intros cur Hc E. apply (f_equal (@rev cp)) in E. rewrite rev_involutive in E. cbn in E. congruence. }
  induction s as [|c r IH]; intros cur Hc; cbn [toy_graphemes_from].
  - constructor; [apply Hr; exact Hc | constructor].
  - destruct (c =? 769).
    + apply IH. discriminate.
    + constructor; [apply Hr; exact Hc | apply IH; discriminate].
Qed.

Lemma toy_graphemes_nonempty s : Forall (fun g => g <> []) (toy_graphemes s).
Proof. destruct s as [|c r]; [constructor|]. apply toy_graphemes_from_nonempty. discriminate. Qed.

Definition toy_normalize := normalize_text toy_nfkc std_is_control std_is_whitespace toy_graphemes.

(* "a\u{1}\u{301} b" *)
Definition shield_witness : list cp := [97; 1; 769; 32; 98].
(* "ab cd" *)
Definition trailing_witness : list cp := [97; 98; 32; 99; 100].

Lemma shield_witness_facts :
  toy_nfkc shield_witness = shield_witness /\
  toy_normalize shield_witness 100 = Some ([97; 769; 32; 98], false) /\
  toy_nfkc [97; 769; 32; 98] = [225; 32; 98] /\
  toy_normalize [97; 769; 32; 98] 100 = Some ([225; 32; 98], false) /\
  known_shield toy_nfkc std_is_control std_is_whitespace toy_graphemes shield_witness 100 = true.
Proof. vm_compute. repeat split. Qed.

Lemma trailing_witness_facts :
  toy_normalize trailing_witness 3 = Some ([97; 98; 32], true) /\
  std_is_whitespace (last [97; 98; 32] 0) = true /\
  known_trailing toy_nfkc std_is_control std_is_whitespace toy_graphemes trailing_witness 3 = true.
Proof. vm_compute. repeat split. Qed.

Lemma toy_nfkc_unfold c d r :
  toy_nfkc (c :: d :: r) = if (c =? 97) && (d =? 769) then 225 :: toy_nfkc r else c :: toy_nfkc (d :: r).
Proof. reflexivity. Qed.

Lemma toy_nfkc_cons_other c l : c <> 97 -> toy_nfkc (c :: l) = c :: toy_nfkc l.
Proof.
  intros Hc. destruct l as [|d r]; [reflexivity|]. rewrite toy_nfkc_unfold.
  destruct (N.eqb_spec c 97); [congruence|]. reflexivity.
Qed.

Lemma toy_nfkc_hd d r : exists h t, toy_nfkc (d :: r) = h :: t /\ (h = d \/ h = 225).
Proof.
  destruct r as [|e r']; [exists d, []; split; [reflexivity | left; reflexivity]|].
  rewrite toy_nfkc_unfold. destruct ((d =? 97) && (e =? 769)).
  - eexists _, _. split; [reflexivity | right; reflexivity].
  - eexists _, _. split; [reflexivity | left; reflexivity].
Qed.

(* by induction on a bound of the length, since the composing case recurses two code points on; otherwise
   the head of toy_nfkc (d :: r) is d or 225, which composes with c on the second pass no more than d did *)
Lemma toy_nfkc_idem_len : forall n s, (length s <= n)%nat -> toy_nfkc (toy_nfkc s) = toy_nfkc s.
Proof.
  induction n as [|n IH]; intros s Hl.
  - destruct s; [reflexivity | cbn in Hl; lia].
  - destruct s as [|c [|d r]]; [reflexivity | reflexivity |].
    rewrite toy_nfkc_unfold. destruct ((c =? 97) && (d =? 769)) eqn:E.
    + rewrite toy_nfkc_cons_other by (intro H; discriminate H). f_equal. apply IH. cbn [length] in Hl. lia.
    + destruct (toy_nfkc_hd d r) as (h & t & Eh & Hh).
      assert (IHd : toy_nfkc (toy_nfkc (d :: r)) = toy_nfkc (d :: r)) by (apply IH; cbn [length] in *; lia).
      rewrite Eh in *. rewrite toy_nfkc_unfold.
      assert (Ec : (c =? 97) && (h =? 769) = false).
      { apply andb_false_iff. apply andb_false_iff in E.
        destruct (N.eqb_spec c 97) as [Hc|Hc]; [right | left; reflexivity].
        destruct E as [E|E]; [discriminate|].
        destruct Hh as [->| ->]; [exact E | reflexivity]. }
      rewrite Ec, IHd. reflexivity.
Qed.

Lemma toy_nfkc_idem s : toy_nfkc (toy_nfkc s) = toy_nfkc s.
Proof. apply (toy_nfkc_idem_len (length s)). lia. Qed.

(* the hypotheses of the C33 theorems together; the refutations' oracles meet all of them *)
Definition oracles_ok (is_control is_whitespace : cp -> bool) (graphemes : list cp -> list (list cp)) : Prop :=
  is_whitespace SP = true /\ is_whitespace NL = true /\ is_control SP = false /\
  (forall s, concat (graphemes s) = s) /\ (forall s, Forall (fun g => g <> []) (graphemes s)).

Lemma toy_oracles_ok : oracles_ok std_is_control std_is_whitespace toy_graphemes.
Proof.
  unfold oracles_ok. split; [reflexivity|]. split; [reflexivity|]. split; [reflexivity|].
  split; [exact toy_graphemes_concat | exact toy_graphemes_nonempty].
Qed.
