(* C28 on the models of C14 (vector index with its file image, Model/VecStore.v) and C15 (time
   index track, Model/Timeline.v): what a reopened / doctored handle loads is what the live handle
   answers from.  The three models reuse names, hence the qualified imports. *)
From MV Require Import Base.Prelude Model.Store.
From MV Require Model.VecStore Model.VecSpec Proofs.VecProofs Model.Timeline Proofs.TimelineProofs Proofs.StoreProofs.
Local Open Scope N_scope.

(* C14: for every history of the vector-index model, the documents
   Memvid::open loads from the manifest (`load`) are the documents of the live index, and the
   handle answers VecNotEnabled before exactly when it does after -- unless vec was enabled in
   memory only (placeholder manifest not yet written), in which case both hold no documents *)
Theorem vec_reload_C14 ops :
  let r := VecStore.vrun VecStore.vstate0 ops in
  let v := snd (fst r) in
  let xs := combine ops (snd r) in
  VecProofs.vrun_ok [] xs = true ->
  VecStore.mem_index (VecStore.load v) = VecStore.mem_index v /\
  (VecStore.vdisk v = VecStore.vmem v -> VecStore.observe_vec (VecStore.load v) = VecStore.observe_vec v).
Proof.
  intros r v xs Hok.
  destruct (VecProofs.vrun_inv ops store0 VecStore.vst0 [] [] StoreProofs.J_store0 VecProofs.Inv0 Hok) as [_ HI].
  change (VecStore.vrun (store0, VecStore.vst0) ops) with r in HI. change (snd (fst r)) with v in HI. clearbody v.
  destruct (VecProofs.Inv_manifest _ _ _ HI) as [Hen Hdisk].
  split.
  - unfold VecStore.load, VecStore.mem_index. cbn [VecStore.vmem].
    destruct Hdisk as [H|[H H']]; rewrite H; [reflexivity|]. rewrite H'. reflexivity.
  - intros H. unfold VecStore.load, VecStore.observe_vec, VecStore.mem_docs, VecStore.mem_index.
    cbn [VecStore.venabled VecStore.vmem]. rewrite H, Hen. reflexivity.
Qed.

(* C15: on every reachable state with nothing pending, close + reopen and close + doctor with
   rebuild_time_index + reopen leave the table alone and the (repaired) build_timeline answers
   every query as before *)
Theorem timeline_reload_C15 engines ops force q :
  let s := Timeline.trun engines ops in
  Timeline.ts_pending s = [] ->
  let s1 := Timeline.tstep engines s Timeline.TReopen in
  let s2 := Timeline.tstep engines s (Timeline.TDoctor force) in
  Timeline.ts_frames s1 = Timeline.ts_frames s /\ Timeline.ts_frames s2 = Timeline.ts_frames s /\
  Timeline.build_timeline_fixed (Timeline.ts_frames s1) (Timeline.ts_index s1) q =
    Timeline.build_timeline_fixed (Timeline.ts_frames s) (Timeline.ts_index s) q /\
  Timeline.build_timeline_fixed (Timeline.ts_frames s2) (Timeline.ts_index s2) q =
    Timeline.build_timeline_fixed (Timeline.ts_frames s) (Timeline.ts_index s) q.
Proof.
  intros s Hp s1 s2. pose proof (TimelineProofs.trun_inv engines ops : TimelineProofs.tinv s) as Hi.
  assert (Ea : Timeline.apply_pending engines s = s) by (unfold Timeline.apply_pending; rewrite Hp; reflexivity).
  assert (E2 : Timeline.ts_frames s2 = Timeline.ts_frames s).
  { subst s2. cbn [Timeline.tstep]. rewrite Ea. destruct (force || _); reflexivity. }
  change s1 with (Timeline.apply_pending engines s). rewrite Ea.
  split; [reflexivity|]. split; [exact E2|]. split; [reflexivity|].
  rewrite (proj2 (TimelineProofs.build_timeline_answers s2 q (TimelineProofs.tstep_inv engines s _ Hi))),
          (proj2 (TimelineProofs.build_timeline_answers s q Hi)), E2. reflexivity.
Qed.
