(* Sorting facts for Model/Timeline.v (C15).  Its insertion sort is the one of Base/SortFacts.v
   (isort_eq), and the facts are carried over from there.  With antisymmetry a sorted list is
   determined by its elements (sorted_perm_unique), so every sort (in particular Rust's stable
   sort_by_key on a key that is the whole element) computes the same list. *)
From MV Require Import Base.Prelude Base.Facts Model.Timeline.
From MV Require Base.SortFacts.
From Coq Require Import Sorting.Sorted Sorting.Permutation.

Section Sort.
  Context {A : Type} (leb : A -> A -> bool).
  Hypothesis leb_total : forall a b, leb a b = true \/ leb b a = true.
  Hypothesis leb_trans : forall a b c, leb a b = true -> leb b c = true -> leb a c = true.
  Hypothesis leb_antisym : forall a b, leb a b = true -> leb b a = true -> a = b.

  Definition le (a b : A) : Prop := leb a b = true.
  Definition sorted (l : list A) : Prop := StronglySorted le l.

  Lemma leb_refl a : leb a a = true.
  Proof. exact (SortFacts.leb_refl A leb leb_total a). Qed.

  Lemma isort_eq l : isort leb l = SortFacts.isort leb l.
  Proof.
    apply SortFacts.isort_fold. intros x r.
    induction r as [|y r IH]; cbn [insert_by SortFacts.insert]; [|rewrite IH]; reflexivity.
  Qed.

  Lemma sorted_eq l : sorted l <-> SortFacts.sorted leb l.
  Proof. symmetry. apply SortFacts.sorted_StronglySorted. Qed.

  Lemma isort_perm l : Permutation (isort leb l) l.
  Proof. rewrite isort_eq. apply SortFacts.isort_perm. Qed.

  Lemma isort_sorted l : sorted (isort leb l).
  Proof using leb_total leb_trans. rewrite isort_eq. apply sorted_eq, SortFacts.isort_sorted; assumption. Qed.

  Lemma sorted_perm_unique l1 l2 : sorted l1 -> sorted l2 -> Permutation l1 l2 -> l1 = l2.
  Proof using leb_antisym.
    rewrite !sorted_eq. apply SortFacts.sorted_perm_unique, leb_antisym.
  Qed.

  Lemma isort_id l : sorted l -> isort leb l = l.
  Proof. intros Hs. apply sorted_perm_unique; [apply isort_sorted|exact Hs|apply isort_perm]. Qed.

  Lemma isort_perm_eq l1 l2 : Permutation l1 l2 -> isort leb l1 = isort leb l2.
  Proof.
    intros HP. apply sorted_perm_unique; try apply isort_sorted.
    rewrite !isort_perm. exact HP.
  Qed.

  Lemma any_sort_is_isort (srt : list A -> list A) :
    (forall l, sorted (srt l)) -> (forall l, Permutation (srt l) l) -> forall l, srt l = isort leb l.
  Proof.
    intros Hs Hp l. apply sorted_perm_unique; [apply Hs|apply isort_sorted|].
    rewrite Hp, isort_perm. reflexivity.
  Qed.

  Lemma isort_idem l : isort leb (isort leb l) = isort leb l.
  Proof. apply isort_id, isort_sorted. Qed.

  Lemma filter_isort (p : A -> bool) l : filter p (isort leb l) = isort leb (filter p l).
  Proof using leb_total leb_trans. rewrite !isort_eq. apply SortFacts.filter_isort; assumption. Qed.

  Lemma sortedb_sorted l : sortedb leb l = true <-> sorted l.
  Proof using leb_trans.
    rewrite sorted_eq. induction l as [|x r IH]; [split; [constructor|reflexivity]|].
    cbn [sortedb]. destruct r as [|y r'].
    - split; [intros _; split; [intros y []|exact I]|reflexivity].
    - rewrite andb_true_iff, IH. symmetry. apply SortFacts.sorted_cons_cons, leb_trans.
  Qed.

  Lemma sortedb_isort l : sortedb leb (isort leb l) = true.
  Proof. apply sortedb_sorted, isort_sorted. Qed.

  Lemma sorted_app_inv l1 l2 : sorted (l1 ++ l2) -> sorted l1 /\ sorted l2.
  Proof. intros H. destruct (SS_app _ _ _ H) as (H1 & H2 & _). split; assumption. Qed.
End Sort.

Lemma take_N_firstn {A} (l : list A) : forall k, take_N l k = firstn (N.to_nat k) l.
Proof.
  induction l as [|x r IH]; intros k; cbn [take_N]; [rewrite firstn_nil; reflexivity|].
  destruct (N.eqb_spec k 0) as [->|Hk]; [reflexivity|].
  replace (N.to_nat k) with (S (N.to_nat (k - 1))) by lia. cbn [firstn]. rewrite IH. reflexivity.
Qed.

Lemma take_N_all {A} (l : list A) : take_N l (N.of_nat (length l)) = l.
Proof. rewrite take_N_firstn, Nat2N.id. apply firstn_all. Qed.

(* the key (timestamp, frame id) is the whole entry, hence antisymmetry *)
Lemma entry_leb_total a b : entry_leb a b = true \/ entry_leb b a = true.
Proof. unfold entry_leb. destruct a as [t1 i1], b as [t2 i2]; cbn [fst snd]. lia. Qed.

Lemma entry_leb_trans a b c : entry_leb a b = true -> entry_leb b c = true -> entry_leb a c = true.
Proof. unfold entry_leb. destruct a as [t1 i1], b as [t2 i2], c as [t3 i3]; cbn [fst snd]. lia. Qed.

Lemma entry_leb_antisym a b : entry_leb a b = true -> entry_leb b a = true -> a = b.
Proof.
  unfold entry_leb. destruct a as [t1 i1], b as [t2 i2]; cbn [fst snd]. intros H1 H2.
  assert (t1 = t2) by lia. assert (i1 = i2) by lia. subst; reflexivity.
Qed.

Definition esorted : list tentry -> Prop := sorted entry_leb.

Lemma sort_entries_sorted l : esorted (sort_entries l).
Proof. apply isort_sorted; [apply entry_leb_total|apply entry_leb_trans]. Qed.

Lemma sort_entries_perm l : Permutation (sort_entries l) l.
Proof. apply isort_perm. Qed.

Lemma sort_entries_id l : esorted l -> sort_entries l = l.
Proof. apply isort_id; [apply entry_leb_total|apply entry_leb_trans|apply entry_leb_antisym]. Qed.

Lemma sort_entries_perm_eq l1 l2 : Permutation l1 l2 -> sort_entries l1 = sort_entries l2.
Proof. apply isort_perm_eq; [apply entry_leb_total|apply entry_leb_trans|apply entry_leb_antisym]. Qed.

Lemma esortedb_iff l : sortedb entry_leb l = true <-> esorted l.
Proof. apply sortedb_sorted, entry_leb_trans. Qed.

Lemma efilter_sort p l : filter p (sort_entries l) = sort_entries (filter p l).
Proof. apply filter_isort; [apply entry_leb_total|apply entry_leb_trans]. Qed.
