(* Model/Sketch.v, tokenize_norm: its length rule is on bytes, and its tokens are alphanumeric. *)
From MV Require Import Base.Prelude Base.Facts Model.Sketch.
Local Open Scope N_scope.

Lemma tokenize_norm_bytes a cs t : In t (tokenize_norm a cs) -> 2 <= str_len t.
Proof. unfold tokenize_norm. rewrite filter_In. intros [_ H]. apply N.leb_le. exact H. Qed.

Lemma split_alnum_alnum a cs : forall cur t,
  forallb a cur = true -> In t (split_alnum a cs cur) -> forallb a t = true.
Proof.
  induction cs as [|c r IH]; intros cur t Hcur Hin; cbn [split_alnum] in Hin.
  - destruct Hin as [<-|[]]. rewrite forallb_rev. exact Hcur.
  - destruct (a c) eqn:E.
    + apply (IH (c :: cur)); [cbn [forallb]; rewrite E, Hcur; reflexivity | exact Hin].
    + destruct Hin as [<-|Hin]; [rewrite forallb_rev; exact Hcur | apply (IH []); [reflexivity | exact Hin]].
Qed.

Lemma tokenize_norm_alnum a cs t : In t (tokenize_norm a cs) -> forallb a t = true.
Proof.
  unfold tokenize_norm. rewrite filter_In. intros [H _]. eapply split_alnum_alnum; [|exact H]. reflexivity.
Qed.

(* one alphanumeric character alone: a token iff it takes at least two bytes *)
Lemma tokenize_norm_single a c :
  a c = true -> tokenize_norm a [c] = if c <? 128 then [] else [[c]].
Proof.
  intros Ha. unfold tokenize_norm. cbn [split_alnum]. rewrite Ha. cbn [split_alnum rev app filter str_len fold_right].
  unfold utf8_len.
  destruct (c <? 128) eqn:E1; [reflexivity|].
  destruct (c <? 2048); [reflexivity|]. destruct (c <? 65536); reflexivity.
Qed.
