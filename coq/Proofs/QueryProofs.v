(* Proofs about Model/Query.v.  The lexer: every step leaves a shorter text (lex_leaves), so fuel = length of
   the text suffices (tokenize_post).  The parser's six functions are one functional [parse_body] over the
   nonterminals [nt]; the model is its iteration (parse_run_S), so a property of the parser is one that
   parse_body preserves: [call_inv] (no Panic with 4 units of fuel per token, depth within [stack_room]:
   parser_inv) and [fuel_stable] (more fuel changes no result that did not run out: parse_run_stable).  From
   the two, [parse_nt], the parser at the fuel parse_query computes, is a fixed point of parse_body
   (parse_nt_eq); the round trip (print, then lex and parse, gives [norm e]) reasons about that fuel-free
   function, one level of the grammar at a time ([reads_back], all_levels), and goes from tokens to text by
   [lex_ok] (tokenize_tokens_text).  eval_sem: the evaluator decides the reference semantics [sem]. *)
From MV Require Import Base.Prelude Base.Facts Base.Strings Model.Query.
From MV Require Gen.Consts.

Definition no_panic {A} (o : outcome A) : Prop :=
  match o with Panic _ => False | _ => True end.

Lemma span_word_app s w r : span_word s = (w, r) -> s = w ++ r.
Proof.
  revert w r; induction s as [|c s IH]; intros w r H; cbn [span_word] in H.
  - inversion H; reflexivity.
  - destruct (is_break c).
    + inversion H; reflexivity.
    + destruct (span_word s) as [w' t] eqn:E. inversion H; subst. cbn [app]. f_equal. apply IH; reflexivity.
Qed.

Lemma span_word_length s w r : span_word s = (w, r) -> length r <= length s.
Proof. intros H. apply span_word_app in H. subst. rewrite app_length. lia. Qed.

Lemma read_until_app q s v t : read_until q s = Some (v, t) -> s = v ++ q :: t.
Proof.
  revert v t; induction s as [|c s IH]; intros v t H; cbn [read_until] in H; [discriminate|].
  destruct (N.eqb_spec c q) as [->|Hne].
  - inversion H; reflexivity.
  - destruct (read_until q s) as [[v' t']|] eqn:E; [|discriminate].
    inversion H; subst. cbn [app]. f_equal. apply IH; reflexivity.
Qed.

Lemma read_until_length q s v t : read_until q s = Some (v, t) -> length t < length s.
Proof. intros H. apply read_until_app in H. subst. rewrite app_length. cbn [length]. lia. Qed.

Lemma read_date_range_shorter s :
  match read_date_range s with Ok (_, _, t) => length t < length s | Err _ => True | Panic _ => False end.
Proof.
  unfold read_date_range. destruct (read_until c_rbrack s) as [[c r]|] eqn:E; [|exact I].
  apply read_until_length in E.
  destruct (split_ws c) as [|x [|y [|z [|? ?]]]]; try exact I.
  destruct (str_eqb (lower y) s_to); [exact E | exact I].
Qed.

Definition lex_leaves (n : nat) (o : outcome (option token * str)) : Prop :=
  match o with Ok (_, rest) => length rest <= n | Err _ => True | Panic _ => False end.

Lemma read_field_leaves f s : lex_leaves (length s) (read_field f s).
Proof.
  unfold read_field. destruct s as [|c r]; [apply le_n|].
  destruct (c =? c_quote)%N.
  - destruct (read_until c_quote r) as [[v t]|] eqn:E; [|exact I].
    apply read_until_length in E. cbn [lex_leaves length]. lia.
  - destruct ((c =? c_lbrack)%N && str_eqb f s_date).
    + pose proof (read_date_range_shorter r) as H.
      destruct (read_date_range r) as [[[a b] t]|k|k]; cbn [lex_leaves length]; [lia | exact I | exact H].
    + destruct (span_word (c :: r)) as [v t] eqn:E. apply span_word_length in E. exact E.
Qed.

Lemma lex_step_leaves c r : lex_leaves (length r) (lex_step c r).
Proof.
  unfold lex_step.
  destruct (is_ws c) eqn:Hws; [apply le_n|].
  destruct (c =? c_lparen)%N eqn:Hlp; [apply le_n|].
  destruct (c =? c_rparen)%N eqn:Hrp; [apply le_n|].
  destruct (c =? c_quote)%N.
  - destruct (read_until c_quote r) as [[v t]|] eqn:E; [|exact I].
    apply read_until_length in E. cbn [lex_leaves]. lia.
  - unfold read_field_or_word. cbn [span_word].
    assert (Hb : is_break c = false) by (unfold is_break; rewrite Hws, Hlp, Hrp; reflexivity).
    rewrite Hb. destruct (span_word r) as [w t] eqn:E.
    pose proof (span_word_app r w t E) as Happ. apply span_word_length in E.
    destruct (read_until c_colon (c :: w)) as [[pre post]|] eqn:Ec; [|exact E].
    destruct (known_field (lower pre)); [|exact E].
    (* a field: its value is read from what follows the colon, inside c :: w ++ t *)
    pose proof (read_field_leaves (lower pre) (post ++ t)) as H. apply read_until_length in Ec.
    destruct (read_field (lower pre) (post ++ t)) as [[tok rest]|k|k]; [|exact I|exact H].
    cbn [lex_leaves] in *. rewrite app_length in H. cbn [length] in Ec. rewrite Happ, app_length. lia.
Qed.

Lemma tokenize_post fuel s :
  post (tokenize fuel s) (fun ts => length ts <= length s) (fun _ => True) (fuel < length s).
Proof.
  revert s; induction fuel as [|f IH]; intros [|c r]; cbn [tokenize post length]; try lia.
  pose proof (lex_step_leaves c r) as Hs.
  destruct (lex_step c r) as [[tok rest]|k|k]; [|exact I|destruct Hs].
  cbn [lex_leaves] in Hs. specialize (IH rest).
  destruct (tokenize f rest) as [ts|k|k]; cbn [post] in *; [|exact I|lia].
  destruct tok; cbn [length]; lia.
Qed.

(* C32 (1) *)
Lemma tokenize_no_panic fuel s : length s <= fuel -> no_panic (tokenize fuel s).
Proof.
  intros Hl. pose proof (tokenize_post fuel s) as H.
  destruct (tokenize fuel s); [exact I | exact I | cbn [post] in H; lia].
Qed.

Definition then_call (a : presult) (k : expr -> list token -> presult) : presult :=
  match a with
  | (Ok (e, r), d) => let (res, d') := k e r in (res, Nat.max d d')
  | (Err x, d) => (Err x, d)
  | (Panic x, d) => (Panic x, d)
  end.
Definition own_frame (a : presult) : presult := let (res, d) := a in (res, S d).

Lemma own_frame_then_call a k : own_frame (then_call a k) =
  match a with
  | (Ok (e, r), d) => let (res, d') := k e r in (res, S (Nat.max d d'))
  | (Err x, d) => (Err x, S d)
  | (Panic x, d) => (Panic x, S d)
  end.
Proof. destruct a as [[[e r]|x|x] d]; try reflexivity. cbn [then_call]. destruct (k e r). reflexivity. Qed.

Lemma fst_own_frame a : fst (own_frame a) = fst a.
Proof. destruct a. reflexivity. Qed.

Lemma fst_then_call {a k e r} : fst a = Ok (e, r) -> fst (then_call a k) = fst (k e r).
Proof. destruct a as [o d]. cbn [fst]. intros ->. cbn [then_call]. destruct (k e r). reflexivity. Qed.

Definition ret_ok (e : expr) (r : list token) : presult := (Ok (e, r), 0).
Definition ret_err (k : N) : presult := (Err k, 0).
Definition of_term (o : outcome term) (r : list token) : presult :=
  (match o with Ok t => Ok (ETerm t, r) | Err k => Err k | Panic k => Panic k end, 0).
Definition enter_guard (dep : nat) (a : presult) : presult := if enter_fails dep then ret_err E_TOO_DEEP else a.
Definition close_paren (e : expr) (r : list token) : presult :=
  match r with TkRParen :: r' => ret_ok e r' | _ => ret_err E_EXPECTED_RPAREN end.

Lemma enter_guard_ok dep a : S dep <= MAX_QUERY_DEPTH -> enter_guard dep a = a.
Proof. intros H. unfold enter_guard, enter_fails. apply Nat.ltb_ge in H. rewrite H. reflexivity. Qed.

Lemma enter_fails_spec dep : enter_fails dep = false -> S dep <= MAX_QUERY_DEPTH.
Proof. unfold enter_fails. intros H. apply Nat.ltb_ge in H. exact H. Qed.

Fixpoint stack_weight (ts : list token) : nat :=
  match ts with
  | [] => 0
  | TkLParen :: r => 4 + stack_weight r
  | TkNot :: r => 1 + stack_weight r
  | _ :: r => stack_weight r
  end.

Lemma stack_weight_counts ts : stack_weight ts = 4 * count_tok is_lparen ts + count_tok is_not ts.
Proof.
  unfold count_tok. induction ts as [|t r IH]; [reflexivity|].
  destruct t; cbn [stack_weight filter is_lparen is_not length]; lia.
Qed.

Lemma max_query_depth_tied : N.of_nat MAX_QUERY_DEPTH = MV.Gen.Consts.MAX_QUERY_DEPTH.
Proof. reflexivity. Qed.

(* frames a call at nesting dep on ts can need below its own: the tokens pay for them (4 per '(', 1 per NOT),
   and so does what is left of the limit *)
Definition stack_room (dep : nat) (ts : list token) : nat := Nat.min (stack_weight ts) (4 * (MAX_QUERY_DEPTH - dep)).

Lemma stack_room_mono dep r ts : stack_weight r <= stack_weight ts -> stack_room dep r <= stack_room dep ts.
Proof. unfold stack_room. lia. Qed.

Lemma stack_room_enter dep t r : S dep <= MAX_QUERY_DEPTH -> stack_room (S dep) r + stack_weight [t] <= stack_room dep (t :: r).
Proof. unfold stack_room. destruct t; cbn [stack_weight]; lia. Qed.

(* need: fuel beyond 4 per token; off: frames of the function's own; strict: for the four Rust functions *)
Definition call_inv (need off : nat) (strict : bool) (fuel dep : nat) (ts : list token) (res : presult) : Prop :=
  (4 * length ts + need <= fuel -> no_panic (fst res)) /\
  snd res <= stack_room dep ts + off /\
  match fst res with
  | Ok (_, rest) => (if strict then length rest < length ts else length rest <= length ts) /\ stack_weight rest <= stack_weight ts
  | _ => True
  end.

Lemma call_inv_ok n o s f dep ts e rest d : call_inv n o s f dep ts (Ok (e, rest), d) <->
  d <= stack_room dep ts + o /\ length rest + (if s then 1 else 0) <= length ts /\ stack_weight rest <= stack_weight ts.
Proof. unfold call_inv. cbn [fst snd no_panic]. destruct s; intuition lia. Qed.
Lemma call_inv_err n o s f dep ts x d : call_inv n o s f dep ts (Err x, d) <-> d <= stack_room dep ts + o.
Proof. unfold call_inv. cbn [fst snd no_panic]. tauto. Qed.
Lemma call_inv_panic n o s f dep ts x d : call_inv n o s f dep ts (Panic x, d) <->
  f < 4 * length ts + n /\ d <= stack_room dep ts + o.
Proof. unfold call_inv. cbn [fst snd no_panic]. intuition lia. Qed.

Lemma call_inv_fuel_S n o s f dep ts a : call_inv n o s f dep ts a -> call_inv (S n) o s (S f) dep ts a.
Proof. unfold call_inv. intros (Hp & H). split; [intros Hf; apply Hp; lia | exact H]. Qed.

Lemma call_inv_own_frame n o s f dep ts a : call_inv n o s f dep ts a -> call_inv n (S o) s f dep ts (own_frame a).
Proof. destruct a as [res d]. unfold call_inv. cbn [own_frame fst snd]. intros (Hp & Hd & H). split; [exact Hp | split; [lia | exact H]]. Qed.

(* k runs on a rest at least one token shorter, so it may need 4 more units of fuel *)
Lemma call_inv_then_call {n1 o1 n2 o2 s2 s f dep ts a k} :
  call_inv n1 o1 true f dep ts a -> (forall e r, call_inv n2 o2 s2 f dep r (k e r)) -> n2 <= n1 + 4 ->
  call_inv n1 (Nat.max o1 o2) s f dep ts (then_call a k).
Proof.
  intros Ha Hk Hn. destruct a as [[[e r]|x|x] d]; cbn [then_call].
  - apply call_inv_ok in Ha. destruct Ha as (Hd & Hl & Hw). pose proof (stack_room_mono dep r ts Hw) as Hr.
    specialize (Hk e r). destruct (k e r) as [[[e' r']|x|x] d'].
    + apply call_inv_ok in Hk. apply call_inv_ok. destruct s, s2; lia.
    + apply call_inv_err in Hk. apply call_inv_err. lia.
    + apply call_inv_panic in Hk. apply call_inv_panic. lia.
  - apply call_inv_err in Ha. apply call_inv_err. lia.
  - apply call_inv_panic in Ha. apply call_inv_panic. lia.
Qed.

Lemma call_inv_behind {t n o s n' o' s' f dep dep' r a} : call_inv n o s f dep' r a ->
  stack_room dep' r + o <= stack_room dep (t :: r) + o' -> n <= n' + 4 -> call_inv n' o' s' f dep (t :: r) a.
Proof.
  intros Ha Hr Hn.
  assert (Hw : stack_weight r <= stack_weight (t :: r)) by (destruct t; cbn [stack_weight]; lia).
  destruct a as [[[e r']|x|x] d].
  - apply call_inv_ok in Ha. apply call_inv_ok. cbn [length]. destruct s, s'; lia.
  - apply call_inv_err in Ha. apply call_inv_err. lia.
  - apply call_inv_panic in Ha. apply call_inv_panic. cbn [length]. lia.
Qed.

Lemma call_inv_skip {t n o s n' s' f dep r a} : call_inv n o s f dep r a -> n <= n' + 4 -> call_inv n' o s' f dep (t :: r) a.
Proof.
  intros Ha Hn. apply (call_inv_behind Ha); [|exact Hn].
  apply Nat.add_le_mono_r, stack_room_mono. destruct t; cbn [stack_weight]; lia.
Qed.

(* behind the token that opened the level: the deeper call's frames cost the room the weight of t *)
Lemma call_inv_deeper {t n o s n' s' f dep r a} : S dep <= MAX_QUERY_DEPTH ->
  call_inv n (o + stack_weight [t]) s f (S dep) r a -> n <= n' + 4 -> call_inv n' o s' f dep (t :: r) a.
Proof.
  intros Hen Ha Hn. apply (call_inv_behind Ha); [|exact Hn].
  pose proof (stack_room_enter dep t r Hen) as Hr. lia.
Qed.

Lemma call_inv_enter_guard n o s f dep ts a :
  (S dep <= MAX_QUERY_DEPTH -> call_inv n o s f dep ts a) -> call_inv n o s f dep ts (enter_guard dep a).
Proof.
  intros H. unfold enter_guard. destruct (enter_fails dep) eqn:Hen; [apply call_inv_err; lia|].
  apply H, enter_fails_spec, Hen.
Qed.

Lemma call_inv_ret_ok n o f dep e r : call_inv n o false f dep r (ret_ok e r).
Proof. apply call_inv_ok. lia. Qed.

Lemma call_inv_of_term n o f dep t r ot : no_panic ot -> call_inv n o true f dep (t :: r) (of_term ot r).
Proof.
  assert (Hw : stack_weight r <= stack_weight (t :: r)) by (destruct t; cbn [stack_weight]; lia).
  intros Hn. destruct ot; [apply call_inv_ok; cbn [length]; lia | apply call_inv_err; lia | destruct Hn].
Qed.

Lemma call_inv_close_paren n o s f dep e r : call_inv n o s f dep r (close_paren e r).
Proof.
  destruct r as [|[] r']; try (apply call_inv_err; lia).
  apply call_inv_ok. cbn [length stack_weight]. destruct s; lia.
Qed.

(* a' is the same call with more fuel *)
Definition fuel_stable (a a' : presult) : Prop := no_panic (fst a) -> a' = a.

Lemma fuel_stable_own_frame a a' : fuel_stable a a' -> fuel_stable (own_frame a) (own_frame a').
Proof. destruct a as [res d]. intros H Hn. rewrite (H Hn). reflexivity. Qed.

Lemma fuel_stable_then_call a a' k k' :
  fuel_stable a a' -> (forall e r, fuel_stable (k e r) (k' e r)) -> fuel_stable (then_call a k) (then_call a' k').
Proof.
  intros Ha Hk Hn. destruct a as [[[e r]|x|x] d]; [|rewrite (Ha I); reflexivity|destruct Hn].
  rewrite (Ha I). cbn [then_call] in *. rewrite (Hk e r); [reflexivity|]. destruct (k e r). exact Hn.
Qed.

Lemma fuel_stable_refl a : fuel_stable a a.
Proof. intros _. reflexivity. Qed.

Lemma fuel_stable_enter_guard dep a a' : fuel_stable a a' -> fuel_stable (enter_guard dep a) (enter_guard dep a').
Proof. unfold enter_guard. intros H. destruct (enter_fails dep); [apply fuel_stable_refl | exact H]. Qed.

(* the six functions; the loops carry the expression collected so far *)
Inductive nt := NExpr | NExprLoop (e : expr) | NTerm | NTermLoop (e : expr) | NFactor | NPrimary.
Definition nt_calls := nt -> nat -> list token -> presult.

Section Parser.
  Variable alnum : N -> bool.
  Variable parse_date : str -> option Z.

  Definition and_more (rec : nt_calls) (dep : nat) (e : expr) (ts : list token) : presult :=
    then_call (rec NFactor dep ts) (fun rhs => rec (NTermLoop (push_and e rhs)) dep).

  (* the four Rust functions have a frame of their own, the loops have none *)
  Definition parse_body (rec : nt_calls) (n : nt) (dep : nat) (ts : list token) : presult :=
    match n with
    | NExpr => own_frame (then_call (rec NTerm dep ts) (fun e => rec (NExprLoop e) dep))
    | NExprLoop e =>
        match ts with
        | TkOr :: r => then_call (rec NTerm dep r) (fun rhs => rec (NExprLoop (push_or e rhs)) dep)
        | _ => ret_ok e ts
        end
    | NTerm => own_frame (then_call (rec NFactor dep ts) (fun e => rec (NTermLoop e) dep))
    | NTermLoop e =>
        match ts with
        | TkAnd :: r => and_more rec dep e r
        | TkOr :: _ | TkRParen :: _ | [] => ret_ok e ts
        | _ => and_more rec dep e ts   (* implicit AND *)
        end
    | NFactor =>
        own_frame match ts with
                  | TkNot :: r => enter_guard dep (then_call (rec NFactor (S dep) r) (fun inner => ret_ok (ENot inner)))
                  | _ => rec NPrimary dep ts
                  end
    | NPrimary =>
        own_frame match ts with
                  | TkLParen :: r => enter_guard dep (then_call (rec NExpr (S dep) r) close_paren)
                  | TkWord w :: r => ret_ok (ETerm (from_word alnum w)) r
                  | TkPhrase p :: r => ret_ok (ETerm (TPhrase (lower p))) r
                  | TkField fld v :: r => of_term (from_pair fld v) r
                  | TkDate fld a b :: r => of_term (from_date_range parse_date fld a b) r
                  | _ :: _ => ret_err E_UNEXPECTED_TOKEN
                  | [] => ret_err E_UNEXPECTED_END
                  end
    end.

  Definition parse_run (fuel : nat) : nt_calls := fun n dep ts =>
    match n with
    | NExpr => parse_expression alnum parse_date fuel dep ts
    | NExprLoop e => expr_loop alnum parse_date fuel dep e ts
    | NTerm => parse_term alnum parse_date fuel dep ts
    | NTermLoop e => term_loop alnum parse_date fuel dep e ts
    | NFactor => parse_factor alnum parse_date fuel dep ts
    | NPrimary => parse_primary alnum parse_date fuel dep ts
    end.

  Lemma parse_run_0 n dep ts : parse_run 0 n dep ts = (Panic OUT_OF_FUEL, 0).
  Proof. destruct n; reflexivity. Qed.

  (* [simpl parse_run] unfolds one level and, unlike cbn, folds the calls back into the six names *)
  Lemma parse_run_S f n dep ts : parse_run (S f) n dep ts = parse_body (parse_run f) n dep ts.
  Proof.
    destruct n; cbn [parse_body].
    - rewrite own_frame_then_call. reflexivity.
    - reflexivity.
    - rewrite own_frame_then_call. reflexivity.
    - destruct ts as [|[] r]; reflexivity.
    - destruct ts as [|[] r]; try reflexivity.
      simpl parse_run. unfold enter_guard. destruct (enter_fails dep); [reflexivity|].
      rewrite own_frame_then_call.
      destruct (parse_factor alnum parse_date f (S dep) r) as [[[e r']|x|x] d]; try reflexivity.
      cbn [ret_ok]. rewrite Nat.max_0_r. reflexivity.
    - destruct ts as [|[w|p|fld v|fld a b| | | | | ] r]; try reflexivity.
      + simpl parse_run. destruct (from_pair fld v); reflexivity.
      + simpl parse_run. destruct (from_date_range parse_date fld a b); reflexivity.
      + simpl parse_run. unfold enter_guard. destruct (enter_fails dep); [reflexivity|].
        rewrite own_frame_then_call.
        destruct (parse_expression alnum parse_date f (S dep) r) as [[[e r']|x|x] d]; try reflexivity.
        destruct r' as [|[] r'']; cbn [close_paren ret_ok ret_err]; rewrite Nat.max_0_r; reflexivity.
  Qed.

  Lemma from_pair_no_panic f v : no_panic (from_pair f v).
  Proof. unfold from_pair. repeat match goal with |- no_panic (if ?c then _ else _) => destruct c end; exact I. Qed.
  Lemma from_date_range_no_panic f a b : no_panic (from_date_range parse_date f a b).
  Proof. unfold from_date_range. destruct (negb (str_eqb f s_date)); exact I. Qed.

  (* the model's own calls nested on the same tokens, down to parse_primary: 4, 3, 2, 1;
     term_loop calls parse_factor on the tokens it was given (implicit AND), hence 1 + 2;
     expr_loop calls parse_term only past an OR token, whose 4 units pay for it, hence 1 *)
  Definition nt_need (n : nt) : nat :=
    match n with NExpr => 4 | NExprLoop _ => 1 | NTerm => 3 | NTermLoop _ => 3 | NFactor => 2 | NPrimary => 1 end.
  (* the Rust frames from the function down to parse_primary; the loops are no frames and count
     those of what they call *)
  Definition nt_frames (n : nt) : nat :=
    match n with NExpr => 4 | NExprLoop _ => 3 | NTerm => 3 | NTermLoop _ => 2 | NFactor => 2 | NPrimary => 1 end.
  Definition nt_consumes (n : nt) : bool := match n with NExprLoop _ | NTermLoop _ => false | _ => true end.

  Lemma parse_body_inv f (rec : nt_calls) :
    (forall n dep ts, call_inv (nt_need n) (nt_frames n) (nt_consumes n) f dep ts (rec n dep ts)) ->
    forall n dep ts, call_inv (nt_need n) (nt_frames n) (nt_consumes n) (S f) dep ts (parse_body rec n dep ts).
  Proof.
    intros IH n dep ts. destruct n; cbn [parse_body nt_need nt_frames nt_consumes].
    - apply call_inv_own_frame, call_inv_fuel_S, (call_inv_then_call (IH NTerm dep ts) (fun e => IH (NExprLoop e) dep)).
      cbn [nt_need]. lia.
    - apply call_inv_fuel_S.
      (* the goal left is TkOr :: r *)
      destruct ts as [|[] r]; try (apply call_inv_ok; lia).
      apply (call_inv_skip (n := 3) (s := true)); [|lia].
      apply (call_inv_then_call (IH NTerm dep r) (fun rhs => IH (NExprLoop (push_or e rhs)) dep)). cbn [nt_need]. lia.
    - apply call_inv_own_frame, call_inv_fuel_S, (call_inv_then_call (IH NFactor dep ts) (fun e => IH (NTermLoop e) dep)).
      cbn [nt_need]. lia.
    - apply call_inv_fuel_S.
      assert (Hmore : forall s ts', call_inv 2 2 s f dep ts' (and_more rec dep e ts')).
      { intros s ts'. apply (call_inv_then_call (IH NFactor dep ts') (fun rhs => IH (NTermLoop (push_and e rhs)) dep)).
        cbn [nt_need]. lia. }
      (* any token but AND starts the next factor on the same tokens (Hmore); the goal left is TkAnd :: r *)
      destruct ts as [|[] r]; try apply Hmore; try (apply call_inv_ok; lia).
      apply (call_inv_skip (Hmore true r)). lia.
    - apply call_inv_own_frame, call_inv_fuel_S.
      (* all cases but NOT are parse_primary on the same tokens *)
      destruct ts as [|[] r]; try apply (IH NPrimary).
      apply call_inv_enter_guard. intros Hen. apply (call_inv_deeper (n := 2) (s := true) Hen); [|lia].
      apply (call_inv_then_call (IH NFactor (S dep) r) (fun inner => call_inv_ret_ok 0 0 f (S dep) (ENot inner))). lia.
    - apply call_inv_own_frame, call_inv_fuel_S.
      destruct ts as [|[w|p|fld v|fld a b| | | | | ] r]; try (apply call_inv_err; lia).
      + apply call_inv_ok. cbn [length stack_weight]. lia.
      + apply call_inv_ok. cbn [length stack_weight]. lia.
      + apply call_inv_of_term, from_pair_no_panic.
      + apply call_inv_of_term, from_date_range_no_panic.
      + (* '(': like NOT, with the 4 frames of parse_expression .. parse_primary below this one *)
        apply call_inv_enter_guard. intros Hen. apply (call_inv_deeper (n := 4) (s := true) Hen); [|lia].
        apply (call_inv_then_call (IH NExpr (S dep) r) (call_inv_close_paren 0 0 true f (S dep))). lia.
  Qed.

  Lemma parser_inv fuel n dep ts : call_inv (nt_need n) (nt_frames n) (nt_consumes n) fuel dep ts (parse_run fuel n dep ts).
  Proof.
    revert n dep ts; induction fuel as [|f IH]; intros n dep ts.
    - rewrite parse_run_0. apply call_inv_panic. destruct n; cbn [nt_need]; lia.
    - rewrite parse_run_S. apply parse_body_inv, IH.
  Qed.

  Lemma parse_body_stable (rec rec' : nt_calls) : (forall n dep ts, fuel_stable (rec n dep ts) (rec' n dep ts)) ->
    forall n dep ts, fuel_stable (parse_body rec n dep ts) (parse_body rec' n dep ts).
  Proof.
    intros IH n dep ts. destruct n; cbn [parse_body].
    - apply fuel_stable_own_frame, fuel_stable_then_call; [apply IH | intros; apply IH].
    - destruct ts as [|[] r]; try apply fuel_stable_refl. apply fuel_stable_then_call; [apply IH | intros; apply IH].
    - apply fuel_stable_own_frame, fuel_stable_then_call; [apply IH | intros; apply IH].
    - assert (Hmore : forall ts', fuel_stable (and_more rec dep e ts') (and_more rec' dep e ts')).
      { intros ts'. apply fuel_stable_then_call; [apply IH | intros; apply IH]. }
      destruct ts as [|[] r]; try apply Hmore; apply fuel_stable_refl.
    - apply fuel_stable_own_frame. destruct ts as [|[] r]; try apply IH.
      apply fuel_stable_enter_guard, fuel_stable_then_call; [apply IH | intros; apply fuel_stable_refl].
    - apply fuel_stable_own_frame. destruct ts as [|[] r]; try apply fuel_stable_refl.
      apply fuel_stable_enter_guard, fuel_stable_then_call; [apply IH | intros; apply fuel_stable_refl].
  Qed.

  Lemma parse_run_stable {fuel fuel' n dep ts} : fuel <= fuel' -> fuel_stable (parse_run fuel n dep ts) (parse_run fuel' n dep ts).
  Proof.
    revert fuel' n dep ts; induction fuel as [|f IH]; intros fuel' n dep ts Hle.
    - rewrite parse_run_0. intros [].
    - destruct fuel' as [|f']; [lia|]. rewrite !parse_run_S. apply parse_body_stable. intros. apply IH. lia.
  Qed.

  Definition parse_nt : nt_calls := fun n dep ts => parse_run (parser_fuel ts) n dep ts.

  Lemma parse_nt_no_panic n dep ts : no_panic (fst (parse_nt n dep ts)).
  Proof.
    destruct (parser_inv (parser_fuel ts) n dep ts) as (Hn & _). apply Hn.
    unfold parser_fuel. destruct n; cbn [nt_need]; lia.
  Qed.

  Lemma parse_run_nt fuel n dep ts : fuel_stable (parse_run fuel n dep ts) (parse_nt n dep ts).
  Proof.
    destruct (Nat.le_ge_cases fuel (parser_fuel ts)) as [Hle|Hle]; [apply parse_run_stable, Hle|].
    intros _. symmetry. apply (parse_run_stable Hle), parse_nt_no_panic.
  Qed.

  (* the last level calls parse_run with less fuel, which parse_nt agrees with wherever that does not run
     out; and it does not, since parse_nt does not *)
  Theorem parse_nt_eq n dep ts : parse_nt n dep ts = parse_body parse_nt n dep ts.
  Proof.
    pose proof (parse_body_stable (parse_run (4 * length ts + 3)) parse_nt (parse_run_nt _) n dep ts) as H.
    rewrite <- parse_run_S in H. replace (S (4 * length ts + 3)) with (parser_fuel ts) in H by (unfold parser_fuel; lia).
    symmetry. apply H, parse_nt_no_panic.
  Qed.

  Lemma parse_query_inv q :
    no_panic (fst (parse_query alnum parse_date q)) /\
    snd (parse_query alnum parse_date q) <= Nat.min (4 * nest_weight q) (4 * MAX_QUERY_DEPTH) + 4.
  Proof.
    unfold parse_query, nest_weight.
    pose proof (tokenize_no_panic (length q) q (le_n _)) as Hl.
    destruct (tokenize (length q) q) as [ts|k|k]; cbn [fst snd]; [|split; [exact I|lia]|destruct Hl].
    pose proof (parse_nt_no_panic NExpr 0 ts) as Hp.
    destruct (parser_inv (parser_fuel ts) NExpr 0 ts) as (_ & Hd & _).
    unfold stack_room in Hd. rewrite stack_weight_counts in Hd. unfold parse_nt in Hp. cbn [parse_run nt_frames] in Hp, Hd.
    destruct (parse_expression alnum parse_date (parser_fuel ts) 0 ts) as [[[e r]|k|k] d]; cbn [fst snd] in *; (split; [exact Hp|lia]).
  Qed.

  Theorem parse_query_total q : no_panic (fst (parse_query alnum parse_date q)).
  Proof. apply parse_query_inv. Qed.
End Parser.

(* the boundary examples of C32 *)
Definition nested_query (n : nat) : str := repeat c_lparen n ++ 120%N :: repeat c_rparen n.

Definition nobreak (s : str) : bool := forallb (fun c => negb (is_break c)) s.
Definition lacks (q : N) (s : str) : bool := forallb (fun c => negb (c =? q)%N) s.
(* KNOWN_FIELDS without date: the fields whose value is text *)
Definition TEXT_FIELDS : list str := [s_uri; s_scope; s_track; s_tag; s_label].

(* sufficient for the lexer to read token_text t back as t (lex_token) *)
Definition lex_ok (t : token) : bool :=
  match t with
  | TkWord w => negb (is_nil w) && nobreak w && lacks c_colon w && lacks c_quote w &&
                match word_token w with TkWord _ => true | _ => false end
  | TkPhrase p => lacks c_quote p
  | TkField f v => existsb (str_eqb f) TEXT_FIELDS && lacks c_quote v
  | TkDate _ _ _ => false
  | _ => true
  end.

Lemma span_word_prefix p Y : nobreak p = true ->
  span_word (p ++ Y) = let (w, t) := span_word Y in (p ++ w, t).
Proof.
  induction p as [|c p IH]; intros H; cbn [app].
  - destruct (span_word Y); reflexivity.
  - cbn [nobreak forallb] in H. apply andb_true_iff in H as [Hc Hp]. apply negb_true_iff in Hc.
    cbn [span_word]. rewrite Hc, (IH Hp). destruct (span_word Y); reflexivity.
Qed.

Lemma span_word_break c r : is_break c = true -> span_word (c :: r) = ([], c :: r).
Proof. intros H. cbn [span_word]. rewrite H. reflexivity. Qed.

Lemma read_until_found q v t : lacks q v = true -> read_until q (v ++ q :: t) = Some (v, t).
Proof.
  induction v as [|c v IH]; intros H; cbn [app read_until].
  - rewrite N.eqb_refl. reflexivity.
  - cbn [lacks forallb] in H. apply andb_true_iff in H as [Hc Hv]. apply negb_true_iff in Hc.
    rewrite Hc, (IH Hv). reflexivity.
Qed.

Lemma read_until_none q v : lacks q v = true -> read_until q v = None.
Proof.
  induction v as [|c v IH]; intros H; cbn [read_until]; [reflexivity|].
  cbn [lacks forallb] in H. apply andb_true_iff in H as [Hc Hv]. apply negb_true_iff in Hc.
  rewrite Hc, (IH Hv). reflexivity.
Qed.

Lemma nobreak_hd c w : nobreak (c :: w) = true -> is_break c = false.
Proof. cbn [nobreak forallb]. intros H. apply andb_true_iff in H as [H _]. apply negb_true_iff, H. Qed.
Lemma lacks_hd q c w : lacks q (c :: w) = true -> (c =? q)%N = false.
Proof. cbn [lacks forallb]. intros H. apply andb_true_iff in H as [H _]. apply negb_true_iff, H. Qed.

Lemma lex_step_word c r : is_break c = false -> (c =? c_quote)%N = false ->
  lex_step c r = read_field_or_word (c :: r).
Proof.
  intros Hb Hq. unfold is_break in Hb. rewrite !orb_false_iff in Hb. destruct Hb as [[Hws Hlp] Hrp].
  unfold lex_step. rewrite Hws, Hlp, Hrp, Hq. reflexivity.
Qed.

Lemma word_token_word w : match word_token w with TkWord _ => true | _ => false end = true -> word_token w = TkWord w.
Proof.
  unfold word_token.
  destruct (str_eqb w s_AND || str_eqb w s_and); [discriminate|].
  destruct (str_eqb w s_OR || str_eqb w s_or); [discriminate|].
  destruct (str_eqb w s_NOT || str_eqb w s_not); [discriminate|]. reflexivity.
Qed.

Lemma lex_field f v rest :
  nobreak (f ++ [c_colon; c_quote]) = true -> lacks c_colon f = true -> lacks c_quote f = true ->
  known_field (lower f) = true -> lower f = f -> lacks c_quote v = true ->
  exists c r0, token_text (TkField f v) ++ 32%N :: rest = c :: r0 /\ lex_step c r0 = Ok (Some (TkField f v), 32%N :: rest).
Proof.
  intros Hnb Hnc Hnq Hk Hl Hv. set (Y := v ++ c_quote :: 32%N :: rest).
  assert (Htxt : token_text (TkField f v) ++ 32%N :: rest = (f ++ [c_colon; c_quote]) ++ Y).
  { unfold Y. cbn [token_text]. rewrite <- !app_assoc. cbn [app]. rewrite <- app_assoc. reflexivity. }
  destruct f as [|c f']; [discriminate Hk|].
  exists c, ((f' ++ [c_colon; c_quote]) ++ Y). split; [exact Htxt|].
  rewrite lex_step_word; [| eapply nobreak_hd, Hnb | eapply lacks_hd, Hnq].
  change (c :: (f' ++ [c_colon; c_quote]) ++ Y) with (((c :: f') ++ [c_colon; c_quote]) ++ Y).
  (* the word scanned is f, colon, quote, w, with w the unbroken start of the value; the field
     name is what precedes its first colon, and the value is read again, from the quote on *)
  unfold read_field_or_word. rewrite (span_word_prefix _ Y Hnb).
  destruct (span_word Y) as [w t] eqn:EY. apply span_word_app in EY.
  rewrite <- app_assoc. change ([c_colon; c_quote] ++ w) with (c_colon :: c_quote :: w).
  rewrite (read_until_found c_colon _ (c_quote :: w) Hnc), Hk, Hl. cbn [app read_field]. rewrite N.eqb_refl.
  rewrite <- EY. unfold Y. rewrite (read_until_found c_quote v _ Hv). reflexivity.
Qed.

Lemma lex_token t rest : lex_ok t = true ->
  exists c r0, token_text t ++ 32%N :: rest = c :: r0 /\ lex_step c r0 = Ok (Some t, 32%N :: rest).
Proof.
  destruct t as [w|p|f v|f a b| | | | | ]; cbn [lex_ok token_text]; intros H; try discriminate.
  (* parentheses and keywords: their fixed text is read back by evaluation *)
  all: try solve [eexists _, _; split; reflexivity].
  - rewrite !andb_true_iff in H. destruct H as ((((Hne & Hnb) & Hnc) & Hnq) & Hwt).
    apply word_token_word in Hwt. destruct w as [|c w']; [discriminate|].
    exists c, (w' ++ 32%N :: rest). split; [reflexivity|].
    rewrite lex_step_word; [| eapply nobreak_hd, Hnb | eapply lacks_hd, Hnq].
    unfold read_field_or_word. change (c :: w' ++ 32%N :: rest) with ((c :: w') ++ 32%N :: rest).
    rewrite (span_word_prefix _ _ Hnb), (span_word_break 32%N rest eq_refl), app_nil_r.
    rewrite (read_until_none _ _ Hnc), Hwt. reflexivity.
  - exists c_quote, (p ++ c_quote :: 32%N :: rest). split; [cbn [app]; rewrite <- app_assoc; reflexivity|].
    change (lex_step c_quote (p ++ c_quote :: 32%N :: rest))
      with (match read_until c_quote (p ++ c_quote :: 32%N :: rest) with
            | Some (v, t) => Ok (Some (TkPhrase v), t)
            | None => Err E_UNTERMINATED_QUOTE
            end : outcome (option token * str)).
    rewrite (read_until_found c_quote p (32%N :: rest) H). reflexivity.
  - (* field: lex_field's conditions are computed for each of the five names *)
    apply andb_true_iff in H as [Hf Hv].
    apply (existsb_eqb_In _ bytes_eqb_spec) in Hf. cbn [TEXT_FIELDS In] in Hf.
    destruct Hf as [<-|[<-|[<-|[<-|[<-|[]]]]]]; apply lex_field; try reflexivity; exact Hv.
Qed.

Theorem tokenize_tokens_text ts : forallb lex_ok ts = true ->
  forall fuel, length (tokens_text ts) <= fuel -> tokenize fuel (tokens_text ts) = Ok ts.
Proof.
  induction ts as [|t ts IH]; intros Hok fuel Hf.
  - destruct fuel; reflexivity.
  - cbn [forallb] in Hok. apply andb_true_iff in Hok as [Ht Hts].
    cbn [tokens_text] in *.
    destruct (lex_token t (tokens_text ts) Ht) as (c & r0 & Htxt & Hstep).
    (* the step left the space and what follows it, so the token's text is not empty *)
    pose proof (lex_step_leaves c r0) as Hne. rewrite Hstep in Hne.
    rewrite Htxt in *. cbn [lex_leaves length] in Hf, Hne. destruct fuel as [|[|f]]; try lia.
    cbn [tokenize]. rewrite Hstep.
    change (lex_step 32%N (tokens_text ts)) with (Ok (None, tokens_text ts) : outcome (option token * str)).
    cbv beta iota.
    rewrite (IH Hts) by lia. reflexivity.
Qed.

Lemma expr_ind' (P : expr -> Prop) :
  (forall l, Forall P l -> P (EOr l)) -> (forall l, Forall P l -> P (EAnd l)) ->
  (forall c, P c -> P (ENot c)) -> (forall t, P (ETerm t)) -> forall e, P e.
Proof.
  intros HO HA HN HT. fix IH 1. intros [l|l|c|t].
  - apply HO. induction l as [|x l IHl]; constructor; [apply IH | exact IHl].
  - apply HA. induction l as [|x l IHl]; constructor; [apply IH | exact IHl].
  - apply HN, IH.
  - apply HT.
Qed.

Fixpoint terms_ok (e : expr) : bool :=
  match e with
  | EOr l | EAnd l => forallb terms_ok l
  | ENot c => terms_ok c
  | ETerm t => lex_ok (term_token t)
  end.

Lemma sep_by_forallb (p : token -> bool) s xs :
  forallb p s = true -> forallb (forallb p) xs = true -> forallb p (sep_by s xs) = true.
Proof.
  intros Hs. induction xs as [|x xs IH]; intros Hx; [reflexivity|].
  cbn [forallb] in Hx. apply andb_true_iff in Hx as [Hx Hxs].
  destruct xs as [|y xs]; [exact Hx|].
  change (sep_by s (x :: y :: xs)) with (x ++ s ++ sep_by s (y :: xs)).
  rewrite !forallb_app, Hx, Hs, (IH Hxs). reflexivity.
Qed.

Lemma operands_lex_ok explicit k s l :
  forallb lex_ok s = true -> forallb terms_ok l = true ->
  Forall (fun e => terms_ok e = true -> forall lvl, forallb lex_ok (pr explicit lvl e) = true) l ->
  forallb lex_ok (sep_by s (map (pr explicit k) l)) = true.
Proof.
  intros Hs Hok IH. apply sep_by_forallb; [exact Hs|].
  rewrite forallb_forall. intros x Hx. apply in_map_iff in Hx as (y & <- & Hy).
  rewrite Forall_forall in IH. apply IH; [exact Hy|]. rewrite forallb_forall in Hok. apply Hok, Hy.
Qed.

Lemma pr_lex_ok explicit e : terms_ok e = true -> forall lvl, forallb lex_ok (pr explicit lvl e) = true.
Proof.
  induction e as [l IH|l IH|c IH|t] using expr_ind'; intros Hok lvl; cbn [terms_ok] in Hok.
  - pose proof (operands_lex_ok explicit 1 [TkOr] l eq_refl Hok IH) as Hb.
    cbn [pr]. destruct lvl; [exact Hb|]. cbn [forallb lex_ok]. rewrite forallb_app, Hb. reflexivity.
  - assert (Hs : forallb lex_ok (if explicit then [TkAnd] else []) = true) by (destruct explicit; reflexivity).
    pose proof (operands_lex_ok explicit 2 _ l Hs Hok IH) as Hb.
    cbn [pr]. destruct lvl as [|[|lvl]]; try exact Hb. cbn [forallb lex_ok]. rewrite forallb_app, Hb. reflexivity.
  - change (pr explicit lvl (ENot c)) with (TkNot :: pr explicit 2 c). cbn [forallb lex_ok]. apply IH, Hok.
  - cbn [pr forallb]. rewrite Hok. reflexivity.
Qed.

(* nesting (parentheses and NOTs) that the printed form of e needs at level lvl; mirrors pr *)
Fixpoint nd (lvl : nat) (e : expr) {struct e} : nat :=
  match e with
  | EOr l => let m := list_max (map (nd 1) l) in match lvl with O => m | _ => S m end
  | EAnd l => let m := list_max (map (nd 2) l) in match lvl with O | 1 => m | _ => S m end
  | ENot c => S (nd 2 c)
  | ETerm _ => 0
  end.

(* what the parser makes of the printed form of e: the loops append to an OR (AND) they are
   handed, so a first operand that is itself an OR (AND) is merged with its siblings *)
Fixpoint norm (e : expr) : expr :=
  match e with
  | EOr (c :: l) => fold_left push_or (map norm l) (norm c)
  | EAnd (c :: l) => fold_left push_and (map norm l) (norm c)
  | ENot c => ENot (norm c)
  | _ => e
  end.

Section Norm.
  Variable parse_date : str -> option Z.
  Notation eval := (eval parse_date).

  Lemma eval_push_and a b d : eval (push_and a b) d = eval a d && eval b d.
  Proof.
    destruct a as [l|l|c|t]; cbn [push_and Query.eval forallb]; try (rewrite andb_true_r; reflexivity).
    rewrite forallb_app. cbn [forallb]. rewrite andb_true_r. reflexivity.
  Qed.
  Lemma eval_push_or a b d : eval (push_or a b) d = eval a d || eval b d.
  Proof.
    destruct a as [l|l|c|t]; cbn [push_or Query.eval existsb]; try (rewrite orb_false_r; reflexivity).
    rewrite existsb_app. cbn [existsb]. rewrite orb_false_r. reflexivity.
  Qed.

  Lemma eval_fold_push_or l e0 d : eval (fold_left push_or l e0) d = eval e0 d || existsb (fun c => eval c d) l.
  Proof.
    revert e0; induction l as [|c l IH]; intros e0; cbn [fold_left existsb]; [rewrite orb_false_r; reflexivity|].
    rewrite IH, eval_push_or, orb_assoc. reflexivity.
  Qed.
  Lemma eval_fold_push_and l e0 d : eval (fold_left push_and l e0) d = eval e0 d && forallb (fun c => eval c d) l.
  Proof.
    revert e0; induction l as [|c l IH]; intros e0; cbn [fold_left forallb]; [rewrite andb_true_r; reflexivity|].
    rewrite IH, eval_push_and, andb_assoc. reflexivity.
  Qed.

  Theorem eval_norm e d : eval (norm e) d = eval e d.
  Proof.
    induction e as [l IH|l IH|c IH|t] using expr_ind'.
    - destruct l as [|c l]; [reflexivity|]. inversion IH as [|? ? Hc Hl]; subst.
      cbn [norm Query.eval existsb]. rewrite eval_fold_push_or, Hc. f_equal. clear IH.
      induction Hl as [|x l Hx Hl IHl]; cbn [map existsb]; [reflexivity|]. rewrite Hx, IHl. reflexivity.
    - destruct l as [|c l]; [reflexivity|]. inversion IH as [|? ? Hc Hl]; subst.
      cbn [norm Query.eval forallb]. rewrite eval_fold_push_and, Hc. f_equal. clear IH.
      induction Hl as [|x l Hx Hl IHl]; cbn [map forallb]; [reflexivity|]. rewrite Hx, IHl. reflexivity.
    - cbn [norm Query.eval]. rewrite IH. reflexivity.
    - reflexivity.
  Qed.
End Norm.

Section RoundTrip.
  Variable alnum : N -> bool.
  Variable parse_date : str -> option Z.
  Variable explicit : bool.

  Notation parse_nt := (parse_nt alnum parse_date).
  Notation pr := (pr explicit).

  Definition prim_ok (t : term) : Prop :=
    match t with
    | TWord w => from_word alnum w = TWord w
    | TPhrase p => lower p = p
    | TWild raw => from_word alnum raw = TWild raw
    | TUri v | TScope v | TTrack v | TTag v | TLabel v => lower (trim_both (fun c => (c =? c_quote)%N) v) = v
    | TDate _ _ => False
    end.

  Inductive wf : expr -> Prop :=
  | wf_or l : l <> [] -> Forall wf l -> wf (EOr l)
  | wf_and l : l <> [] -> Forall wf l -> wf (EAnd l)
  | wf_not c : wf c -> wf (ENot c)
  | wf_term t : prim_ok t -> wf (ETerm t).

  Definition term_follow (r : list token) : Prop :=
    match r with [] | TkOr :: _ | TkRParen :: _ => True | _ => False end.
  Definition expr_follow (r : list token) : Prop :=
    match r with [] | TkRParen :: _ => True | _ => False end.

  Lemma expr_follow_term r : expr_follow r -> term_follow r.
  Proof. destruct r as [|[] ?]; intros H; first [exact I | exact H]. Qed.

  Definition reads_back (n : nt) (lvl : nat) (e : expr) (dep : nat) (r : list token) : Prop :=
    fst (parse_nt n dep (pr lvl e ++ r)) = Ok (norm e, r).

  Definition parses_factor e := forall dep r, nd 2 e + dep <= MAX_QUERY_DEPTH -> reads_back NFactor 2 e dep r.
  Definition parses_term e := forall dep r, nd 1 e + dep <= MAX_QUERY_DEPTH -> term_follow r -> reads_back NTerm 1 e dep r.
  Definition parses_expr e := forall dep r, nd 0 e + dep <= MAX_QUERY_DEPTH -> expr_follow r -> reads_back NExpr 0 e dep r.

  Lemma term_loop_stop dep e r : term_follow r -> parse_nt (NTermLoop e) dep r = ret_ok e r.
  Proof. intros H. rewrite parse_nt_eq. destruct r as [|[] ?]; cbn in H; try tauto; reflexivity. Qed.
  Lemma expr_loop_stop dep e r : expr_follow r -> parse_nt (NExprLoop e) dep r = ret_ok e r.
  Proof. intros H. rewrite parse_nt_eq. destruct r as [|[] ?]; cbn in H; try tauto; reflexivity. Qed.

  Lemma factor_is_term e : (forall l, e <> EAnd l) -> parses_factor e -> parses_term e.
  Proof.
    intros Hna H2 dep r Hd Hr.
    assert (Hlvl : pr 1 e = pr 2 e /\ nd 1 e = nd 2 e) by (destruct e; try (split; reflexivity); destruct (Hna l eq_refl)).
    destruct Hlvl as [Hpr Hnd]. rewrite Hnd in Hd. unfold reads_back. rewrite Hpr, parse_nt_eq. cbn [parse_body].
    rewrite fst_own_frame, (fst_then_call (H2 dep r Hd)), term_loop_stop by exact Hr. reflexivity.
  Qed.

  Lemma term_is_expr e : (forall l, e <> EOr l) -> parses_term e -> parses_expr e.
  Proof.
    intros Hno H1 dep r Hd Hr.
    assert (Hlvl : pr 0 e = pr 1 e /\ nd 0 e = nd 1 e) by (destruct e; try (split; reflexivity); destruct (Hno l eq_refl)).
    destruct Hlvl as [Hpr Hnd]. rewrite Hnd in Hd. unfold reads_back. rewrite Hpr, parse_nt_eq. cbn [parse_body].
    rewrite fst_own_frame, (fst_then_call (H1 dep r Hd (expr_follow_term r Hr))), expr_loop_stop by exact Hr.
    reflexivity.
  Qed.

  Lemma factor_all_levels e : (forall l, e <> EAnd l) -> (forall l, e <> EOr l) -> parses_factor e -> parses_expr e /\ parses_term e /\ parses_factor e.
  Proof. intros Hna Hno H2. pose proof (factor_is_term e Hna H2) as H1. exact (conj (term_is_expr e Hno H1) (conj H1 H2)). Qed.

  Lemma paren_is_factor e :
    pr 2 e = TkLParen :: pr 0 e ++ [TkRParen] -> nd 2 e = S (nd 0 e) -> parses_expr e -> parses_factor e.
  Proof.
    intros H2 Hnd H0 dep r Hd. rewrite Hnd in Hd. unfold reads_back. rewrite H2.
    cbn [app]. rewrite <- app_assoc. cbn [app].
    rewrite parse_nt_eq. cbn [parse_body]. rewrite fst_own_frame, parse_nt_eq. cbn [parse_body].
    rewrite enter_guard_ok, fst_own_frame, (fst_then_call (H0 (S dep) (TkRParen :: r) ltac:(lia) I)) by lia.
    reflexivity.
  Qed.

  Lemma not_is_factor c : parses_factor c -> parses_factor (ENot c).
  Proof.
    intros H2c dep r Hd. change (nd 2 (ENot c)) with (S (nd 2 c)) in Hd.
    unfold reads_back. change (pr 2 (ENot c) ++ r) with (TkNot :: pr 2 c ++ r).
    rewrite parse_nt_eq. cbn [parse_body].
    rewrite enter_guard_ok, fst_own_frame, (fst_then_call (H2c (S dep) r ltac:(lia))) by lia. reflexivity.
  Qed.

  Lemma prim_is_factor t : prim_ok t -> parses_factor (ETerm t).
  Proof.
    intros Hok dep r _. unfold reads_back. cbn [Query.pr app]. rewrite parse_nt_eq. cbn [parse_body].
    rewrite fst_own_frame, parse_nt_eq.
    destruct t as [w|p|raw|v|v|v|v|v|a b]; cbn [term_token prim_ok] in *; [..|contradiction].
    1-3: cbn [parse_body ret_ok own_frame fst]; rewrite Hok; reflexivity.
    all: cbn [parse_body of_term own_frame fst]; unfold from_pair; rewrite Hok; reflexivity.
  Qed.

  Lemma pr2_start e :
    exists t rest, pr 2 e = t :: rest /\ match t with TkAnd | TkOr | TkRParen => False | _ => True end.
  Proof.
    destruct e as [l|l|c|t]; cbn [Query.pr]; eexists _, _; (split; [reflexivity|]); try exact I.
    destruct t; exact I.
  Qed.

  Definition and_sep : list token := if explicit then [TkAnd] else [].
  Definition and_tail (l : list expr) : list token := concat (map (fun c => and_sep ++ pr 2 c) l).
  Definition or_tail (l : list expr) : list token := concat (map (fun c => TkOr :: pr 1 c) l).

  Lemma sep_by_cons (s : list token) x l : sep_by s (x :: l) = x ++ concat (map (fun y => s ++ y) l).
  Proof.
    revert x; induction l as [|y l IH]; intros x.
    - cbn [sep_by map concat]. rewrite app_nil_r. reflexivity.
    - change (sep_by s (x :: y :: l)) with (x ++ s ++ sep_by s (y :: l)). rewrite IH.
      cbn [map concat]. rewrite <- !app_assoc. reflexivity.
  Qed.

  Lemma pr1_and c l : pr 1 (EAnd (c :: l)) = pr 2 c ++ and_tail l.
  Proof. cbn [Query.pr]. rewrite map_cons, sep_by_cons. unfold and_tail, and_sep. rewrite map_map. reflexivity. Qed.
  Lemma pr0_or c l : pr 0 (EOr (c :: l)) = pr 1 c ++ or_tail l.
  Proof. cbn [Query.pr]. rewrite map_cons, sep_by_cons. unfold or_tail. rewrite map_map. reflexivity. Qed.

  (* the AND loop, written or implicit: the next factor starts with a token that lets it go on *)
  Lemma term_loop_enter dep e0 c rest :
    parse_nt (NTermLoop e0) dep (and_sep ++ pr 2 c ++ rest) = and_more parse_nt dep e0 (pr 2 c ++ rest).
  Proof.
    rewrite parse_nt_eq. destruct (pr2_start c) as (t & tl & Hpr & Hs). rewrite Hpr.
    unfold and_sep. destruct explicit; cbn [app]; [reflexivity|].
    destruct t; cbn in Hs; try tauto; reflexivity.
  Qed.

  Lemma and_tail_loop l dep : Forall parses_factor l -> list_max (map (nd 2) l) + dep <= MAX_QUERY_DEPTH ->
    forall e0 r, term_follow r ->
    fst (parse_nt (NTermLoop e0) dep (and_tail l ++ r)) = Ok (fold_left push_and (map norm l) e0, r).
  Proof.
    induction l as [|c l IH]; intros H2 Hd e0 r Hr.
    - cbn [and_tail map concat app fold_left]. rewrite term_loop_stop by exact Hr. reflexivity.
    - inversion H2 as [|? ? H2c H2l]; subst.
      change (list_max (map (nd 2) (c :: l))) with (Nat.max (nd 2 c) (list_max (map (nd 2) l))) in Hd.
      change (and_tail (c :: l)) with ((and_sep ++ pr 2 c) ++ and_tail l). rewrite <- !app_assoc.
      rewrite term_loop_enter. unfold and_more.
      rewrite (fst_then_call (H2c dep _ ltac:(lia))). exact (IH H2l ltac:(lia) _ r Hr).
  Qed.

  Lemma and_is_term c l : Forall parses_factor (c :: l) -> parses_term (EAnd (c :: l)).
  Proof.
    intros H2 dep r Hd Hr. inversion H2 as [|? ? H2c H2l]; subst.
    change (nd 1 (EAnd (c :: l))) with (Nat.max (nd 2 c) (list_max (map (nd 2) l))) in Hd.
    unfold reads_back. rewrite pr1_and, <- app_assoc, parse_nt_eq. cbn [parse_body].
    rewrite fst_own_frame, (fst_then_call (H2c dep _ ltac:(lia))).
    exact (and_tail_loop l dep H2l ltac:(lia) _ r Hr).
  Qed.

  Lemma or_tail_follow l r : expr_follow r -> term_follow (or_tail l ++ r).
  Proof. intros Hr. destruct l; cbn; [apply expr_follow_term, Hr | exact I]. Qed.

  Lemma or_tail_loop l dep : Forall parses_term l -> list_max (map (nd 1) l) + dep <= MAX_QUERY_DEPTH ->
    forall e0 r, expr_follow r ->
    fst (parse_nt (NExprLoop e0) dep (or_tail l ++ r)) = Ok (fold_left push_or (map norm l) e0, r).
  Proof.
    induction l as [|c l IH]; intros H1 Hd e0 r Hr.
    - cbn [or_tail map concat app fold_left]. rewrite expr_loop_stop by exact Hr. reflexivity.
    - inversion H1 as [|? ? H1c H1l]; subst.
      change (list_max (map (nd 1) (c :: l))) with (Nat.max (nd 1 c) (list_max (map (nd 1) l))) in Hd.
      change (or_tail (c :: l)) with ((TkOr :: pr 1 c) ++ or_tail l). rewrite <- !app_assoc. cbn [app].
      rewrite parse_nt_eq. cbn [parse_body].
      rewrite (fst_then_call (H1c dep _ ltac:(lia) (or_tail_follow l r Hr))). exact (IH H1l ltac:(lia) _ r Hr).
  Qed.

  Lemma or_is_expr c l : Forall parses_term (c :: l) -> parses_expr (EOr (c :: l)).
  Proof.
    intros H1 dep r Hd Hr. inversion H1 as [|? ? H1c H1l]; subst.
    change (nd 0 (EOr (c :: l))) with (Nat.max (nd 1 c) (list_max (map (nd 1) l))) in Hd.
    unfold reads_back. rewrite pr0_or, <- app_assoc, parse_nt_eq. cbn [parse_body].
    rewrite fst_own_frame, (fst_then_call (H1c dep _ ltac:(lia) (or_tail_follow l r Hr))).
    exact (or_tail_loop l dep H1l ltac:(lia) _ r Hr).
  Qed.

  Lemma all_levels e : wf e -> parses_expr e /\ parses_term e /\ parses_factor e.
  Proof.
    induction e as [l IH|l IH|c IH|t] using expr_ind'; intros Hw; inversion Hw as [? Hne Hl|? Hne Hl|? Hc|? Ht]; subst.
    - assert (H1l : Forall parses_term l) by (rewrite Forall_forall in *; intros x Hx; apply (IH x Hx), Hl, Hx).
      destruct l as [|c l]; [congruence|]. pose proof (or_is_expr c l H1l) as H0.
      pose proof (paren_is_factor (EOr (c :: l)) eq_refl eq_refl H0) as H2.
      exact (conj H0 (conj (factor_is_term (EOr (c :: l)) ltac:(discriminate) H2) H2)).
    - assert (H2l : Forall parses_factor l) by (rewrite Forall_forall in *; intros x Hx; apply (IH x Hx), Hl, Hx).
      destruct l as [|c l]; [congruence|]. pose proof (and_is_term c l H2l) as H1.
      pose proof (term_is_expr (EAnd (c :: l)) ltac:(discriminate) H1) as H0.
      exact (conj H0 (conj H1 (paren_is_factor (EAnd (c :: l)) eq_refl eq_refl H0))).
    - apply factor_all_levels; [discriminate | discriminate | apply not_is_factor, IH, Hc].
    - apply factor_all_levels; [discriminate | discriminate | apply prim_is_factor, Ht].
  Qed.

  Theorem parse_print_norm e : wf e -> nd 0 e <= MAX_QUERY_DEPTH ->
    fst (parse_nt NExpr 0 (print_tokens explicit e)) = Ok (norm e, []).
  Proof.
    intros Hw Hn. destruct (all_levels e Hw) as (H0 & _).
    specialize (H0 0 [] ltac:(lia) I). unfold reads_back in H0. rewrite app_nil_r in H0. exact H0.
  Qed.
End RoundTrip.

(* C32 (9): the text printed with minimal parentheses (NOT tighter than AND tighter than OR; AND written or
   left implicit) is parsed as the normal form *)
Theorem parse_query_print alnum parse_date explicit e :
  wf alnum e -> terms_ok e = true -> nd 0 e <= MAX_QUERY_DEPTH ->
  fst (parse_query alnum parse_date (print explicit e)) = Ok (norm e).
Proof.
  intros Hw Hok Hn. unfold parse_query, print.
  rewrite tokenize_tokens_text; [|apply pr_lex_ok, Hok|apply le_n].
  pose proof (parse_print_norm alnum parse_date explicit e Hw Hn) as Hp. unfold parse_nt, parse_run in Hp.
  destruct (parse_expression alnum parse_date _ 0 (print_tokens explicit e)) as [o d].
  cbn [fst] in Hp. rewrite Hp. reflexivity.
Qed.

(* Exists and Forall would do, but sem below recurses through the operand list, and the guard
   accepts that under a local fixpoint over the list, not under an inductive predicate *)
Definition some_of {A} (P : A -> Prop) : list A -> Prop :=
  fix go (l : list A) : Prop := match l with [] => False | x :: r => P x \/ go r end.
Definition all_of {A} (P : A -> Prop) : list A -> Prop :=
  fix go (l : list A) : Prop := match l with [] => True | x :: r => P x /\ go r end.

Definition substring (n h : str) : Prop := exists pre suf, h = pre ++ n ++ suf.
Definition prefix_of (p s : str) : Prop := exists suf, s = p ++ suf.
Definition same_ignoring_case (a b : str) : Prop := lower a = lower b.

Lemma existsb_spec {A} (f : A -> bool) (P : A -> Prop) l :
  (forall x, f x = true <-> P x) -> (existsb f l = true <-> exists x, In x l /\ P x).
Proof.
  intros H. rewrite existsb_exists. split; intros [x [Hi Hx]]; exists x; (split; [exact Hi | apply H, Hx]).
Qed.

Lemma option_spec {A} (f : A -> bool) (P : A -> Prop) o :
  (forall x, f x = true <-> P x) ->
  (match o with Some u => f u | None => false end = true <-> exists u, o = Some u /\ P u).
Proof.
  intros H. destruct o as [u|].
  - rewrite H. split; [intros Hu; exists u; auto | intros [u' [E Hu]]; inversion E; subst; exact Hu].
  - split; [discriminate | intros [u' [E _]]; discriminate].
Qed.

Section Sem.
  Variable parse_date : str -> option Z.

  Definition term_sem (t : term) (d : doc) : Prop :=
    match t with
    | TWord w | TPhrase w => substring (lower w) (d_content d)
    | TWild raw => wild_match raw (d_content d) = true
    | TUri v => exists u, d_uri d = Some u /\ same_ignoring_case u v
    | TScope p => exists u, d_uri d = Some u /\ prefix_of p u
    | TTrack v => exists u, d_track d = Some u /\ same_ignoring_case u v
    | TTag v => exists x, In x (d_tags d) /\ same_ignoring_case x v
    | TLabel v => exists x, In x (d_labels d) /\ same_ignoring_case x v
    | TDate a b => exists t, In t (date_candidates parse_date d) /\
                             (forall s, a = Some s -> (s <= t)%Z) /\ (forall e, b = Some e -> (t <= e)%Z)
    end.

  Fixpoint sem (e : expr) (d : doc) {struct e} : Prop :=
    match e with
    | EOr l => some_of (fun c => sem c d) l
    | EAnd l => all_of (fun c => sem c d) l
    | ENot c => ~ sem c d
    | ETerm t => term_sem t d
    end.

  Lemma is_prefix_spec p s : is_prefix p s = true <-> prefix_of p s.
  Proof. exact (is_prefix_of_spec p s). Qed.

  Lemma contains_spec n h : contains n h = true <-> substring n h.
  Proof. exact (is_infix_of_spec n h). Qed.

  Lemma eq_ignore_case_spec a b : eq_ignore_case a b = true <-> same_ignoring_case a b.
  Proof. unfold eq_ignore_case, same_ignoring_case. apply bytes_eqb_spec. Qed.

  Lemma in_range_spec a b t :
    in_range a b t = true <-> (forall s, a = Some s -> (s <= t)%Z) /\ (forall e, b = Some e -> (t <= e)%Z).
  Proof.
    unfold in_range. rewrite andb_true_iff.
    rewrite <- (option_test_spec _ _ _ a (fun s => iff_trans (negb_true_iff _) (Z.ltb_ge t s))),
            <- (option_test_spec _ _ _ b (fun e => iff_trans (negb_true_iff _) (Z.ltb_ge e t))).
    reflexivity.
  Qed.

  (* an open range matches without looking: the document's own timestamp is a candidate inside it *)
  Lemma eval_date a b d :
    eval_term parse_date (TDate a b) d = true <->
    exists t, In t (date_candidates parse_date d) /\ in_range a b t = true.
  Proof. rewrite <- existsb_exists. destruct a, b; reflexivity. Qed.

  Lemma eval_term_sem t d : eval_term parse_date t d = true <-> term_sem t d.
  Proof.
    destruct t; cbn [eval_term term_sem].
    - apply contains_spec.
    - apply contains_spec.
    - reflexivity.
    - apply option_spec. intros u. apply eq_ignore_case_spec.
    - apply option_spec. intros u. apply is_prefix_spec.
    - apply option_spec. intros u. apply eq_ignore_case_spec.
    - apply existsb_spec. intros x. apply eq_ignore_case_spec.
    - apply existsb_spec. intros x. apply eq_ignore_case_spec.
    - apply (iff_trans (eval_date a b d)). setoid_rewrite in_range_spec. reflexivity.
  Qed.

  Theorem eval_sem e d : eval parse_date e d = true <-> sem e d.
  Proof.
    induction e as [l IH|l IH|c IH|t] using expr_ind'; cbn [eval sem].
    - induction l as [|x l IHl]; cbn [existsb some_of]; [split; [discriminate|tauto]|].
      inversion IH as [|? ? Hx Hl]; subst. rewrite orb_true_iff, Hx, (IHl Hl). reflexivity.
    - induction l as [|x l IHl]; cbn [forallb all_of]; [tauto|].
      inversion IH as [|? ? Hx Hl]; subst. rewrite andb_true_iff, Hx, (IHl Hl). reflexivity.
    - rewrite negb_true_iff, <- IH. destruct (eval parse_date c d); split; intros; try discriminate; try congruence.
    - apply eval_term_sem.
  Qed.
End Sem.

(* colon, quote and parentheses are lex_ok's concern *)
Definition plain_word (alnum : N -> bool) (w : str) : bool :=
  match w, rev w with
  | a :: _, z :: _ => alnum a && alnum z
  | _, _ => false
  end && forallb (fun c => (lower_c c =? c)%N && negb (is_wild_c c)) w.

Lemma drop_while_keep p a s : p a = false -> drop_while p (a :: s) = a :: s.
Proof. intros H. cbn [drop_while]. rewrite H. reflexivity. Qed.

Lemma trim_end_keep p s z r : rev s = z :: r -> p z = false -> trim_end p s = s.
Proof. intros Hr Hz. unfold trim_end. rewrite Hr, (drop_while_keep p z r Hz), <- Hr. apply rev_involutive. Qed.

Lemma lower_fix w : forallb (fun c => (lower_c c =? c)%N) w = true -> lower w = w.
Proof.
  induction w as [|c w IH]; intros H; [reflexivity|]. cbn [forallb] in H. apply andb_true_iff in H as [Hc Hw].
  apply N.eqb_eq in Hc. cbn [lower map]. rewrite Hc. f_equal. apply IH, Hw.
Qed.

Lemma plain_word_from_word alnum w : plain_word alnum w = true -> from_word alnum w = TWord w.
Proof.
  unfold plain_word. intros H. apply andb_true_iff in H as [Hends Hall].
  destruct w as [|a w']; [discriminate|]. destruct (rev (a :: w')) as [|z r] eqn:Er; [discriminate|].
  apply andb_true_iff in Hends as [Ha Hz].
  assert (Hlow : lower (a :: w') = a :: w').
  { apply lower_fix. rewrite forallb_forall in *. intros x Hx. specialize (Hall x Hx). apply andb_true_iff in Hall. tauto. }
  assert (Hnw : forall x, In x (a :: w') -> is_wild_c x = false).
  { rewrite forallb_forall in Hall. intros x Hx. specialize (Hall x Hx). apply andb_true_iff in Hall as [_ Hn].
    apply negb_true_iff in Hn. exact Hn. }
  assert (Hzin : In z (a :: w')) by (apply in_rev; rewrite Er; left; reflexivity).
  unfold from_word. rewrite Hlow.
  assert (Hzq : (z =? c_qmark)%N = false).
  { specialize (Hnw z Hzin). unfold is_wild_c in Hnw. apply orb_false_iff in Hnw. tauto. }
  rewrite (trim_end_keep _ _ z r Er Hzq).
  unfold trim_both. rewrite drop_while_keep by (rewrite Ha; reflexivity).
  rewrite (trim_end_keep _ _ z r Er) by (rewrite Hz; reflexivity).
  assert (Hex : existsb is_wild_c (a :: w') = false).
  { apply not_true_is_false. intros Hc. apply existsb_exists in Hc as (x & Hx & Hxw). rewrite (Hnw x Hx) in Hxw. discriminate. }
  rewrite Hex. cbn [is_nil orb]. cbn [existsb]. rewrite Ha. reflexivity.
Qed.
