(* Proofs for C14: the vector index of the model (Model/VecStore.v) holds exactly the
   embeddings given to the active frames (Model/VecSpec.v), for every history of the model as it
   follows the repaired code.

   The invariant Inv has three independent parts (Inv_parts): the log is well formed (log_ok),
   the manifest fields agree with each other (manifest_ok), and the loaded index together with
   the pending embeddings accounts for everything that was given (tracks).  Each operation of
   the model touches one or two of them; the two that change what is tracked, append and
   commit, are handled on plain lists (tracks_append, tracks_commit).  The calls that log nothing
   (commit, reopen, crash, doctor) are settle, load, commit and rebuild in a fixed order
   (vtrans_quiet), so vtrans_inv composes one lemma per move. *)
From MV Require Import Base.Prelude Base.Facts Model.Store Model.StoreSpec Model.VecStore Model.VecSpec Proofs.StoreProofs.
Local Open Scope N_scope.

Definition actp (C : list frame) (d : N * emb) : bool := frame_is_active C (fst d).

Lemma filter_filter_mono {A} (p q : A -> bool) l :
  (forall x, In x l -> q x = true -> p x = true) -> filter q (filter p l) = filter q l.
Proof.
  intros H. rewrite filter_filter. apply filter_ext_in. intros x Hx.
  destruct (q x) eqn:E; [rewrite (H x Hx E); reflexivity | apply andb_false_r].
Qed.

Lemma filter_none {A} (p : A -> bool) l : (forall x, In x l -> p x = false) -> filter p l = [].
Proof. apply Facts.filter_none. Qed.

Lemma filter_remove (p : N -> bool) t (l : docs) :
  p t = false -> filter (fun d => p (fst d)) (vec_remove t l) = filter (fun d => p (fst d)) l.
Proof.
  intros Hp. unfold vec_remove. induction l as [|[a e] l IH]; cbn [filter fst]; [reflexivity|].
  destruct (N.eqb_spec a t) as [->|_]; cbn [negb filter fst].
  - rewrite Hp. exact IH.
  - rewrite IH. reflexivity.
Qed.

Definition remove_all (ts : list N) (d : docs) : docs := fold_left (fun d t => vec_remove t d) ts d.

Lemma remove_all_app a b d : remove_all (a ++ b) d = remove_all b (remove_all a d).
Proof. unfold remove_all. apply fold_left_app. Qed.

Lemma remove_all_nil ts : remove_all ts [] = [].
Proof. induction ts as [|t ts IH]; [reflexivity|exact IH]. Qed.

Lemma filter_remove_all (p : N -> bool) ts : forall (l : docs),
  (forall t, In t ts -> p t = false) ->
  filter (fun d => p (fst d)) (remove_all ts l) = filter (fun d => p (fst d)) l.
Proof.
  induction ts as [|t ts IH]; intros l H; [reflexivity|].
  change (remove_all (t :: ts) l) with (remove_all ts (vec_remove t l)).
  rewrite IH by (intros; apply H; right; assumption).
  apply filter_remove. apply H. left; reflexivity.
Qed.

(* rec_ok b, of a pending record over b committed frames: it deactivates a committed frame only,
   and is not a lex-batch record, so that any pending batch makes the delta non-empty *)
Definition targets_of (e : entry) : list N :=
  match e with ETomb t => [t] | EInsert _ _ _ _ (Some p) _ _ => [p] | _ => [] end.
Definition targets (recs : list (N * entry)) : list N := flat_map (fun se => targets_of (snd se)) recs.
Definition tgt_lt (b : N) (e : entry) : Prop := forall t, In t (targets_of e) -> t < b.
Definition rec_ok (b : N) (se : N * entry) : Prop := tgt_lt b (snd se) /\ is_lex (snd se) = false.

Lemma targets_lt b P t : Forall (rec_ok b) P -> In t (targets P) -> t < b.
Proof.
  intros HP Hin. apply in_flat_map in Hin as (se & Hse & Ht).
  rewrite Forall_forall in HP. apply (HP se Hse). exact Ht.
Qed.

Lemma act_get C i : frame_is_active C i = match nth_error C (N.to_nat i) with Some f => f_status f =? 0 | None => false end.
Proof. reflexivity. Qed.

Lemma act_lt C i : frame_is_active C i = true -> i < len C.
Proof.
  rewrite act_get. destruct (nth_error C (N.to_nat i)) eqn:E; [|discriminate]. intros _.
  assert (N.to_nat i < length C)%nat by (apply nth_error_Some; congruence). unfold len. lia.
Qed.

Lemma act_out C i : len C <= i -> frame_is_active C i = false.
Proof. intros H. destruct (frame_is_active C i) eqn:E; [apply act_lt in E; lia|reflexivity]. Qed.

Lemma act_snoc C f i :
  f_status f = 0 -> frame_is_active (C ++ [f]) i = if i <? len C then frame_is_active C i else i =? len C.
Proof.
  intros Hf. rewrite !act_get. unfold len. destruct (N.ltb_spec i (N.of_nat (length C))) as [Hi|Hi].
  - rewrite nth_error_app1 by lia. reflexivity.
  - rewrite nth_error_app2 by lia. destruct (N.eqb_spec i (N.of_nat (length C))) as [->|Hne].
    + rewrite Nat2N.id, Nat.sub_diag. cbn [nth_error]. rewrite Hf. reflexivity.
    + destruct (N.to_nat i - length C)%nat as [|[|k]] eqn:E; [lia|reflexivity|reflexivity].
Qed.

Lemma act_set_status C t st by_ i :
  st <> 0 ->
  frame_is_active (update_nth (N.to_nat t) (fun g => set_status g st by_) C) i = frame_is_active C i && negb (i =? t).
Proof.
  intros Hst. rewrite !act_get, nth_error_update_nth.
  destruct (N.eqb_spec i t) as [->|Hne].
  - rewrite Nat.eqb_refl. destruct (nth_error C (N.to_nat t)); cbn [option_map set_status f_status].
    + rewrite (proj2 (N.eqb_neq st 0) Hst), andb_false_r. reflexivity.
    + reflexivity.
  - replace (Nat.eqb (N.to_nat i) (N.to_nat t)) with false by lia. rewrite andb_true_r. reflexivity.
Qed.

Lemma act_apply_entry st se i :
  frame_is_active (st_frames (apply_entry st se)) i =
  if i <? len (st_frames st)
  then frame_is_active (st_frames st) i && negb (existsb (N.eqb i) (targets_of (snd se)))
  else is_insert (snd se) && (i =? len (st_frames st)).
Proof.
  destruct st as [[fr smap] ins], se as [seq e]. unfold st_frames. cbn [fst snd].
  destruct e as [u tag role m [p|] reuse ps|t|]; cbn [apply_entry fst targets_of existsb is_insert andb].
  - (* insert that supersedes p *)
    rewrite act_snoc, len_update by reflexivity. destruct (i <? len fr); [|reflexivity].
    rewrite act_set_status, orb_false_r by discriminate. reflexivity.
  - (* plain insert *)
    rewrite act_snoc by reflexivity. destruct (i <? len fr); [rewrite andb_true_r|]; reflexivity.
  - rewrite act_set_status, orb_false_r by discriminate.
    destruct (N.ltb_spec i (len fr)); [reflexivity|]. rewrite act_out by assumption. reflexivity.
  - destruct (N.ltb_spec i (len fr)); [rewrite andb_true_r; reflexivity|apply act_out; assumption].
Qed.

Lemma fold_act_old recs : forall st i,
  i < len (st_frames st) ->
  frame_is_active (st_frames (fold_left apply_entry recs st)) i =
  frame_is_active (st_frames st) i && negb (existsb (N.eqb i) (targets recs)).
Proof.
  induction recs as [|se recs IH]; intros st i Hi; cbn [fold_left]; [symmetry; apply andb_true_r|].
  rewrite IH by (rewrite apply_entry_len; lia).
  rewrite act_apply_entry. replace (i <? len (st_frames st)) with true by lia.
  unfold targets. cbn [flat_map]. rewrite existsb_app, negb_orb, andb_assoc. reflexivity.
Qed.

Lemma fold_new_active recs : forall st b,
  Forall (fun se => tgt_lt b (snd se)) recs ->
  (forall i, b <= i -> i < len (st_frames st) -> frame_is_active (st_frames st) i = true) ->
  forall i, b <= i -> i < len (st_frames (fold_left apply_entry recs st)) ->
            frame_is_active (st_frames (fold_left apply_entry recs st)) i = true.
Proof.
  induction recs as [|se recs IH]; intros st b HF Hall; cbn [fold_left]; [exact Hall|].
  inversion HF as [|? ? H1 H2]; subst.
  pose proof (apply_entry_len st se) as Hl.
  apply (IH _ b H2). intros i Hbi Hi. rewrite act_apply_entry.
  destruct (N.ltb_spec i (len (st_frames st))) as [Hlt|Hge].
  - rewrite (Hall i Hbi Hlt). destruct (existsb (N.eqb i) (targets_of (snd se))) eqn:E; [|reflexivity].
    apply (existsb_eqb_In _ N.eqb_eq), H1 in E. lia.
  - destruct (is_insert (snd se)); lia.
Qed.

(* the second pass of apply_records only sets parents *)
Lemma act_set_parent C n p i :
  frame_is_active (update_nth n (fun g => set_parent g p) C) i = frame_is_active C i.
Proof.
  rewrite !act_get, nth_error_update_nth. destruct (Nat.eqb (N.to_nat i) n); [|reflexivity].
  destruct (nth_error C (N.to_nat i)); reflexivity.
Qed.

Lemma apply_records_act_old C P i :
  i < len C ->
  frame_is_active (apply_records C P) i = frame_is_active C i && negb (existsb (N.eqb i) (targets P)).
Proof.
  intros Hi. rewrite (apply_records_keeps (fun l => frame_is_active l i)) by (intros; apply act_set_parent).
  apply (fold_act_old P (C, [], [])). exact Hi.
Qed.

Lemma apply_records_act_new C P i :
  Forall (fun se => tgt_lt (len C) (snd se)) P -> len C <= i < len C + count_ins P ->
  frame_is_active (apply_records C P) i = true.
Proof.
  intros HP Hi. rewrite (apply_records_keeps (fun l => frame_is_active l i)) by (intros; apply act_set_parent).
  destruct Hi as [Hlo Hhi]. apply (fold_new_active P (C, [], []) (len C)).
  - exact HP.
  - unfold st_frames. cbn [fst]. intros j H1 H2. lia.
  - exact Hlo.
  - rewrite fold_len. exact Hhi.
Qed.

(* the documents the pending records will add: the k-th insert gets id base + k *)
Fixpoint new_docs (base : N) (recs : list (N * entry)) (pe : list (option emb)) : docs :=
  match recs, pe with
  | (_, e) :: r, oe :: pr => if is_insert e then opt_doc base oe ++ new_docs (base + 1) r pr else new_docs base r pr
  | _, _ => []
  end.

Lemma docs_of_map_remove ts idx : docs_of (option_map (remove_all ts) idx) = remove_all ts (docs_of idx).
Proof. destruct idx; cbn [option_map docs_of]; [reflexivity|symmetry; apply remove_all_nil]. Qed.

Lemma vapply_fold recs : forall pe a idx nd,
  length pe = length recs ->
  fold_left vapply_entry (combine recs pe) (a, idx, nd) =
  (fold_left apply_entry recs a, option_map (remove_all (targets recs)) idx, nd ++ new_docs (len (st_frames a)) recs pe).
Proof.
  induction recs as [|[seq e] recs IH]; intros pe a idx nd Hl.
  - destruct pe; [|discriminate]. cbn [combine fold_left targets flat_map new_docs]. rewrite app_nil_r.
    destruct idx; reflexivity.
  - destruct pe as [|oe pe]; [discriminate|]. injection Hl as Hl.
    cbn [combine fold_left new_docs]. unfold vapply_entry at 2. cbn [snd].
    change (targets ((seq, e) :: recs)) with (targets_of e ++ targets recs).
    pose proof (apply_entry_len a (seq, e)) as HL. cbn [snd] in HL.
    destruct e as [u tag role m sup reuse ps|t|]; cbn [is_insert targets_of app] in *;
      rewrite IH, HL, ?N.add_0_r by assumption.
    + (* insert: sup, if any, leaves the index; oe, if any, joins the new documents *)
      f_equal; [f_equal|].
      * destruct sup, idx; reflexivity.
      * unfold st_frames. destruct oe; cbn [opt_doc]; rewrite <- ?app_assoc; reflexivity.
    + destruct idx; reflexivity.
    + reflexivity.
Qed.

Lemma vapply_commit C P pe idx :
  length pe = length P ->
  fold_left vapply_entry (combine P pe) ((C, [], []), idx, []) =
  (fold_left apply_entry P (C, [], []), option_map (remove_all (targets P)) idx, new_docs (len C) P pe).
Proof. intros Hl. exact (vapply_fold P pe (C, [], []) idx [] Hl). Qed.

Lemma new_docs_app P : forall b pe Q qe,
  length pe = length P ->
  new_docs b (P ++ Q) (pe ++ qe) = new_docs b P pe ++ new_docs (b + count_ins P) Q qe.
Proof.
  induction P as [|[seq e] P IH]; intros b pe Q qe Hl.
  - destruct pe; [|discriminate]. rewrite count_ins_nil, N.add_0_r. reflexivity.
  - destruct pe as [|oe pe]; [discriminate|]. injection Hl as Hl. cbn [app new_docs]. rewrite count_ins_cons. cbn [snd].
    destruct (is_insert e); rewrite IH by assumption.
    + rewrite <- app_assoc, N.add_assoc. reflexivity.
    + rewrite N.add_0_l. reflexivity.
Qed.

Lemma new_docs_range P : forall b pe d, In d (new_docs b P pe) -> b <= fst d /\ fst d < b + count_ins P.
Proof.
  induction P as [|[seq e] P IH]; intros b pe d Hin; [destruct Hin|].
  destruct pe as [|oe pe]; [destruct Hin|]. cbn [new_docs] in Hin. rewrite count_ins_cons. cbn [snd].
  destruct (is_insert e).
  - apply in_app_or in Hin. destruct Hin as [Hin|Hin].
    + destruct oe; cbn [opt_doc] in Hin; [|destruct Hin]. destruct Hin as [<-|[]]. cbn [fst]. lia.
    + apply IH in Hin. lia.
  - apply IH in Hin. lia.
Qed.

Lemma new_docs_inserts Q : forall b qe,
  Forall (fun se => is_insert (snd se) = true) Q -> length qe = length Q -> new_docs b Q qe = docs_from b qe.
Proof.
  induction Q as [|[seq e] Q IH]; intros b qe HF Hl.
  - destruct qe; [reflexivity|discriminate].
  - destruct qe as [|oe qe]; [discriminate|]. injection Hl as Hl. inversion HF as [|? ? H1 H2]; subst. cbn [snd] in H1.
    cbn [new_docs docs_from]. rewrite H1. f_equal. apply IH; assumption.
Qed.

Definition Inv (s : store) (v : vst) (G : docs) : Prop :=
  K s /\
  length (pemb v) = length (pending s) /\
  Forall (rec_ok (len (committed s))) (pending s) /\
  (pending s <> [] -> dirty s = true) /\
  venabled v = is_some (vmem v) /\
  (vdisk v = vmem v \/ (vdisk v = None /\ vmem v = Some None)) /\
  exists Gc, G = Gc ++ new_docs (len (committed s)) (pending s) (pemb v) /\
             Forall (fun d => fst d < len (committed s)) Gc /\
             mem_docs v = filter (actp (committed s)) Gc.

Definition log_ok (s : store) : Prop :=
  K s /\ Forall (rec_ok (len (committed s))) (pending s) /\ (pending s <> [] -> dirty s = true).

(* vec_enabled follows the manifest; the file has the manifest of the memory, or none yet while
   the memory has the placeholder of enable_vec *)
Definition manifest_ok (v : vst) : Prop :=
  venabled v = is_some (vmem v) /\ (vdisk v = vmem v \/ (vdisk v = None /\ vmem v = Some None)).

(* G is what was given: Gc to the frames of the committed table C, of which the index `mem` holds
   the active ones, and the rest as the embeddings pe of the pending records P *)
Definition tracks (C : list frame) (P : list (N * entry)) (pe : list (option emb)) (mem G : docs) : Prop :=
  length pe = length P /\
  exists Gc, G = Gc ++ new_docs (len C) P pe /\ Forall (fun d => fst d < len C) Gc /\ mem = filter (actp C) Gc.

Lemma Inv_parts s v G :
  Inv s v G <-> log_ok s /\ manifest_ok v /\ tracks (committed s) (pending s) (pemb v) (mem_docs v) G.
Proof. unfold Inv, log_ok, manifest_ok, tracks. tauto. Qed.

Lemma Inv_K s v G : Inv s v G -> K s.
Proof. intros HI. apply Inv_parts in HI. apply HI. Qed.

Lemma Inv_length s v G : Inv s v G -> length (pemb v) = length (pending s).
Proof. intros HI. apply Inv_parts in HI. apply HI. Qed.

Lemma Inv_manifest s v G : Inv s v G -> manifest_ok v.
Proof. intros HI. apply Inv_parts in HI. apply HI. Qed.

(* also with records pending: their documents belong to frames the committed table does not have yet *)
Lemma Inv_expected s v G : Inv s v G -> mem_docs v = expected_docs (committed s) G.
Proof.
  intros HI. apply Inv_parts in HI as (_ & _ & Htr). destruct Htr as (_ & Gc & -> & _ & ->).
  unfold expected_docs. fold (actp (committed s)). rewrite filter_app.
  rewrite (filter_none (actp (committed s)) (new_docs _ _ _)); [symmetry; apply app_nil_r|].
  intros d Hd. apply new_docs_range in Hd. apply act_out. lia.
Qed.

Lemma Inv0 : Inv store0 vst0 [].
Proof.
  apply Inv_parts. split; [|split].
  - split; [reflexivity|]. split; [constructor|intros []; reflexivity].
  - split; [reflexivity|left; reflexivity].
  - split; [reflexivity|]. exists []. split; [reflexivity|]. split; [constructor|reflexivity].
Qed.

Lemma log_ok_commit s extra : log_ok (do_commit s extra).
Proof. split; [reflexivity|]. split; [constructor|intros []; reflexivity]. Qed.

Lemma Inv_same_store s s' v G :
  committed s' = committed s -> pending s' = pending s -> pending_inserts s' = pending_inserts s ->
  (pending s <> [] -> dirty s = true -> dirty s' = true) -> Inv s v G -> Inv s' v G.
Proof.
  intros Hc Hp Hi Hd HI. apply Inv_parts in HI as ((HK & Hrec & Hdirty) & Hrest). apply Inv_parts.
  (* only log_ok looks at the store beyond committed and pending; of it only the dirty clause changes *)
  unfold log_ok, K in *. rewrite Hc, Hp, Hi. split; [|exact Hrest].
  split; [exact HK|]. split; [exact Hrec|]. intros Hne. exact (Hd Hne (Hdirty Hne)).
Qed.

(* in particular the log sequence is not read: bump, and the sequence number doctor sets *)
Lemma Inv_reseq s v G q : Inv s v G -> Inv (reseq s q) v G.
Proof. apply Inv_same_store; auto. Qed.

Lemma clean_quiet s v G : Inv s v G -> dirty s = false -> pending s = [].
Proof.
  intros HI Hd. apply Inv_parts in HI as ((_ & _ & Hdirty) & _).
  destruct (pending s); [reflexivity|]. rewrite Hdirty in Hd; discriminate.
Qed.

Lemma pemb_quiet s v G : Inv s v G -> pending s = [] -> pemb v = [].
Proof.
  intros HI Hp. apply Inv_length in HI. rewrite Hp in HI. destruct (pemb v); [reflexivity|discriminate].
Qed.

Lemma Inv_index s v v' G :
  Inv s v G -> pemb v' = pemb v -> mem_docs v' = mem_docs v -> manifest_ok v' -> Inv s v' G.
Proof.
  intros HI Hp Hm Hok. apply Inv_parts in HI as (Hlog & _ & Htr). apply Inv_parts. rewrite Hp, Hm. auto.
Qed.

Lemma disabled_no_docs v : manifest_ok v -> venabled v = false -> mem_docs v = [].
Proof.
  intros [He _] Hv. unfold mem_docs, mem_index. rewrite He in Hv. destruct (vmem v); [discriminate|reflexivity].
Qed.

Lemma Inv_grow s v G g : Inv s v G -> Inv s (grow g v) G.
Proof.
  intros HI. destruct g; [|exact HI].
  (* persist copies the in-memory manifest to the file: only the second clause of manifest_ok moves *)
  apply (Inv_index s v); [exact HI|reflexivity|reflexivity|].
  split; [apply (Inv_manifest s v G HI)|left; reflexivity].
Qed.

Lemma mem_index_enable v : mem_index (enable_vec v) = mem_index v.
Proof. unfold mem_index, enable_vec. cbn [vmem]. destruct (vmem v) as [[d|]|]; reflexivity. Qed.

Lemma Inv_enable s v G : Inv s v G -> Inv s (enable_vec v) G.
Proof.
  intros HI. apply (Inv_index s v); [exact HI|reflexivity|unfold mem_docs; rewrite mem_index_enable; reflexivity|].
  destruct (Inv_manifest s v G HI) as [_ Hd]. unfold manifest_ok, enable_vec. cbn [venabled vmem vdisk].
  destruct (vmem v) eqn:E; [split; [reflexivity|exact Hd]|].
  split; [reflexivity|]. right. destruct Hd as [Hd|[_ Hd]]; [auto|discriminate].
Qed.

Lemma Inv_enable_if s v G b : Inv s v G -> Inv s (enable_if b v) G.
Proof. intros H. unfold enable_if. destruct b, (venabled v); try exact H. apply Inv_enable; exact H. Qed.

Lemma enable_if_enabled b v : b = true \/ venabled v = true -> venabled (enable_if b v) = true.
Proof.
  unfold enable_if. intros [->|H].
  - destruct (venabled v) eqn:E; [exact E|reflexivity].
  - destruct b; [rewrite H|]; exact H.
Qed.

Lemma enable_if_rest b v : pemb (enable_if b v) = pemb v /\ mem_index (enable_if b v) = mem_index v.
Proof. unfold enable_if. destruct b, (venabled v); split; try reflexivity. apply mem_index_enable. Qed.

Lemma Inv_load s v G : Inv s v G -> Inv s (load v) G.
Proof.
  intros HI. apply (Inv_index s v); [exact HI|reflexivity| |split; [reflexivity|left; reflexivity]].
  unfold mem_docs, mem_index, load. cbn [vmem]. destruct (Inv_manifest s v G HI) as [_ [Hd|[Hd Hm]]].
  - rewrite Hd. reflexivity.
  - (* none on file, the placeholder in memory: no documents either way *) rewrite Hd, Hm. reflexivity.
Qed.

(* build_vec_artifact yields nothing with vec disabled: the same, when there was nothing to keep or to add *)
Lemma mem_docs_rebuild v C idx nd :
  (venabled v = false -> docs_of idx = [] /\ nd = []) ->
  mem_docs (rebuild_indexes v C idx nd) = filter (actp C) (docs_of idx) ++ nd.
Proof.
  intros H. unfold rebuild_indexes, build_vec_artifact. destruct (venabled v); [reflexivity|].
  destruct H as [-> ->]; reflexivity.
Qed.

Lemma rebuild_rest v C idx nd :
  pemb (rebuild_indexes v C idx nd) = pemb v /\ manifest_ok (rebuild_indexes v C idx nd).
Proof.
  unfold rebuild_indexes, build_vec_artifact.
  destruct (venabled v); (split; [reflexivity|split; [reflexivity|left; reflexivity]]).
Qed.

Lemma tracks_mem_active C P pe mem G : tracks C P pe mem G -> filter (actp C) mem = mem.
Proof. intros (_ & Gc & _ & _ & ->). apply filter_filter_mono. auto. Qed.

(* rebuild_indexes(&[], &[]) of vacuum and doctor, run with the flags of v0: v itself, or v with
   vec forced on as doctor's vector rebuild does since 83a83e8 *)
Lemma Inv_rebuild s v v0 G :
  Inv s v G -> pemb v0 = pemb v -> (venabled v0 = false -> venabled v = false) ->
  Inv s (rebuild_indexes v0 (committed s) (mem_index v) []) G.
Proof.
  intros HI Hp Hen. destruct (rebuild_rest v0 (committed s) (mem_index v) []) as [Hp' Hok].
  apply (Inv_index s v); [exact HI|congruence| |exact Hok].
  pose proof HI as HI'. apply Inv_parts in HI' as (_ & Hman & Htr).
  rewrite mem_docs_rebuild, app_nil_r.
  - apply (tracks_mem_active _ _ _ _ _ Htr).
  - intros Hv. split; [apply (disabled_no_docs v Hman), Hen, Hv|reflexivity].
Qed.

Lemma Inv_vacuum s v G : Inv s v G -> Inv s (rebuild_indexes v (committed s) (mem_index v) []) G.
Proof. intros HI. apply (Inv_rebuild s v v G HI eq_refl). auto. Qed.

Lemma tracks_append C P pe mem G sq e oe :
  tracks C P pe mem G ->
  tracks C (P ++ [(sq, e)]) (pe ++ [oe]) mem (G ++ if is_insert e then opt_doc (len C + count_ins P) oe else []).
Proof.
  intros (Hlen & Gc & -> & HGc & Hmem). split; [rewrite !app_length, Hlen; reflexivity|].
  exists Gc. split; [|split; assumption].
  rewrite (new_docs_app P (len C) pe [(sq, e)] [oe] Hlen), <- app_assoc. cbn [new_docs].
  destruct (is_insert e); [rewrite app_nil_r|]; reflexivity.
Qed.

Lemma Inv_append s v G e oe :
  Inv s v G -> tgt_lt (len (committed s)) e -> is_lex e = false ->
  Inv (fst (append s e)) (add_pemb v [oe]) (G ++ (if is_insert e then opt_doc (next_frame_id s) oe else [])).
Proof.
  intros HI Ht Hlex. apply Inv_parts in HI as ((HK & Hrec & _) & Hman & Htr). apply Inv_parts.
  split; [|split; [exact Hman|]].
  - split; [apply K_append, HK|]. split; [|reflexivity].
    apply Forall_app. split; [exact Hrec|]. repeat constructor; assumption.
  - unfold next_frame_id. rewrite HK. exact (tracks_append _ _ _ _ _ (seqno s + 1) e oe Htr).
Qed.

Lemma Inv_append_insert s v G e oe :
  Inv s v G -> is_insert e = true -> tgt_lt (len (committed s)) e ->
  Inv (fst (append s e)) (add_pemb v [oe]) (G ++ opt_doc (next_frame_id s) oe).
Proof.
  intros HI Hins Ht. pose proof (Inv_append s v G e oe HI Ht) as H. rewrite Hins in H.
  apply H. destruct e; try discriminate; reflexivity.
Qed.

Lemma add_pemb_add v a b : add_pemb (add_pemb v a) b = add_pemb v (a ++ b).
Proof. unfold add_pemb. cbn [venabled vmem vdisk pemb]. rewrite app_assoc. reflexivity. Qed.

Lemma Inv_append_chunks n : forall s v G ps uk tag i l,
  Inv s v G -> length l = n ->
  Inv (append_chunks s ps uk tag i n) (add_pemb v l) (G ++ docs_from (next_frame_id s) l).
Proof.
  induction n as [|n IH]; intros s v G ps uk tag i l HI Hl.
  - destruct l; [|discriminate]. cbn [append_chunks docs_from]. rewrite app_nil_r.
    apply (Inv_index s v); [exact HI|apply app_nil_r|reflexivity|exact (Inv_manifest s v G HI)].
  - destruct l as [|oe l]; [discriminate|]. injection Hl as Hl. cbn [append_chunks docs_from].
    match goal with |- context [append s ?e] => set (e0 := e) end.
    change (let '(s', _) := append s e0 in append_chunks s' ps uk tag (S i) n)
      with (append_chunks (fst (append s e0)) ps uk tag (S i) n).
    rewrite app_assoc, <- (next_frame_id_append s e0 : _ = next_frame_id s + 1).
    change (oe :: l) with ([oe] ++ l). rewrite <- add_pemb_add.
    apply IH; [|exact Hl]. apply (Inv_append_insert s v G e0 oe HI); [reflexivity|intros t []].
Qed.

Lemma Inv_put s v G u tag role m uk n l oe :
  Inv s v G -> length l = n ->
  let e := EInsert u tag role m None None None in
  Inv (append_chunks (fst (append s e)) (snd (append s e)) uk tag 0 n) (add_pemb v (oe :: l))
      (G ++ docs_from (next_frame_id s) (oe :: l)).
Proof.
  intros HI Hl e. cbn [docs_from].
  rewrite app_assoc, <- (next_frame_id_append s e : _ = next_frame_id s + 1).
  change (oe :: l) with ([oe] ++ l). rewrite <- add_pemb_add.
  apply Inv_append_chunks; [|exact Hl]. apply (Inv_append_insert s v G e oe HI); [reflexivity|intros t []].
Qed.

Lemma embedding_for_filter (p : N -> bool) (l : docs) t :
  embedding_for (filter (fun d => p (fst d)) l) t = if p t then embedding_for l t else None.
Proof.
  induction l as [|[a e] l IH]; cbn [filter fst embedding_for]; [destruct (p t); reflexivity|].
  destruct (N.eqb_spec a t) as [->|Hne].
  - destruct (p t); cbn [embedding_for]; [rewrite N.eqb_refl; reflexivity|exact IH].
  - destruct (p a); cbn [embedding_for]; [rewrite (proj2 (N.eqb_neq a t) Hne)|]; exact IH.
Qed.

Lemma embedding_for_expected R G f :
  embedding_for (expected_docs R G) f = if frame_is_active R f then embedding_for G f else None.
Proof. apply (embedding_for_filter (frame_is_active R)). Qed.

(* update_frame without an explicit embedding: what frame_embedding answers is what the old frame was given *)
Lemma carried_is_given s v G target :
  Inv s v G -> frame_is_active (committed s) target = true ->
  (if venabled v then embedding_for (mem_docs v) target else None) = embedding_for G target.
Proof.
  intros HI Hact.
  assert (Hf : embedding_for (mem_docs v) target = embedding_for G target)
    by (rewrite (Inv_expected s v G HI), embedding_for_expected, Hact; reflexivity).
  destruct (venabled v) eqn:Ev; [exact Hf|].
  rewrite <- Hf, (disabled_no_docs v (Inv_manifest s v G HI) Ev). reflexivity.
Qed.

(* commit_from_records / recover_wal *)
Lemma tracks_commit C P pe mem G :
  Forall (rec_ok (len C)) P -> tracks C P pe mem G ->
  tracks (apply_records C P) [] []
         (filter (actp (apply_records C P)) (remove_all (targets P) mem) ++ new_docs (len C) P pe) G.
Proof.
  intros HP (_ & Gc & -> & HGc & ->).
  set (C' := apply_records C P). set (nd := new_docs (len C) P pe).
  assert (HlenC' : len C' = len C + count_ins P) by apply apply_records_len.
  assert (Hnew : forall d, In d nd -> fst d < len C' /\ actp C' d = true).
  { intros d Hd. apply new_docs_range in Hd. split; [lia|]. apply apply_records_act_new; [|lia].
    eapply Forall_impl; [|exact HP]. intros se [H _]. exact H. }
  rewrite Forall_forall in HGc.
  split; [reflexivity|]. exists (Gc ++ nd). cbn [new_docs]. rewrite app_nil_r. split; [reflexivity|]. split.
  - apply Forall_forall. intros d Hd. apply in_app_or in Hd as [Hd|Hd]; [apply HGc in Hd; lia|apply Hnew, Hd].
  - rewrite filter_app, (filter_all _ nd) by (intros d Hd; apply Hnew, Hd). f_equal. unfold actp.
    rewrite (filter_remove_all (frame_is_active C')).
    + (* what is active afterwards was active before *)
      apply filter_filter_mono. intros d Hd H.
      unfold C' in H. rewrite apply_records_act_old in H by (apply HGc, Hd). apply andb_prop in H. apply H.
    + (* a superseded or deleted frame is not active afterwards *)
      intros t Ht. unfold C'. rewrite apply_records_act_old by (apply (targets_lt _ P); assumption).
      rewrite (proj2 (existsb_eqb_In _ N.eqb_eq t _) Ht). apply andb_false_r.
Qed.

(* the end of commit_from_records: rewrite_toc_footer, and the applied records leave the log *)
Definition flushed (v : vst) : vst := mkV (venabled v) (vmem v) (vmem v) [].

Lemma flushed_rest v : manifest_ok v -> manifest_ok (flushed v) /\ mem_docs (flushed v) = mem_docs v.
Proof. intros [He _]. split; [split; [exact He|left; reflexivity]|reflexivity]. Qed.

Lemma vcommit_unfixed_eq C P v :
  length (pemb v) = length P ->
  vcommit_unfixed C P v =
  flushed (if delta_nonempty P
           then rebuild_indexes v (apply_records C P) (option_map (remove_all (targets P)) (mem_index v)) (new_docs (len C) P (pemb v))
           else v).
Proof. intros Hl. unfold vcommit_unfixed. rewrite (vapply_commit _ _ _ _ Hl). reflexivity. Qed.

(* commit_from_records as repaired (8099cac) is the earlier one run after the enable_vec it lacked *)
Lemma vcommit_as_unfixed C P v :
  length (pemb v) = length P ->
  vcommit C P v = vcommit_unfixed C P (enable_if (negb (is_nil (new_docs (len C) P (pemb v)))) v).
Proof.
  intros Hl. unfold vcommit, vcommit_unfixed.
  destruct (enable_if_rest (negb (is_nil (new_docs (len C) P (pemb v)))) v) as [-> ->].
  rewrite !(vapply_commit _ _ _ _ Hl). unfold enable_if.
  destruct (is_nil _), (venabled v); reflexivity.
Qed.

Lemma delta_nonempty_ok b P : Forall (rec_ok b) P -> delta_nonempty P = match P with [] => false | _ => true end.
Proof.
  destruct P as [|se P]; [reflexivity|]. intros HF. inversion HF as [|? ? [_ H1] _]; subst.
  unfold delta_nonempty. cbn [existsb]. rewrite H1. reflexivity.
Qed.

(* the side condition is what the enable_vec of the repaired commit provides (vcommit_as_unfixed) *)
Lemma Inv_commit_core s v G extra :
  Inv s v G -> (venabled v = false -> new_docs (len (committed s)) (pending s) (pemb v) = []) ->
  Inv (do_commit s extra) (vcommit_unfixed (committed s) (pending s) v) G.
Proof.
  intros HI Hdis. apply Inv_parts in HI as ((_ & Hrec & _) & Hman & Htr).
  apply Inv_parts. split; [apply log_ok_commit|].
  rewrite vcommit_unfixed_eq, (delta_nonempty_ok _ _ Hrec) by apply Htr.
  unfold do_commit, view. cbn [committed pending].
  destruct (pending s) as [|se P] eqn:EP; [|rewrite <- EP in *].
  - split; [apply flushed_rest, Hman|].
    revert Htr. destruct (pemb v); intros Htr; [exact Htr|discriminate (proj1 Htr)].
  - match goal with |- context [flushed ?x] => destruct (flushed_rest x) as [Hok ->] end; [apply rebuild_rest|].
    split; [exact Hok|]. rewrite mem_docs_rebuild, docs_of_map_remove.
    + apply tracks_commit; assumption.
    + intros Hv. rewrite docs_of_map_remove. fold (mem_docs v). rewrite (disabled_no_docs v Hman Hv).
      split; [apply remove_all_nil|apply Hdis, Hv].
Qed.

Lemma Inv_commit s v G extra :
  Inv s v G -> Inv (do_commit s extra) (vcommit (committed s) (pending s) v) G.
Proof.
  intros HI. rewrite vcommit_as_unfixed by apply (Inv_length s v G HI).
  set (nd := new_docs _ _ _). apply Inv_commit_core; [apply Inv_enable_if, HI|].
  rewrite (proj1 (enable_if_rest _ v)). fold nd. destruct nd; [reflexivity|].
  intros Hv. rewrite enable_if_enabled in Hv by (left; reflexivity). discriminate.
Qed.

Lemma Inv_auto s v G auto : Inv s v G -> Inv (auto_commit s auto) (vauto s auto v) G.
Proof. intros HI. destruct auto; [apply Inv_commit|]; exact HI. Qed.

(* commit() as Memvid::commit, Drop and doctor call it: a clean memory has nothing to write *)
Definition vsettle (s : store) (v : vst) : vst := if dirty s then vcommit (committed s) (pending s) v else v.

(* The calls that log nothing, in normal form (their store half: sstep_reopen, sstep_crash, sstep_doctor
   of StoreProofs).  Inv is needed for two facts only: a clean store has nothing pending, and an empty
   log carries no embeddings. *)
Lemma vtrans_quiet s v G op i :
  Inv s v G ->
  vtrans s op i v =
  match op with
  | OCommit _ => let v1 := vsettle s v in if info_vacuum i then rebuild_indexes v1 (view s) (mem_index v1) [] else v1
  | OReopen _ => load (vsettle s v)
  | OCrash _ => vcommit (committed s) (pending s) (load v)
  | ODoctor _ => load (doctor_vec (info_bits i) (view s) (load (vsettle s v)))
  | _ => vtrans s op i v
  end.
Proof.
  intros HI. pose proof (clean_quiet s v G HI) as Hq.
  destruct op as [| | |e|e|e|q]; try reflexivity; unfold vtrans, vsettle.
  - destruct (dirty s) eqn:Ed; [destruct (pending s); reflexivity|rewrite (Hq eq_refl); reflexivity].
  - destruct (dirty s) eqn:Ed; [reflexivity|]. cbn [bump pending]. rewrite (Hq eq_refl). reflexivity.
  - destruct (pending s) eqn:Ep; [|reflexivity]. unfold vcommit, load. rewrite (pemb_quiet s v G HI Ep). reflexivity.
  - destruct (dirty s) eqn:Ed; [reflexivity|rewrite (Hq eq_refl); reflexivity].
Qed.

Lemma Inv_settle s v G e :
  Inv s v G ->
  Inv (fst (sstep s (OCommit e))) (vsettle s v) G /\ committed (fst (sstep s (OCommit e))) = view s.
Proof.
  intros HI. unfold vsettle. cbn [sstep fst]. destruct (dirty s) eqn:Ed.
  - destruct (pending s) eqn:Ep; rewrite <- Ep; (split; [apply Inv_commit, HI|reflexivity]).
  - pose proof (clean_quiet s v G HI Ed) as Ep. rewrite Ep.
    split; [exact (Inv_reseq s v G _ HI)|exact (eq_sym (quiescent_committed s Ep))].
Qed.

(* doctor on a closed file: every phase is a rebuild_indexes(&[], &[]) *)
Lemma Inv_doctor_vec s v G bits : Inv s v G -> Inv s (doctor_vec bits (committed s) v) G.
Proof.
  intros HI. unfold doctor_vec. set (v1 := if bit bits 3 then _ else v).
  assert (H1 : Inv s v1 G) by (subst v1; destruct (bit bits 3); [apply Inv_vacuum|]; exact HI).
  destruct (bit bits 2); [|destruct (_ || _); [apply Inv_vacuum|]; exact H1].
  (* rebuild_vec_index: the rebuild runs with vec forced on, so nothing is dropped *)
  apply (Inv_rebuild s v1 (mkV true (vmem v1) (vdisk v1) (pemb v1)) G H1 eq_refl). discriminate.
Qed.

Lemma chunk_embs_length c n : length (chunk_embs c n) = n.
Proof. unfold chunk_embs. rewrite map_length, seq_length. reflexivity. Qed.

Lemma given_other R G op i o :
  match op with OPut _ _ _ _ _ | OUpdate _ _ _ _ => False | _ => True end -> given_step R G (VOp op i, o) = G.
Proof.
  intros H. unfold given_step. destruct (negb (acked (fst o))); [reflexivity|].
  destruct op; try reflexivity; destruct H.
Qed.

Lemma vtrans_inv s v R G op i ob :
  J s R -> Inv s v G ->
  Inv (fst (sstep s op)) (vtrans s op i v) (given_step R G (VOp op i, (snd (sstep s op), ob))).
Proof.
  intros HJ HI.
  pose proof (next_frame_id_is_view_length s R HJ (Inv_K s v G HI)) as Hnid.
  rewrite (vtrans_quiet s v G op i HI).
  destruct op as [uk tag nchunks role auto|target newtag uk auto|target auto|extra|extra|extra|newseq];
    try rewrite given_other by exact I; unfold vtrans; cbn [no_auto].
  - (* put *)
    cbn [sstep given_step fst snd auto_commit negb]. rewrite <- Hnid.
    apply Inv_auto, Inv_grow, Inv_put; [apply Inv_enable_if, HI|].
    rewrite map_length. apply chunk_embs_length.
  - (* update *)
    cbn [sstep]. unfold accepted.
    destruct (get (committed s) target) as [old|] eqn:Eg; [|exact HI].
    destruct (f_status old =? 0) eqn:Est; [|exact HI].
    assert (Hact : frame_is_active (committed s) target = true) by (unfold frame_is_active; rewrite Eg; exact Est).
    cbn [given_step fst snd auto_commit negb].
    rewrite <- (carried_is_given s v G target HI Hact), <- Hnid.
    apply Inv_auto, Inv_grow, Inv_append_insert; [apply Inv_enable_if, HI|destruct newtag; reflexivity|].
    destruct newtag; intros t [<-|[]]; apply act_lt, Hact.
  - (* delete *)
    cbn [sstep]. unfold accepted.
    destruct (get (committed s) target) as [old|] eqn:Eg; [|exact HI].
    destruct (f_status old =? 0) eqn:Est; [|exact HI].
    assert (Hact : frame_is_active (committed s) target = true) by (unfold frame_is_active; rewrite Eg; exact Est).
    cbn [fst snd auto_commit negb]. apply Inv_auto, Inv_grow.
    rewrite <- (app_nil_r G). apply (Inv_append s v G (ETomb target) None HI); [|reflexivity].
    intros t [<-|[]]. apply act_lt, Hact.
  - destruct (Inv_settle s v G extra HI) as [H1 <-]. cbv zeta.
    destruct (info_vacuum i); [apply Inv_vacuum|]; exact H1.
  - rewrite sstep_reopen. apply Inv_load, Inv_settle, HI.
  - rewrite sstep_crash. apply Inv_commit, Inv_load, HI.
  - rewrite sstep_doctor. destruct (Inv_settle s v G 0 HI) as [H1 <-].
    apply Inv_reseq, Inv_load, Inv_doctor_vec, Inv_load, H1.
Qed.

Fixpoint vrun_ok (R : list frame) (xs : list (vop * vout)) : bool :=
  match xs with
  | [] => true
  | x :: r =>
      match sop_of x with
      | Some y => ref_ok R y && vrun_ok (ref_step R y) r
      | None => vrun_ok R r
      end
  end.

Lemma vrun_cons st x ops :
  vrun st (x :: ops) = (fst (vrun (fst (vstep st x)) ops), snd (vstep st x) :: snd (vrun (fst (vstep st x)) ops)).
Proof. cbn [vrun]. destruct (vstep st x) as [st1 o]. cbn [fst snd]. destruct (vrun st1 ops). reflexivity. Qed.

Lemma vstep_op s v op i :
  vstep (s, v) (VOp op i) = ((fst (sstep s op), vtrans s op i v), (snd (sstep s op), observe_vec (vtrans s op i v))).
Proof. cbn [vstep]. destruct (sstep s op). reflexivity. Qed.

Theorem vrun_inv : forall ops s v R G,
  J s R -> Inv s v G ->
  vrun_ok R (combine ops (snd (vrun (s, v) ops))) = true ->
  J (fst (fst (vrun (s, v) ops))) (fst (vref_run (R, G) (combine ops (snd (vrun (s, v) ops))))) /\
  Inv (fst (fst (vrun (s, v) ops))) (snd (fst (vrun (s, v) ops))) (snd (vref_run (R, G) (combine ops (snd (vrun (s, v) ops))))).
Proof.
  unfold vref_run. induction ops as [|x ops IH]; intros s v R G HJ HI Hok; [cbn; auto|].
  rewrite vrun_cons in *. cbn [fst snd combine fold_left] in *.
  destruct x as [op i|].
  - rewrite vstep_op in *. cbn [fst snd vrun_ok sop_of vref_step] in *.
    apply andb_true_iff in Hok as [H1 H2].
    apply IH; [|apply vtrans_inv; assumption|exact H2].
    pose proof (sstep_refines s R op HJ) as HS. destruct (sstep s op). exact (HS H1).
  - cbn [vstep fst snd vrun_ok sop_of vref_step given_step] in *.
    apply IH; [exact HJ| |exact Hok]. apply Inv_enable.
    apply (Inv_same_store s); [reflexivity|reflexivity|reflexivity|intros _ _; reflexivity|exact HI].
Qed.

(* C14: whenever nothing is pending (after commit, reopen, replay, vacuum, doctor, automatic
   checkpoint) the index holds exactly the embeddings given to the active frames, in frame order *)
Theorem membership ops :
  let r := vrun vstate0 ops in
  let s := fst (fst r) in let v := snd (fst r) in
  let xs := combine ops (snd r) in
  let R := fst (vref_run ([], []) xs) in let G := snd (vref_run ([], []) xs) in
  vrun_ok [] xs = true -> pending s = [] ->
  committed s = R /\ mem_docs v = expected_docs R G /\
  (venabled v = false -> expected_docs R G = []).
Proof.
  intros r s v xs R G Hok Hp.
  destruct (vrun_inv ops store0 vst0 [] [] J_store0 Inv0 Hok) as [HJ HI]. fold r s v xs R G in HJ, HI.
  assert (HC : committed s = R) by (rewrite <- (quiescent_committed s Hp); apply J_view; exact HJ).
  pose proof (Inv_expected s v G HI) as Hm. rewrite HC in Hm.
  split; [exact HC|]. split; [exact Hm|].
  intros Hv. rewrite <- Hm. apply (disabled_no_docs v (Inv_manifest s v G HI) Hv).
Qed.

(* before 83a83e8: doctor with rebuild_vec_index always left an enabled, empty index *)
Lemma doctor_vec_wipes_unfixed bits frames v :
  bit bits 2 = true ->
  mem_docs (load (doctor_vec_unfixed bits frames v)) = [] /\ venabled (load (doctor_vec_unfixed bits frames v)) = true.
Proof. intros H. unfold doctor_vec_unfixed. rewrite H. split; reflexivity. Qed.
