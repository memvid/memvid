(* Proofs about Model/Adaptive.v that do not depend on what a score is: they hold for EVERY
   score type and EVERY interpretation of the operations in `fops` (in particular for IEEE
   floats with NaN, infinities and signed zeros).  `cutoff_of` is find_adaptive_cutoff without its
   Panic; `abs_cut` is where the scan of find_absolute_cutoff stops, and both threshold strategies
   are that scan on every input (threshold_cutoff).  Flocq-free: the assumption list of every
   theorem here is empty. *)
From MV Require Import Base.Prelude Model.Adaptive.

Lemma map_const {A B} (c : B) (l : list A) : map (fun _ => c) l = repeat c (length l).
Proof. induction l as [|x l IH]; cbn [map length repeat]; [reflexivity | rewrite IH; reflexivity]. Qed.

Section Generic.
  Context {F : Type} (O : fops F).

  Definition normalize_one (scores : list F) (s : F) : F :=
    if ltb O (score_range O scores) (f_eps O) then f_one O
    else f_div O (f_sub O s (min_score O scores)) (score_range O scores).

  Lemma normalize_map : forall scores, normalize_scores O scores = map (normalize_one scores) scores.
  Proof.
    intros [|s r]; [reflexivity|]. unfold normalize_scores, normalize_one.
    destruct (ltb O _ _); [symmetry; apply map_const | reflexivity].
  Qed.

  Lemma normalize_length : forall scores, length (normalize_scores O scores) = length scores.
  Proof. intros scores. rewrite normalize_map. apply map_length. Qed.

  Lemma normalized_of_length : forall scores cfg, length (normalized_of O scores cfg) = length scores.
  Proof. intros scores cfg. unfold normalized_of. destruct (cfg_normalize cfg); [apply normalize_length|reflexivity]. Qed.

  Lemma normalize_flat : forall scores,
    f_ltb O (score_range O scores) (f_eps O) = true ->
    normalize_scores O scores = repeat (f_one O) (length scores).
  Proof. intros scores H. rewrite normalize_map. unfold normalize_one, ltb. rewrite H. apply map_const. Qed.

  Definition abs_cut (thr : F) (m i : nat) (l : list F) : nat :=
    match abs_loop O thr m i l with Some k => k | None => (i + length l)%nat end.

  Lemma abs_cut_cons thr m i s r :
    abs_cut thr m i (s :: r) = if ltb O s thr && (m <=? i)%nat then i else abs_cut thr m (S i) r.
  Proof.
    unfold abs_cut. cbn [abs_loop length]. destruct (ltb O s thr && (m <=? i)%nat); [reflexivity|].
    destruct (abs_loop O thr m (S i) r); [reflexivity|lia].
  Qed.

  Lemma abs_cut_spec thr m d l : forall i,
    (i <= abs_cut thr m i l <= i + length l)%nat /\
    ((abs_cut thr m i l < i + length l)%nat ->
     (m <= abs_cut thr m i l)%nat /\ ltb O (nth (abs_cut thr m i l - i) l d) thr = true) /\
    (forall j, (i <= j < abs_cut thr m i l)%nat -> (m <= j)%nat -> ltb O (nth (j - i) l d) thr = false).
  Proof.
    induction l as [|s r IH]; intros i.
    - unfold abs_cut. cbn [abs_loop length]. repeat split; intros; lia.
    - rewrite abs_cut_cons. cbn [length]. destruct (ltb O s thr && (m <=? i)%nat) eqn:E.
      + apply andb_true_iff in E as [E1 E2]. apply Nat.leb_le in E2.
        rewrite Nat.sub_diag. split; [lia|]. split; [intros _; split; [lia|exact E1]|intros; lia].
      + destruct (IH (S i)) as (B1 & B2 & B3). set (c := abs_cut thr m (S i) r) in *. split; [lia|]. split.
        * intros Hc. destruct B2 as [B2 B2']; [lia|]. split; [exact B2|].
          replace (c - i)%nat with (S (c - S i)) by lia. exact B2'.
        * intros j Hj Hm. destruct (Nat.eq_dec j i) as [->|Hne].
          -- (* the scan went past i although m <= i: the score at i is not below the threshold *)
             rewrite Nat.sub_diag. cbn [nth]. destruct (ltb O s thr); [|reflexivity].
             apply Nat.leb_gt in E. lia.
          -- replace (j - i)%nat with (S (j - S i)) by lia. apply B3; lia.
  Qed.

  Lemma find_absolute_cutoff_fst scores thr m : fst (find_absolute_cutoff O scores thr m) = abs_cut thr m 0 scores.
  Proof. unfold find_absolute_cutoff, abs_cut. destruct (abs_loop O thr m 0 scores); reflexivity. Qed.

  Lemma find_absolute_cutoff_spec : forall scores thr m d,
    let c := fst (find_absolute_cutoff O scores thr m) in
    (c <= length scores)%nat /\
    (c < length scores -> (m <= c)%nat /\ ltb O (nth c scores d) thr = true)%nat /\
    (forall j, (m <= j)%nat -> (j < c)%nat -> ltb O (nth j scores d) thr = false).
  Proof.
    intros scores thr m d c. unfold c. rewrite find_absolute_cutoff_fst. destruct (abs_cut_spec thr m d scores 0) as (B1 & B2 & B3).
    rewrite Nat.sub_0_r in B2. split; [lia|]. split; [exact B2|].
    intros j Hm Hj. rewrite <- (Nat.sub_0_r j). apply B3; lia.
  Qed.

  Lemma find_absolute_cutoff_bounds scores thr m :
    (m <= length scores)%nat -> (m <= fst (find_absolute_cutoff O scores thr m) <= length scores)%nat.
  Proof.
    intros Hm. (* thr serves only as the default of nth *)
    pose proof (find_absolute_cutoff_spec scores thr m thr) as H. cbv zeta in H.
    destruct H as (H1 & H2 & _). lia.
  Qed.

  Lemma find_absolute_cutoff_label : forall scores thr m,
    snd (find_absolute_cutoff O scores thr m) = T_ABSOLUTE_THRESHOLD \/
    (snd (find_absolute_cutoff O scores thr m) = T_NO_CUTOFF /\
     fst (find_absolute_cutoff O scores thr m) = length scores).
  Proof.
    intros. unfold find_absolute_cutoff. destruct (abs_loop O thr m 0 scores); cbn [fst snd]; auto.
  Qed.

  Lemma cliff_loop_some : forall md m l i prev k,
    cliff_loop O md m i prev l = Some k -> (i <= k < i + length l)%nat /\ (m <= k)%nat.
  Proof.
    intros md m l. induction l as [|curr r IH]; intros i prev k H; cbn [cliff_loop length] in *.
    - discriminate.
    - destruct (i <? m)%nat eqn:E.
      + apply IH in H. lia.
      + apply Nat.ltb_ge in E. destruct (is_cliff O md prev curr).
        * inversion H; subst. lia.
        * apply IH in H. lia.
  Qed.

  Lemma find_cliff_cutoff_bounds : forall scores md m,
    (m <= length scores)%nat ->
    (m <= fst (find_cliff_cutoff O scores md m) <= length scores)%nat.
  Proof.
    intros [|s0 r] md m Hm; unfold find_cliff_cutoff; cbn [fst length] in *; [lia|].
    destruct (cliff_loop O md m 1 s0 r) as [k|] eqn:E; cbn [fst length].
    - apply cliff_loop_some in E. lia.
    - lia.
  Qed.

  Lemma comb_loop_some : forall rel md am m l i prev k t,
    comb_loop O rel md am m i prev l = Some (k, t) -> (i <= k < i + length l)%nat /\ (m <= k)%nat.
  Proof.
    intros rel md am m l. induction l as [|s r IH]; intros i prev k t H; cbn [comb_loop length] in *.
    - discriminate.
    - destruct (i <? m)%nat eqn:E.
      + apply IH in H. lia.
      + apply Nat.ltb_ge in E.
        destruct (ltb O s am); [inversion H; subst; lia|].
        destruct (ltb O s rel); [inversion H; subst; lia|].
        destruct (match prev with Some p => is_cliff O md p s | None => false end);
          [inversion H; subst; lia|].
        apply IH in H. lia.
  Qed.

  Lemma find_combined_cutoff_bounds : forall scores top rel md am m,
    (m <= length scores)%nat ->
    (m <= fst (find_combined_cutoff O scores top rel md am m) <= length scores)%nat.
  Proof.
    intros scores top rel md am m Hm. unfold find_combined_cutoff.
    destruct (comb_loop O (f_mul O top rel) md am m 0 None scores) as [[k t]|] eqn:E; cbn [fst].
    - apply comb_loop_some in E. lia.
    - lia.
  Qed.

  Lemma elbow_loop_index n sens x1 y1 x2 y2 ll cnt : forall i l md e,
    snd (elbow_loop O n sens x1 y1 x2 y2 ll cnt i l md e) = e \/
    (i <= snd (elbow_loop O n sens x1 y1 x2 y2 ll cnt i l md e) < i + cnt)%nat.
  Proof.
    induction cnt as [|c IH]; intros i l md e; cbn [elbow_loop]; [left; reflexivity|].
    destruct l as [|y0 r]; [left; reflexivity|].
    match goal with |- context [if ?b then _ else _] => destruct b end.
    - (* a new maximum at i *)
      match goal with |- context [elbow_loop O n sens x1 y1 x2 y2 ll c (S i) r ?md' i] =>
        specialize (IH (S i) r md' i) end. lia.
    - specialize (IH (S i) r md e). lia.
  Qed.

  (* `elbow_index + 1 <= n`: the loop ranges over min_results .. n-1 and the caller guarantees
     min_results < n *)
  Lemma find_elbow_cutoff_bounds : forall scores sens m,
    (m < length scores)%nat ->
    (m <= fst (find_elbow_cutoff O scores sens m) <= length scores)%nat.
  Proof.
    intros scores sens m Hm. unfold find_elbow_cutoff.
    destruct (length scores <? 3)%nat; cbn [fst]; [lia|].
    (* line_len < EPSILON: flat curve, everything kept *)
    match goal with |- context [if ?b then _ else _] => destruct b end; cbn [fst]; [lia|].
    match goal with |- context [elbow_loop O ?n ?s ?x1 ?y1 ?x2 ?y2 ?ll ?cnt ?i ?l ?md ?e] =>
      pose proof (elbow_loop_index n s x1 y1 x2 y2 ll cnt i l md e) as Hidx;
      destruct (elbow_loop O n s x1 y1 x2 y2 ll cnt i l md e) as [mx idx] end.
    cbn [snd] in Hidx.
    (* max_distance > 0.05 * sensitivity: cut after the elbow, else keep everything *)
    match goal with |- context [if ?b then _ else _] => destruct b end; cbn [fst]; lia.
  Qed.

  (* the dispatch on the strategy at the end of find_adaptive_cutoff *)
  Definition strategy_result (normalized : list F) (top : F) (s : strategy F) (m : nat) : nat * N :=
    match s with
    | AbsoluteThreshold min_score => find_absolute_cutoff O normalized min_score m
    | RelativeThreshold min_ratio => find_absolute_cutoff O normalized (f_mul O top min_ratio) m
    | ScoreCliff max_drop => find_cliff_cutoff O normalized max_drop m
    | Elbow sens => find_elbow_cutoff O normalized sens m
    | Combined rel drop absmin => find_combined_cutoff O normalized top rel drop absmin m
    end.

  Lemma strategy_result_bounds : forall normalized top s m,
    (m < length normalized)%nat ->
    (m <= fst (strategy_result normalized top s m) <= length normalized)%nat.
  Proof.
    intros normalized top s m Hm.
    destruct s; cbn [strategy_result].
    - apply find_absolute_cutoff_bounds. lia.
    - apply find_absolute_cutoff_bounds. lia.
    - apply find_cliff_cutoff_bounds. lia.
    - apply find_elbow_cutoff_bounds. exact Hm.
    - apply find_combined_cutoff_bounds. lia.
  Qed.

  (* `top_score` is read as threshold_of reads it: normalized[0] with a default *)
  Lemma strategy_result_threshold : forall normalized s m thr,
    threshold_of O normalized s = Some thr ->
    strategy_result normalized (nth 0 normalized (f_zero O)) s m = find_absolute_cutoff O normalized thr m.
  Proof.
    intros normalized s m thr Hthr.
    destruct s; cbn [threshold_of] in Hthr; try discriminate Hthr; injection Hthr as <-; reflexivity.
  Qed.

  (* no Panic: normalization keeps the length, and `normalized[0]` is read only when there are more
     than min_results scores *)
  Definition cutoff_of (scores : list F) (cfg : config F) : nat * N :=
    let normalized := normalized_of O scores cfg in
    match scores with
    | [] => (0%nat, T_NO_RESULTS)
    | _ =>
        if (N.of_nat (length scores) <=? cfg_min_results cfg)%N then (length scores, T_MIN_RESULTS)
        else strategy_result normalized (nth 0 normalized (f_zero O)) (cfg_strategy cfg)
                             (N.to_nat (cfg_min_results cfg))
    end.

  Lemma find_adaptive_cutoff_total : forall scores cfg,
    find_adaptive_cutoff O scores cfg = Ok (cutoff_of scores cfg).
  Proof.
    intros scores cfg. pose proof (normalized_of_length scores cfg) as Hl.
    destruct scores as [|s0 r]; [reflexivity|]. unfold find_adaptive_cutoff, cutoff_of.
    destruct (_ <=? _)%N; [reflexivity|].
    destruct (normalized_of O (s0 :: r) cfg) as [|top rest]; [discriminate Hl | reflexivity].
  Qed.

  Lemma cutoff_of_bounds : forall scores cfg,
    (N.min (cfg_min_results cfg) (N.of_nat (length scores)) <= N.of_nat (fst (cutoff_of scores cfg)))%N /\
    (fst (cutoff_of scores cfg) <= length scores)%nat.
  Proof.
    intros scores cfg. unfold cutoff_of. destruct scores as [|s0 r]; [cbn; lia|].
    destruct (N.leb_spec (N.of_nat (length (s0 :: r))) (cfg_min_results cfg)) as [E|E]; cbn [fst]; [lia|].
    pose proof (strategy_result_bounds (normalized_of O (s0 :: r) cfg) (nth 0 (normalized_of O (s0 :: r) cfg) (f_zero O))
                  (cfg_strategy cfg) (N.to_nat (cfg_min_results cfg))) as Hb.
    rewrite normalized_of_length in Hb. lia.
  Qed.

  Lemma abs_cut_short thr m i l : (i + length l <= m)%nat -> abs_cut thr m i l = (i + length l)%nat.
  Proof.
    intros Hm. destruct (abs_cut_spec thr m thr l i) as (B1 & B2 & _).
    destruct (Nat.eq_dec (abs_cut thr m i l) (i + length l)) as [E|E]; [exact E|]. destruct B2; lia.
  Qed.

  (* the two early exits (no scores; at most min_results scores) are scans that end before
     min_results, and only put their own label on "everything kept" *)
  Lemma threshold_cutoff : forall scores cfg thr,
    threshold_of O (normalized_of O scores cfg) (cfg_strategy cfg) = Some thr ->
    let a := find_absolute_cutoff O (normalized_of O scores cfg) thr (N.to_nat (cfg_min_results cfg)) in
    cutoff_of scores cfg =
    (fst a, match scores with
            | [] => T_NO_RESULTS
            | _ => if (N.of_nat (length scores) <=? cfg_min_results cfg)%N then T_MIN_RESULTS else snd a
            end).
  Proof.
    intros scores cfg thr Hthr a. unfold cutoff_of.
    destruct (N.leb_spec (N.of_nat (length scores)) (cfg_min_results cfg)) as [E|E].
    - unfold a. rewrite find_absolute_cutoff_fst, abs_cut_short by (rewrite normalized_of_length; lia).
      rewrite normalized_of_length. destruct scores; reflexivity.
    - destruct scores as [|s0 r]; [cbn [length] in E; lia|].
      erewrite strategy_result_threshold by exact Hthr. apply surjective_pairing.
  Qed.

  (* C37 (2) (absolute / relative threshold), for any comparison `<`:
     with thr = min_score, resp. thr = normalized[0] * min_ratio as computed by the code,
     (a) no result kept beyond the first min_results is below the threshold,
     (b) if anything is cut, the first cut result is below the threshold (and lies beyond min_results).
     Together with the bounds: the cut-off is the least index >= min_results whose score is below
     the threshold, or n. *)
  Theorem threshold_clauses : forall scores cfg thr c t d,
    threshold_of O (normalized_of O scores cfg) (cfg_strategy cfg) = Some thr ->
    find_adaptive_cutoff O scores cfg = Ok (c, t) ->
    (forall i, (cfg_min_results cfg <= N.of_nat i)%N -> (i < c)%nat ->
               f_ltb O (nth i (normalized_of O scores cfg) d) thr = false) /\
    ((c < length scores)%nat ->
     f_ltb O (nth c (normalized_of O scores cfg) d) thr = true /\ (cfg_min_results cfg <= N.of_nat c)%N).
  Proof.
    intros scores cfg thr c t d Hthr Hrun. rewrite find_adaptive_cutoff_total in Hrun.
    rewrite (threshold_cutoff scores cfg thr Hthr) in Hrun. injection Hrun as <- _.
    destruct (find_absolute_cutoff_spec (normalized_of O scores cfg) thr (N.to_nat (cfg_min_results cfg)) d) as (_ & B2 & B3).
    rewrite normalized_of_length in B2. split.
    - intros i Hi1 Hi2. apply B3; [lia | exact Hi2].
    - intros Hc. destruct (B2 Hc) as [B2a B2b]. split; [exact B2b | lia].
  Qed.
End Generic.
