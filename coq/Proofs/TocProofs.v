(* Toc::decode and Toc::verify_checksum (Model/Toc.v): the three schemas pass schema_ok by
   evaluation, after which every round-trip fact (C30's for the current layout, toc_decode_v2 and
   toc_decode_v1 for the legacy ones) is an instance of codec_roundtrip; a stamped TOC verifies
   because set_checksum replaces field 15 and nothing else. *)
From MV Require Import Base.Prelude Base.Facts Model.Bincode Model.Toc Proofs.BincodeProofs.
Local Open Scope N_scope.

Lemma toc_schema_ok : schema_ok toc_schema = true.
Proof. vm_compute. reflexivity. Qed.
Lemma toc_v2_schema_ok : schema_ok toc_v2_schema = true.
Proof. vm_compute. reflexivity. Qed.
Lemma toc_v1_schema_ok : schema_ok toc_v1_schema = true.
Proof. vm_compute. reflexivity. Qed.

(* the fallback is tried only when the current layout errs: hence the second hypothesis *)
Theorem toc_decode_v2 v :
  wt toc_v2_schema v = true -> (exists k, dec toc_schema (enc toc_v2_schema v) = Err k) ->
  toc_decode (enc toc_v2_schema v) = Ok (from_v2 v).
Proof.
  intros Hwt [k Hk]. unfold toc_decode.
  rewrite Hk, (codec_roundtrip_nil toc_v2_schema v toc_v2_schema_ok Hwt). reflexivity.
Qed.

Theorem toc_decode_v1 v :
  wt toc_v1_schema v = true -> (exists k, dec toc_schema (enc toc_v1_schema v) = Err k) ->
  (exists k, dec toc_v2_schema (enc toc_v1_schema v) = Err k) ->
  toc_decode (enc toc_v1_schema v) = Ok (from_v1 v).
Proof.
  intros Hwt [k Hk] [k2 Hk2]. unfold toc_decode.
  rewrite Hk, Hk2, (codec_roundtrip_nil toc_v1_schema v toc_v1_schema_ok Hwt). reflexivity.
Qed.

Section ChecksumProofs.
  Variable H : bytes -> bytes.

  Theorem verify_checksum_stamp l :
    length l = 16%nat -> verify_checksum H (stamp H (VList l)) = true.
  Proof.
    intros HL. unfold stamp, verify_checksum. cbn [set_checksum field].
    assert (L15 : length (firstn 15 l) = 15%nat) by (rewrite firstn_length; lia).
    rewrite app_nth2 by lia. rewrite L15. cbn [Nat.sub nth].
    rewrite (firstn_app_exact (firstn 15 l)) by (symmetry; exact L15).
    cbn [value_eqb]. rewrite bytes_eqb_refl. reflexivity.
  Qed.
End ChecksumProofs.
