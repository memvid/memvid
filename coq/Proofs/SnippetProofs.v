(* Proofs about Model/Snippet.v (compute_snippet_slices).  Every index the function stores has gone through
   prev/next_char_boundary, so slices are ranges between char boundaries.  The merge loop is read one iteration
   at a time under the invariant loop_inv; its outcomes, and those of the whole function (a result satisfies
   holds_always, the only failure is the overflow panic), are `post` statements of Base/Facts.v, from which
   the theorems about results, failures, the guard and the call sites follow. *)
From Coq Require Import Sorted.
From MV Require Import Base.Prelude Base.Facts Base.Strings Model.Snippet.
Local Open Scope N_scope.

Lemma forallb_negb_existsb {A} (p : A -> bool) l :
  forallb (fun x => negb (p x)) l = negb (existsb p l).
Proof. induction l as [|x r IH]; cbn [forallb existsb]; [reflexivity|]. rewrite IH, negb_orb. reflexivity. Qed.

Lemma is_cb_0 t : is_char_boundary t 0 = true.
Proof. reflexivity. Qed.

Lemma is_cb_len t : is_char_boundary t (len t) = true.
Proof.
  unfold is_char_boundary. destruct (len t =? 0); [reflexivity|].
  rewrite N.leb_refl. apply N.eqb_refl.
Qed.

Lemma is_cb_le t i : is_char_boundary t i = true -> i <= len t.
Proof.
  unfold is_char_boundary. destruct (i =? 0) eqn:E0; [lia|].
  destruct (len t <=? i) eqn:E1; lia.
Qed.

(* `if idx > len { idx = len }`, with which both *_char_boundary functions start *)
Lemma clamp_min t idx : (if len t <? idx then len t else idx) = N.min idx (len t).
Proof. destruct (len t <? idx) eqn:E; lia. Qed.

Lemma prev_cb_loop_spec t fuel idx :
  idx <= N.of_nat fuel ->
  is_char_boundary t (prev_cb_loop t fuel idx) = true /\ prev_cb_loop t fuel idx <= idx /\
  forall j, j <= idx -> is_char_boundary t j = true -> j <= prev_cb_loop t fuel idx.
Proof.
  revert idx; induction fuel as [|f IH]; intros idx Hf; cbn [prev_cb_loop].
  - replace idx with 0 by lia. split; [apply is_cb_0|]. split; [lia | intros j Hj _; exact Hj].
  - destruct (is_char_boundary t idx) eqn:Eb; cbn [negb].
    + rewrite andb_false_r. split; [exact Eb|]. split; [lia | intros j Hj _; exact Hj].
    + rewrite andb_true_r. destruct (0 <? idx) eqn:E0.
      * destruct (IH (idx - 1)) as (H1 & H2 & H3); [lia|]. split; [exact H1|]. split; [lia|].
        intros j Hj Hb. apply H3; [|exact Hb]. assert (j <> idx) by congruence. lia.
      * replace idx with 0 in Eb by lia. rewrite is_cb_0 in Eb. discriminate Eb.
Qed.

Lemma prev_cb_spec t idx :
  is_char_boundary t (prev_char_boundary t idx) = true /\
  prev_char_boundary t idx <= len t /\ prev_char_boundary t idx <= idx /\
  forall j, j <= idx -> is_char_boundary t j = true -> j <= prev_char_boundary t idx.
Proof.
  unfold prev_char_boundary. cbv zeta. rewrite clamp_min.
  destruct (prev_cb_loop_spec t (N.to_nat (N.min idx (len t))) (N.min idx (len t))) as (H1 & H2 & H3); [lia|].
  split; [exact H1|]. split; [lia|]. split; [lia|].
  intros j Hj Hb. apply H3; [|exact Hb]. apply is_cb_le in Hb. lia.
Qed.

Lemma next_cb_loop_spec t fuel idx :
  idx <= len t -> len t <= idx + N.of_nat fuel ->
  is_char_boundary t (next_cb_loop t fuel idx) = true /\
  idx <= next_cb_loop t fuel idx /\ next_cb_loop t fuel idx <= len t /\
  forall j, idx <= j -> is_char_boundary t j = true -> next_cb_loop t fuel idx <= j.
Proof.
  revert idx; induction fuel as [|f IH]; intros idx Hl Hf; cbn [next_cb_loop].
  - replace idx with (len t) by lia. split; [apply is_cb_len|]. split; [lia|].
    split; [lia | intros j Hj _; exact Hj].
  - destruct (is_char_boundary t idx) eqn:Eb; cbn [negb].
    + rewrite andb_false_r. split; [exact Eb|]. split; [lia|]. split; [lia | intros j Hj _; exact Hj].
    + rewrite andb_true_r. destruct (idx <? len t) eqn:E0.
      * destruct (IH (idx + 1)) as (H1 & H2 & H3 & H4); [lia | lia |].
        split; [exact H1|]. split; [lia|]. split; [lia|].
        intros j Hj Hb. apply H4; [|exact Hb]. assert (j <> idx) by congruence. lia.
      * replace idx with (len t) in Eb by lia. rewrite is_cb_len in Eb. discriminate Eb.
Qed.

Lemma next_cb_spec t idx :
  is_char_boundary t (next_char_boundary t idx) = true /\
  next_char_boundary t idx <= len t /\ N.min idx (len t) <= next_char_boundary t idx /\
  forall j, idx <= j -> is_char_boundary t j = true -> next_char_boundary t idx <= j.
Proof.
  unfold next_char_boundary. cbv zeta. rewrite clamp_min.
  destruct (next_cb_loop_spec t (N.to_nat (len t - N.min idx (len t))) (N.min idx (len t))) as (H1 & H2 & H3 & H4);
    [lia | lia |].
  split; [exact H1|]. split; [lia|]. split; [lia|].
  intros j Hj Hb. apply H4; [lia | exact Hb].
Qed.

Lemma prev_cb_fix t idx : is_char_boundary t idx = true -> prev_char_boundary t idx = idx.
Proof.
  intros Hb. destruct (prev_cb_spec t idx) as (_ & _ & Hle & Hge).
  specialize (Hge idx (N.le_refl _) Hb). lia.
Qed.

Lemma next_cb_fix t idx : is_char_boundary t idx = true -> next_char_boundary t idx = idx.
Proof.
  intros Hb. pose proof (is_cb_le _ _ Hb) as Hl. destruct (next_cb_spec t idx) as (_ & _ & Hge & Hle).
  specialize (Hle idx (N.le_refl _) Hb). lia.
Qed.

Lemma char_indices_from_spec bs pos p b :
  In (p, b) (char_indices_from bs pos) ->
  pos <= p /\ p < pos + len bs /\ nth (N.to_nat (p - pos)) bs 0 = b /\ is_lead b = true.
Proof.
  revert pos; induction bs as [|x r IH]; intros pos Hin; cbn [char_indices_from] in Hin; [contradiction|].
  assert (Hin' : (pos, x) = (p, b) /\ is_lead x = true \/ In (p, b) (char_indices_from r (pos + 1))).
  { destruct (is_lead x).
    - destruct Hin as [Hhd|Htl]; [left; split; [exact Hhd | reflexivity] | right; exact Htl].
    - right; exact Hin. }
  unfold len in *. cbn [length]. destruct Hin' as [[[= <- <-] El] | Hr].
  - rewrite N.sub_diag. split; [lia|]. split; [lia|]. split; [reflexivity | exact El].
  - apply IH in Hr as (H1 & H2 & H3 & H4).
    replace (N.to_nat (p - pos)) with (S (N.to_nat (p - (pos + 1)))) by lia.
    split; [lia|]. split; [lia|]. split; [exact H3 | exact H4].
Qed.

Lemma char_indices_is_cb t p b : In (p, b) (char_indices t) -> is_char_boundary t p = true /\ p < len t.
Proof.
  intros Hin. apply char_indices_from_spec in Hin as (H1 & H2 & H3 & H4).
  split; [|lia]. unfold is_char_boundary.
  destruct (p =? 0) eqn:E0; [reflexivity|].
  replace (len t <=? p) with false by lia.
  unfold byte_at. rewrite N.sub_0_r in H3. rewrite H3. exact H4.
Qed.

Lemma advance_loop_nth t start cs : forall window last,
  last <= len t -> (forall p b, In (p, b) cs -> start + p <= len t) ->
  advance_loop t start cs window last =
  match nth_error cs (N.to_nat window) with Some (off, _) => start + off | None => len t end.
Proof.
  induction cs as [|[off ch] r IH]; intros window last Hl Hcs; cbn [advance_loop].
  - destruct (N.to_nat window); cbn [nth_error]; lia.
  - destruct (N.eqb_spec window 0) as [->|Hw]; [reflexivity|].
    replace (N.to_nat window) with (S (N.to_nat (window - 1))) by lia. cbn [nth_error].
    apply IH; [apply (Hcs off ch); left; reflexivity | intros p b Hin; apply (Hcs p b); right; exact Hin].
Qed.

Lemma advance_boundary_nth t window :
  advance_boundary t 0 window =
  match nth_error (char_indices t) (N.to_nat window) with Some (off, _) => off | None => len t end.
Proof.
  unfold advance_boundary. destruct t as [|x r]; [destruct (N.to_nat window); reflexivity|].
  replace (len (x :: r) <=? 0) with false by (unfold len; cbn [length]; lia).
  change (N.to_nat 0) with 0%nat. cbn [skipn].
  rewrite (advance_loop_nth (x :: r) 0 _ window (len (x :: r)) (N.le_refl _)).
  - destruct (nth_error _ _) as [[off ch]|]; reflexivity.
  - intros p b Hin. apply char_indices_is_cb in Hin. lia.
Qed.

Lemma advance_boundary_spec t window :
  is_char_boundary t (advance_boundary t 0 window) = true /\ advance_boundary t 0 window <= len t.
Proof.
  rewrite advance_boundary_nth.
  destruct (nth_error _ _) as [[off ch]|] eqn:E; [|split; [apply is_cb_len | lia]].
  apply nth_error_In, char_indices_is_cb in E as [Hb Hlt]. split; [exact Hb | lia].
Qed.

(* with window >= 1 the char at offset 0 is passed over, and every other char starts later *)
Lemma advance_boundary_pos t window : t <> [] -> 1 <= window -> 0 < advance_boundary t 0 window.
Proof.
  intros Ht Hw. rewrite advance_boundary_nth. destruct t as [|x r]; [congruence|].
  assert (Hl : 0 < len (x :: r)) by (unfold len; cbn [length]; lia).
  replace (N.to_nat window) with (S (N.to_nat (window - 1))) by lia.
  unfold char_indices. cbn [char_indices_from].
  assert (Hrest : forall n, 0 < match nth_error (char_indices_from r (0 + 1)) n with
                                | Some (off, _) => off | None => len (x :: r) end).
  { intros n. destruct (nth_error _ n) as [[off ch]|] eqn:E; [|exact Hl].
    apply nth_error_In, char_indices_from_spec in E. lia. }
  destruct (is_lead x); [cbn [nth_error] |]; apply Hrest.
Qed.

Lemma char_indices_skip_conts k : forall r pos,
  forallb is_cont (firstn k r) = true ->
  char_indices_from r pos = char_indices_from (skipn k r) (pos + N.of_nat k).
Proof.
  induction k as [|k IH]; intros r pos Hc.
  - cbn [skipn]. replace (pos + N.of_nat 0) with pos by lia. reflexivity.
  - destruct r as [|x r]; [reflexivity|].
    cbn [firstn forallb] in Hc. apply andb_true_iff in Hc as [Hx Hc].
    cbn [skipn char_indices_from].
    replace (is_lead x) with false by (unfold is_lead, is_cont in *; lia).
    rewrite (IH r (pos + 1) Hc).
    replace (pos + 1 + N.of_nat k) with (pos + N.of_nat (S k)) by lia. reflexivity.
Qed.

Lemma lead_width_pos b : 1 <= utf8_width b.
Proof. unfold utf8_width. destruct (b <? 128), (b <? 224), (b <? 240); lia. Qed.

Lemma decode_indices_eq fuel : forall bs pos,
  (length bs <= fuel)%nat -> utf8_shape fuel bs = true ->
  decode_indices fuel bs pos = char_indices_from bs pos.
Proof.
  induction fuel as [|f IH]; intros bs pos Hl Hs.
  - destruct bs; [reflexivity | cbn [length] in Hl; lia].
  - destruct bs as [|b r]; [reflexivity|].
    cbn [utf8_shape] in Hs. cbn [decode_indices char_indices_from].
    set (k := (N.to_nat (utf8_width b) - 1)%nat) in *.
    apply andb_true_iff in Hs as [Hs Hrest]. apply andb_true_iff in Hs as [Hs Hconts].
    apply andb_true_iff in Hs as [Hlead _].
    rewrite Hlead. f_equal.
    rewrite IH; [| rewrite skipn_length; cbn [length] in Hl; lia | exact Hrest].
    rewrite (char_indices_skip_conts k r (pos + 1) Hconts).
    pose proof (lead_width_pos b).
    replace (pos + 1 + N.of_nat k) with (pos + utf8_width b) by (subst k; lia). reflexivity.
Qed.

Lemma str_slice_ok t a b :
  a <= b -> is_char_boundary t a = true -> is_char_boundary t b = true ->
  str_slice t a b = Ok (firstn (N.to_nat (b - a)) (skipn (N.to_nat a) t)).
Proof. intros Hab Ha Hb. unfold str_slice. rewrite Ha, Hb. replace (a <=? b) with true by lia. reflexivity. Qed.

Lemma str_slice_nonempty t a b bs :
  str_slice t a b = Ok bs -> a < b -> b <= len t -> bs <> [].
Proof.
  unfold str_slice. destruct ((a <=? b) && is_char_boundary t a && is_char_boundary t b); [|discriminate].
  intros [= <-] Hab Hb Hnil. apply (f_equal (@length N)) in Hnil.
  rewrite firstn_length, skipn_length in Hnil. unfold len in Hb. cbn [length] in Hnil. lia.
Qed.

(* weak validity: everything except non-emptiness *)
Definition slice_sane (t : bytes) (s : slice_t) : Prop :=
  fst s <= snd s /\ snd s <= len t /\ is_char_boundary t (fst s) = true /\ is_char_boundary t (snd s) = true /\
  exists bs, str_slice t (fst s) (snd s) = Ok bs.

Lemma slice_sane_intro t a b :
  a <= b -> is_char_boundary t a = true -> is_char_boundary t b = true -> slice_sane t (a, b).
Proof.
  intros Hab Ha Hb. unfold slice_sane. cbn [fst snd].
  split; [exact Hab|]. split; [apply is_cb_le, Hb|]. split; [exact Ha|]. split; [exact Hb|].
  eexists. apply str_slice_ok; assumption.
Qed.

Lemma slice_valid_intro t a b :
  a < b -> is_char_boundary t a = true -> is_char_boundary t b = true -> slice_valid t (a, b).
Proof.
  intros Hab Ha Hb. pose proof (is_cb_le _ _ Hb) as Hl. unfold slice_valid. cbn [fst snd].
  split; [exact Hab|]. split; [exact Hl|]. split; [exact Ha|]. split; [exact Hb|].
  eexists. split; [apply str_slice_ok; [lia | exact Ha | exact Hb]|].
  eapply str_slice_nonempty; [apply str_slice_ok; [lia | exact Ha | exact Hb] | exact Hab | exact Hl].
Qed.

Lemma slice_valid_sane t s : slice_valid t s -> slice_sane t s.
Proof. destruct s as [a b]. intros (H1 & _ & H3 & H4 & _). cbn [fst snd] in *. apply slice_sane_intro; [lia | exact H3 | exact H4]. Qed.

Lemma occurrence_bounds_cases t window occ :
  if end_overflows window occ then occurrence_bounds t window occ = Panic 1
  else exists a b, occurrence_bounds t window occ = Ok (a, b) /\
                   is_char_boundary t a = true /\ is_char_boundary t b = true.
Proof.
  destruct occ as [s e]. unfold end_overflows, occurrence_bounds, add_chk. cbn [snd].
  rewrite N.leb_antisym. destruct (e + window / 2 <? USIZE_LIMIT); cbn [negb]; [|reflexivity].
  do 2 eexists. split; [reflexivity|]. split; [apply prev_cb_spec | apply next_cb_spec].
Qed.

(* one iteration of the merge loop: the new `merged` (reversed) and whether the loop breaks there *)
Definition merge_step (t : bytes) (max_snippets : N) (ab : slice_t) (m : list slice_t) : list slice_t * bool :=
  let (a, b) := ab in
  let push := let m2 := (N.min a (len t), N.min b (len t)) :: m in
              (m2, max_snippets <=? N.of_nat (length m2)) in
  if b <=? a then (m, false)
  else match m with
       | (l0, l1) :: m' => if a <=? l1 + 20 then ((l0, N.max l1 b) :: m', false) else push
       | [] => push
       end.

Lemma merge_loop_cons t window max_snippets occ rest m :
  merge_loop t window max_snippets (occ :: rest) m =
  match occurrence_bounds t window occ with
  | Ok ab => let (m', stop) := merge_step t max_snippets ab m in
             if stop then Ok m' else merge_loop t window max_snippets rest m'
  | Err k => Err k
  | Panic s => Panic s
  end.
Proof.
  cbn [merge_loop]. destruct (occurrence_bounds t window occ) as [[a b]| |]; try reflexivity.
  unfold merge_step. destruct (b <=? a); [reflexivity|].
  destruct m as [|[l0 l1] m'].
  - destruct (max_snippets <=? _); reflexivity.
  - destruct (a <=? l1 + 20); [reflexivity|].
    destruct (max_snippets <=? _); reflexivity.
Qed.

Definition far_before (x y : slice_t) : Prop := snd x + 20 < fst y.
Definition separated (l : list slice_t) : Prop := StronglySorted far_before l.

(* invariant of `merged`, which the model keeps reversed (head = last pushed) *)
Definition loop_inv (t : bytes) (m : list slice_t) : Prop :=
  Forall (slice_valid t) m /\ StronglySorted (fun x y => far_before y x) m.

Lemma loop_inv_far t x m a b :
  loop_inv t (x :: m) -> snd x + 20 < a -> Forall (fun y => far_before y (a, b)) (x :: m).
Proof.
  intros [Hv Hs] Hgap. apply Forall_inv in Hv as (Hx & _). apply StronglySorted_inv in Hs as [_ Hfar].
  constructor; [exact Hgap|]. eapply Forall_impl; [|exact Hfar].
  unfold far_before. cbn [fst snd]. intros z Hz. lia.
Qed.

Lemma loop_inv_push t a b m :
  loop_inv t m -> a < b -> is_char_boundary t a = true -> is_char_boundary t b = true ->
  Forall (fun y => far_before y (a, b)) m -> loop_inv t ((a, b) :: m).
Proof.
  intros [Hv Hs] Hab Ha Hb Hfar. split; constructor; try assumption. apply slice_valid_intro; assumption.
Qed.

(* extending the last slice leaves its start, which is all that the order looks at *)
Lemma loop_inv_extend t l0 l1 b m :
  loop_inv t ((l0, l1) :: m) -> is_char_boundary t b = true -> loop_inv t ((l0, N.max l1 b) :: m).
Proof.
  intros [Hv Hs] Hb. apply Forall_inv in Hv as Hx. apply Forall_inv_tail in Hv.
  destruct Hx as (H01 & _ & H0 & H1 & _). cbn [fst snd] in *.
  apply StronglySorted_inv in Hs as [Hs Hfar].
  split; constructor; try assumption.
  apply slice_valid_intro; [lia | exact H0 |]. destruct (N.max_spec l1 b) as [[_ ->]|[_ ->]]; assumption.
Qed.

(* The count is checked after the push, so a list that was below the bound may reach it but not pass it;
   with max_snippets = 0 one slice still gets in: hence N.max max_snippets 1. *)
Lemma merge_step_inv {t max_snippets a b m m' stop} :
  loop_inv t m -> N.of_nat (length m) < N.max max_snippets 1 ->
  is_char_boundary t a = true -> is_char_boundary t b = true ->
  merge_step t max_snippets (a, b) m = (m', stop) ->
  loop_inv t m' /\ N.of_nat (length m') <= N.max max_snippets 1 /\
  (stop = false -> N.of_nat (length m') < N.max max_snippets 1).
Proof.
  intros Hinv Hc Ha Hb. unfold merge_step.
  rewrite (N.min_l a), (N.min_l b) by (apply is_cb_le; assumption).
  destruct (N.leb_spec b a) as [_|Hab]; [intros [= <- <-]; split; [exact Hinv | lia]|].
  destruct m as [|[l0 l1] m0].
  - intros [= <- <-]. split; [apply loop_inv_push; [..|constructor]; assumption | cbn [length]; lia].
  - destruct (N.leb_spec a (l1 + 20)) as [_|Hgap]; intros [= <- <-].
    + split; [apply loop_inv_extend; assumption | cbn [length] in *; lia].
    + split; [|cbn [length] in *; lia].
      apply loop_inv_push; try assumption. apply (loop_inv_far t (l0, l1)); assumption.
Qed.

Lemma merge_loop_post t window max_snippets occs : forall m,
  loop_inv t m -> N.of_nat (length m) < N.max max_snippets 1 ->
  post (merge_loop t window max_snippets occs m)
       (fun r => loop_inv t r /\ N.of_nat (length r) <= N.max max_snippets 1)
       (fun _ => False) (existsb (end_overflows window) occs = true).
Proof.
  induction occs as [|occ rest IH]; intros m Hinv Hcnt; [split; [exact Hinv | lia]|].
  rewrite merge_loop_cons. cbn [existsb].
  pose proof (occurrence_bounds_cases t window occ) as Hob.
  destruct (end_overflows window occ); [rewrite Hob; reflexivity|].
  destruct Hob as (a & b & -> & Ha & Hb).
  destruct (merge_step t max_snippets (a, b) m) as [m' stop] eqn:Es.
  destruct (merge_step_inv Hinv Hcnt Ha Hb Es) as (I1 & I2 & I3).
  destruct stop; [split; assumption | apply IH; [exact I1 | apply I3; reflexivity]].
Qed.

Lemma fallback_sane t window : slice_sane t (0, advance_boundary t 0 window).
Proof. apply slice_sane_intro; [lia | reflexivity | apply advance_boundary_spec]. Qed.

Lemma fallback_valid t window : t <> [] -> 1 <= window -> slice_valid t (0, advance_boundary t 0 window).
Proof.
  intros Ht Hw. apply slice_valid_intro; [apply advance_boundary_pos; assumption | reflexivity | apply advance_boundary_spec].
Qed.

Definition holds_always (t : bytes) (window max_snippets : N) (sl : list slice_t) : Prop :=
  Forall (slice_sane t) sl /\ separated sl /\
  N.of_nat (length sl) <= N.max max_snippets 1 /\
  (1 <= window -> Forall (slice_valid t) sl) /\
  (t <> [] -> sl <> []) /\ (t = [] -> sl = []).

Lemma fallback_always t window max_snippets :
  t <> [] -> holds_always t window max_snippets [(0, advance_boundary t 0 window)].
Proof.
  intros Ht. split; [constructor; [apply fallback_sane | constructor]|].
  split; [constructor; constructor|]. split; [cbn [length]; lia|].
  split; [intros Hw; constructor; [apply fallback_valid; assumption | constructor]|].
  split; [discriminate | contradiction].
Qed.

Theorem compute_post t occs window max_snippets :
  post (compute_snippet_slices t occs window max_snippets) (holds_always t window max_snippets)
       (fun _ => False) (known_end_overflow t occs window max_snippets = true).
Proof.
  unfold compute_snippet_slices, known_end_overflow. destruct t as [|x t'].
  { split; [constructor|]. split; [constructor|]. split; [cbn [length]; lia|].
    split; [constructor|]. split; [congruence | reflexivity]. }
  cbn [nonempty_text andb]. set (t := x :: t'). assert (Ht : t <> []) by discriminate.
  destruct occs as [|o occs']; [exact (fallback_always t window max_snippets Ht)|].
  set (occs := o :: occs').
  assert (H0 : loop_inv t []) by (split; constructor).
  assert (Hc0 : N.of_nat (length (@nil slice_t)) < N.max max_snippets 1) by (cbn [length]; lia).
  apply (post_then (merge_loop_post t window max_snippets occs [] H0 Hc0)).
  intros [|y m'] _ [[Hv Hs] Hc]; [exact (fallback_always t window max_snippets Ht)|].
  set (m := y :: m') in *.
  apply Forall_rev in Hv. rewrite <- rev_length in Hc.
  split; [eapply Forall_impl; [apply slice_valid_sane | exact Hv]|].
  split; [apply (SS_rev (fun x y => far_before y x)), Hs|]. split; [exact Hc|]. split; [intros _; exact Hv|].
  split; [|contradiction]. intros _ E. apply (f_equal (@rev _)) in E. rewrite rev_involutive in E. discriminate E.
Qed.

Theorem slices_always t occs window max_snippets sl :
  compute_snippet_slices t occs window max_snippets = Ok sl -> holds_always t window max_snippets sl.
Proof. exact (post_ok (compute_post t occs window max_snippets)). Qed.

Theorem never_err t occs window max_snippets k : compute_snippet_slices t occs window max_snippets <> Err k.
Proof. exact (post_no_err k (compute_post t occs window max_snippets)). Qed.

Theorem total_without_overflow t occs window max_snippets :
  forallb (fun o => negb (end_overflows window o)) occs = true ->
  exists sl, compute_snippet_slices t occs window max_snippets = Ok sl.
Proof.
  intros Hall. pose proof (compute_post t occs window max_snippets) as H.
  destruct (compute_snippet_slices t occs window max_snippets) as [sl| |]; [eauto | contradiction |].
  cbn [post] in H. unfold known_end_overflow in H. apply andb_true_iff in H as [_ H].
  rewrite forallb_negb_existsb, H in Hall. discriminate Hall.
Qed.

Lemma guard_known t occs window max_snippets :
  guard t occs window max_snippets = negb (known_class t occs window max_snippets).
Proof.
  unfold guard, known_class, known_max_zero, known_window_zero, known_end_overflow.
  rewrite forallb_negb_existsb.
  destruct (nonempty_text t); cbn [negb andb orb]; [|reflexivity].
  (* what is left is arithmetic: 1 <=? x is negb (x =? 0) *)
  destruct (existsb (end_overflows window) occs); lia.
Qed.

Lemma separated_increasing l : Forall (fun s : slice_t => fst s <= snd s) l -> separated l -> increasing l.
Proof.
  unfold separated, increasing. induction l as [|x l IH]; intros Hle Hs; [constructor|].
  apply StronglySorted_inv in Hs as [Hs Hx]. inversion Hle as [|? ? Hx1 Hl]; subst.
  constructor; [apply IH; assumption|].
  eapply Forall_impl; [|exact Hx]. intros y Hy. unfold far_before, before in *. lia.
Qed.

Theorem slices_ok_under_guard t occs window max_snippets :
  guard t occs window max_snippets = true ->
  slices_ok t max_snippets (compute_snippet_slices t occs window max_snippets).
Proof.
  unfold guard. intros Hg. destruct t as [|x t'].
  - cbn. repeat split; try constructor. lia.
  - cbn [nonempty_text negb orb] in Hg.
    apply andb_true_iff in Hg as [Hg Hov]. apply andb_true_iff in Hg as [Hmax Hwin].
    destruct (total_without_overflow (x :: t') occs window max_snippets Hov) as [sl Hsl].
    rewrite Hsl. cbn [slices_ok].
    apply slices_always in Hsl as (_ & Hsep & Hcount & Hvalid & _).
    assert (Hv : Forall (slice_valid (x :: t')) sl) by (apply Hvalid; lia).
    repeat split; [exact Hv | | lia].
    apply separated_increasing; [|exact Hsep].
    eapply Forall_impl; [|exact Hv]. intros s (H1 & _). lia.
Qed.

(* a stronger ordering than the property asks for *)
Theorem slices_separated t occs window max_snippets sl :
  compute_snippet_slices t occs window max_snippets = Ok sl -> separated sl.
Proof. intros H. apply slices_always in H as (_ & Hsep & _). exact Hsep. Qed.

Theorem slices_sane {t occs window max_snippets sl} :
  compute_snippet_slices t occs window max_snippets = Ok sl -> Forall (slice_sane t) sl.
Proof. intros H. apply slices_always in H as (Hsane & _). exact Hsane. Qed.

Lemma slice_validb_spec t s : slice_validb t s = true <-> slice_valid t s.
Proof.
  destruct s as [a b]. unfold slice_validb. cbn [fst snd]. split.
  - intros H. repeat (apply andb_true_iff in H as [H ?]).
    apply slice_valid_intro; [lia | assumption | assumption].
  - intros (H1 & H2 & H3 & H4 & bs & H5 & H6). cbn [fst snd] in *. rewrite H3, H4, H5.
    destruct bs; [congruence|]. lia.
Qed.

Lemma increasingb_spec l : increasingb l = true <-> increasing l.
Proof.
  unfold increasing. induction l as [|x r IH]; cbn [increasingb].
  - split; [constructor | reflexivity].
  - rewrite andb_true_iff, IH, forallb_forall. split.
    + intros [Hf Hs]. constructor; [exact Hs|]. apply Forall_forall. intros y Hy. specialize (Hf y Hy). unfold before. lia.
    + intros Hs. apply StronglySorted_inv in Hs as [Hs Hf]. split; [|exact Hs].
      intros y Hy. rewrite Forall_forall in Hf. specialize (Hf y Hy). unfold before in Hf. lia.
Qed.

Theorem slices_okb_spec t max_snippets r : slices_okb t max_snippets r = true <-> slices_ok t max_snippets r.
Proof.
  destruct r as [sl|k|p]; cbn [slices_okb slices_ok]; [|split; [discriminate|tauto]..].
  rewrite !andb_true_iff, increasingb_spec, forallb_forall, Forall_forall.
  split.
  - intros [[H1 H2] H3]. split; [|split; [exact H2 | lia]]. intros s Hs. apply slice_validb_spec; auto.
  - intros (H1 & H2 & H3). split; [split; [|exact H2] | lia]. intros s Hs. apply slice_validb_spec; auto.
Qed.

(* every in-tree caller passes window = snippet_chars.max(80) (or 160), max = top_k.max(1) (or 3),
   and occurrence ends that are offsets into some string (<= isize::MAX) *)
Definition callsite_args (occs : list (N * N)) (window max_snippets : N) : Prop :=
  80 <= window /\ window < USIZE_LIMIT /\ 1 <= max_snippets /\ Forall (fun o => snd o < ISIZE_LIMIT) occs.

Lemma callsite_guard t occs window max_snippets :
  callsite_args occs window max_snippets -> guard t occs window max_snippets = true.
Proof.
  intros (Hw & Hw2 & Hm & He). unfold guard. apply orb_true_iff. right.
  rewrite !andb_true_iff. repeat split; [lia | lia |].
  apply forallb_forall. intros o Ho. rewrite Forall_forall in He. specialize (He o Ho).
  unfold end_overflows. apply negb_true_iff, N.leb_gt.
  (* an offset below 2^63 plus half a window below 2^64 stays below 2^64 *)
  change USIZE_LIMIT with (2 * ISIZE_LIMIT) in *.
  assert (Hhalf : window / 2 < ISIZE_LIMIT) by (apply N.div_lt_upper_bound; [discriminate | exact Hw2]).
  lia.
Qed.

Theorem callsite_slices_ok t occs snippet_chars top_k :
  snippet_chars < USIZE_LIMIT -> Forall (fun o => snd o < ISIZE_LIMIT) occs ->
  slices_ok t (N.max top_k 1) (compute_snippet_slices t occs (N.max snippet_chars 80) (N.max top_k 1)).
Proof.
  intros Hs He. apply slices_ok_under_guard, callsite_guard.
  unfold callsite_args, USIZE_LIMIT in *. repeat split; try lia. exact He.
Qed.

(* is_prefix is is_prefix_of of Base/Strings.v, by computation *)
Lemma is_prefix_len needle hay : is_prefix needle hay = true -> len needle <= len hay.
Proof. intros Hp. apply (is_prefix_of_spec needle hay) in Hp as (q & ->). unfold len. rewrite app_length. lia. Qed.

Lemma find_from_spec needle hay pos p :
  find_from needle hay pos = Some p -> pos <= p /\ p + len needle <= pos + len hay.
Proof.
  revert pos; induction hay as [|h hay IH]; intros pos; cbn [find_from].
  - destruct (is_prefix needle []) eqn:Ep; [|discriminate].
    intros [= <-]. apply is_prefix_len in Ep. lia.
  - destruct (is_prefix needle (h :: hay)) eqn:Ep.
    + intros [= <-]. apply is_prefix_len in Ep. lia.
    + intros H. apply IH in H. unfold len in *. cbn [length]. lia.
Qed.

Lemma token_occurrences_loop_spec fuel hay needle start o :
  needle <> [] ->
  In o (token_occurrences_loop fuel hay needle start) -> start <= fst o /\ fst o < snd o /\ snd o <= len hay.
Proof.
  intros Hn. revert start; induction fuel as [|f IH]; intros start Hin; cbn [token_occurrences_loop] in Hin; [contradiction|].
  destruct (find_from needle (skipn (N.to_nat start) hay) 0) as [p|] eqn:Ef; [|contradiction].
  apply find_from_spec in Ef as [_ Ef].
  assert (Hsk : len (skipn (N.to_nat start) hay) = len hay - start).
  { unfold len in *. rewrite skipn_length. lia. }
  assert (Hnl : 0 < len needle) by (destruct needle; [congruence | unfold len; cbn [length]; lia]).
  destruct Hin as [<-|Hin].
  - cbn [fst snd]. lia.
  - apply IH in Hin. lia.
Qed.

Theorem collect_occurrences_bounded hay tokens o :
  In o (collect_token_occurrences_unsorted hay tokens) -> fst o < snd o /\ snd o <= len hay.
Proof.
  unfold collect_token_occurrences_unsorted. rewrite in_flat_map. intros (needle & _ & Hin).
  unfold token_occurrences in Hin. destruct needle as [|a n]; [contradiction|].
  apply token_occurrences_loop_spec in Hin; [lia | discriminate].
Qed.

(* sort_unstable + dedup (or sort_by_key) only permute/drop elements: any list drawn from the
   collected occurrences satisfies the guard at the call sites *)
Theorem callsite_with_collected_occurrences t hay tokens occs snippet_chars top_k :
  len hay < ISIZE_LIMIT -> snippet_chars < USIZE_LIMIT ->
  incl occs (collect_token_occurrences_unsorted hay tokens) ->
  slices_ok t (N.max top_k 1) (compute_snippet_slices t occs (N.max snippet_chars 80) (N.max top_k 1)).
Proof.
  intros Hh Hs Hincl. apply callsite_slices_ok; [exact Hs|].
  apply Forall_forall. intros o Ho. apply Hincl, collect_occurrences_bounded in Ho. lia.
Qed.

Definition usize (n : N) : Prop := n < USIZE_LIMIT.
Definition usize_args (occs : list (N * N)) (window max_snippets : N) : Prop :=
  usize window /\ usize max_snippets /\ Forall (fun o => usize (fst o) /\ usize (snd o)) occs.
Definition usize_argsb (occs : list (N * N)) (window max_snippets : N) : bool :=
  (window <? USIZE_LIMIT) && (max_snippets <? USIZE_LIMIT) &&
  forallb (fun o => (fst o <? USIZE_LIMIT) && (snd o <? USIZE_LIMIT)) occs.
Lemma usize_argsb_sound occs window max_snippets :
  usize_argsb occs window max_snippets = true -> usize_args occs window max_snippets.
Proof.
  unfold usize_argsb, usize_args, usize. rewrite !andb_true_iff, forallb_forall, Forall_forall.
  intros [[H1 H2] H3]. split; [lia|]. split; [lia|]. intros o Ho. specialize (H3 o Ho). lia.
Qed.

Definition refutes (cls : bytes -> list (N * N) -> N -> N -> bool) (t : bytes) (occs : list (N * N)) (window max_snippets : N) : bool :=
  usize_argsb occs window max_snippets && cls t occs window max_snippets &&
  negb (slices_okb t max_snippets (compute_snippet_slices t occs window max_snippets)).

Lemma refutes_sound cls t occs window max_snippets :
  refutes cls t occs window max_snippets = true ->
  usize_args occs window max_snippets /\ cls t occs window max_snippets = true /\
  ~ slices_ok t max_snippets (compute_snippet_slices t occs window max_snippets).
Proof.
  unfold refutes. rewrite !andb_true_iff, negb_true_iff. intros [[H1 H2] H3].
  split; [apply usize_argsb_sound; exact H1|]. split; [exact H2|].
  intros Hok. apply slices_okb_spec in Hok. congruence.
Qed.

Definition only_max_zero t occs window max_snippets : bool :=
  known_max_zero t occs window max_snippets && negb (known_window_zero t occs window max_snippets) &&
  negb (known_end_overflow t occs window max_snippets).
Definition only_window_zero t occs window max_snippets : bool :=
  known_window_zero t occs window max_snippets && negb (known_max_zero t occs window max_snippets) &&
  negb (known_end_overflow t occs window max_snippets).
Definition only_end_overflow t occs window max_snippets : bool :=
  known_end_overflow t occs window max_snippets && negb (known_max_zero t occs window max_snippets) &&
  negb (known_window_zero t occs window max_snippets).

(* two theorems of C35 rest on it: the necessity of the guard and the refutation *)
Lemma max_zero_necessary :
  exists t occs window max_snippets,
    usize_args occs window max_snippets /\ only_max_zero t occs window max_snippets = true /\
    ~ slices_ok t max_snippets (compute_snippet_slices t occs window max_snippets).
Proof. exists [97], [(0, 1)], 80, 0. apply refutes_sound. vm_compute. reflexivity. Qed.

