(* C02 / C03 proofs: what a process crash or a power loss leaves under the memory's name, at every
   point of the two write protocols of Model/FsProto.v.  Both questions are answered from the same
   description of the state the name is in (`synced`, `renamed`; `stage`: where a commit from c to n
   can stand).  The staged commit is the rename protocol after operations off the name
   (`off_name`: they keep `synced`; `rename_commit`, from any synced state). *)
From MV Require Import Base.Prelude Model.FsProto.

Lemma exec_app s a b : exec s (a ++ b) = exec (exec s a) b.
Proof. apply fold_left_app. Qed.

Section Name.
  Variable c : content.

  Definition synced (s : fs) : Prop := mem_v s = c /\ mem_d s = c /\ dir_synced s = true.

  (* between rename(staging, memory) and the directory fsync: the durable directory may still point
     to the old inode, which holds c *)
  Definition renamed (n : content) (s : fs) : Prop :=
    mem_v s = n /\ mem_d s = n /\ dir_synced s = false /\ old_d s = c.
End Name.

Lemma synced_fs0 c : synced c (fs0 c).
Proof. repeat split. Qed.

Lemma power_loss_no_unsynced s n c' : mem_v s = n -> mem_d s = n -> after_power_loss s c' ->
  c' = n \/ (dir_synced s = false /\ c' = old_d s).
Proof.
  intros Hv Hd [(k & ->)|Hold]; [left|right; exact Hold].
  rewrite Hd, Hv, skipn_all, firstn_nil. apply app_nil_r.
Qed.

Lemma synced_power_loss c s c' : synced c s -> after_power_loss s c' -> c' = c.
Proof.
  intros (Hv & Hd & Hs) Hpl. destruct (power_loss_no_unsynced s c c' Hv Hd Hpl) as [E|[F _]]; congruence.
Qed.

Definition stage (c n : content) (s : fs) : Prop := synced c s \/ renamed c n s \/ synced n s.

Lemma stage_power_loss c n s c' : stage c n s -> after_power_loss s c' -> c' = c \/ c' = n.
Proof.
  intros [S|[(Hv & Hd & _ & Ho)|S]] Hpl.
  - left. exact (synced_power_loss c s c' S Hpl).
  - destruct (power_loss_no_unsynced s n c' Hv Hd Hpl) as [E|[_ E]]; [right|left]; congruence.
  - right. exact (synced_power_loss n s c' S Hpl).
Qed.

Definition off_name (op : fsop) : bool :=
  match op with RenameTmp | WriteMem _ => false | _ => true end.

Lemma off_name_step c op s : off_name op = true -> synced c s -> synced c (step s op).
Proof.
  intros Hop (Hv & Hd & Hsy). destruct op; try discriminate Hop.
  - exact (conj Hv (conj Hd Hsy)).
  - exact (conj Hv (conj Hd Hsy)).
  - cbn [step]. destruct (tmp_v s); exact (conj Hv (conj Hd Hsy)).
  - exact (conj Hv (conj Hd Hsy)).
  - (* FsyncDir: synced already *) exact (conj Hv (conj Hd eq_refl)).
  - (* FsyncMem: the durable content becomes the volatile one *) exact (conj Hv (conj Hv Hsy)).
Qed.

Lemma off_name_keeps_synced c l : forallb off_name l = true -> forall s, synced c s -> synced c (exec s l).
Proof.
  induction l as [|op l IH]; intros Hl s Hs; [exact Hs|].
  apply andb_true_iff in Hl as [Hop Hl]. apply (IH Hl), off_name_step; assumption.
Qed.

Lemma rename_finish c s : synced c s ->
  let n := mem_v (exec s [FsyncTmp; RenameTmp; FsyncDir]) in
  synced c (exec s [FsyncTmp]) /\
  stage c n (exec s [FsyncTmp; RenameTmp]) /\
  synced n (exec s [FsyncTmp; RenameTmp; FsyncDir]).
Proof.
  intros (<- & Hd & Hs). cbn. destruct (tmp_v s); cbn.
  - split; [|split; [right; left|]]; repeat split; assumption.
  - split; [|split; [left|]]; repeat split; assumption.
Qed.

Lemma rename_commit c l s : forallb off_name l = true -> synced c s ->
  let t := l ++ [FsyncTmp; RenameTmp; FsyncDir] in
  (forall p q, t = p ++ q -> stage c (mem_v (exec s t)) (exec s p)) /\ synced (mem_v (exec s t)) (exec s t).
Proof.
  intros Hl Hs. cbv zeta. rewrite exec_app.
  pose proof (off_name_keeps_synced c l Hl s Hs) as S1.
  destruct (rename_finish c _ S1) as (F1 & F2 & F3). split; [|exact F3].
  intros p q E. symmetry in E. apply app_eq_app in E as (r & [(-> & E2)|(-> & _)]).
  - (* p ends inside the last three operations, r of which are done *)
    rewrite exec_app. destruct r as [|o1 [|o2 [|o3 [|o4 r]]]]; inversion E2; subst.
    + left. exact S1.
    + left. exact F1.
    + exact F2.
    + right. right. exact F3.
  - (* p ends before them *)
    left. rewrite forallb_app in Hl. apply andb_true_iff in Hl as [Hp _].
    exact (off_name_keeps_synced c p Hp s Hs).
Qed.

Lemma tmp_writes_off_name body : only_tmp_writes body = true -> forallb off_name body = true.
Proof. induction body as [|[] body IH]; cbn; auto; discriminate. Qed.

Lemma staged_shape t : staged_commit_ok t = true ->
  exists body, only_tmp_writes body = true /\
    t = [FsyncMem; OpenTmp; CopyToTmp; FsyncTmp] ++ body ++ [FsyncTmp; RenameTmp; FsyncDir].
Proof.
  unfold staged_commit_ok.
  (* one level at a time: a nested pattern would enumerate 8^4 cases before discarding them *)
  do 4 (destruct t as [|[] t]; try discriminate).
  destruct (rev t) as [|[] l] eqn:E; try discriminate.
  do 2 (destruct l as [|[] l]; try discriminate).
  intros Hb. exists (rev l). split; [exact Hb|].
  cbn [app]. do 4 f_equal. rewrite <- (rev_involutive t), E. cbn [rev]. rewrite <- !app_assoc. reflexivity.
Qed.

Section Staged.
  Variable c : content.

  (* the image the commit installs: old content plus the writes made on the staging copy *)
  Definition new_image (t : list fsop) : content := mem_v (exec (fs0 c) t).

  Lemma staged_commit_stages t : staged_commit_ok t = true ->
    (forall p q, t = p ++ q -> stage c (new_image t) (exec (fs0 c) p)) /\
    synced (new_image t) (exec (fs0 c) t).
  Proof.
    intros Hok. destruct (staged_shape t Hok) as (body & Hb & ->). unfold new_image.
    rewrite (app_assoc _ body). apply rename_commit; [|apply synced_fs0].
    rewrite forallb_app. exact (tmp_writes_off_name body Hb).
  Qed.
End Staged.

(* the log append: a record write, an fsync, a sentinel write, all in place.  The theorems are about
   this one literal trace (its two-operation prefix: the append that finds no room for a sentinel),
   not about the recognizers wal_append_ok / wal_appends_ok. *)
Section WalAppend.
  Variables r z : wr.
  Variable s : fs.

  (* s is any state: the fsync makes durable whatever the file holds, so these apply as well to the
     state an earlier append leaves (its sentinel still unsynced) *)
  Lemma wal_append_crash p q : [WriteMem r; FsyncMem; WriteMem z] = p ++ q ->
    after_crash (exec s p) = mem_v s \/ after_crash (exec s p) = mem_v s ++ [r] \/
    after_crash (exec s p) = mem_v s ++ [r; z].
  Proof.
    intros Hpq. unfold after_crash.
    destruct p as [|o1 [|o2 [|o3 [|o4 p]]]]; inversion Hpq; subst; cbn.
    - left. reflexivity.
    - right. left. reflexivity.
    - right. left. reflexivity.
    - right. right. symmetry. exact (app_assoc (mem_v s) [r] [z]).
  Qed.

  Lemma wal_append_durable : dir_synced s = true ->
    forall c', after_power_loss (exec s [WriteMem r; FsyncMem; WriteMem z]) c' ->
      c' = mem_v s ++ [r] \/ c' = mem_v s ++ [r; z].
  Proof.
    intros Hs c' [(k & ->)|(Hf & _)]; cbn in *; [|congruence].
    rewrite skipn_app, skipn_all, Nat.sub_diag. cbn [skipn app].
    destruct k as [|k]; cbn [firstn]; [left; apply app_nil_r|right].
    rewrite firstn_nil, <- app_assoc. reflexivity.
  Qed.

  Lemma wal_append_unsynced_may_lose : after_power_loss (exec s [WriteMem r]) (mem_d s).
  Proof. left. exists 0%nat. cbn. symmetry. apply app_nil_r. Qed.
End WalAppend.
