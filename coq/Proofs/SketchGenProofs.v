(* Model/Sketch.v: one entry outside the on-disk format puts its track in the known class
   (known_of_unstorable_entry: behind C39 (7), with SketchFilterProofs.generate_sketch_post), and the
   witnesses of C39: witness_track (the recorded finding) and idtok_sketch. *)
From MV Require Import Base.Prelude Model.Sketch.
Local Open Scope N_scope.

Lemma forallb_false_of_In {A} (f : A -> bool) x l : In x l -> f x = false -> forallb f l = false.
Proof.
  intros Hin Hf. destruct (forallb f l) eqn:E; [|reflexivity].
  rewrite forallb_forall in E. rewrite (E x Hin) in Hf. discriminate.
Qed.

Lemma known_of_unstorable_entry t e :
  In e (t_entries t) ->
  shape_ok (t_variant t) e = false \/ small_fields_ok (t_variant t) e = false ->
  known_class t = true.
Proof.
  intros Hin Hbad. unfold known_class, known_shape, known_small_fields. destruct Hbad as [H|H].
  - rewrite (forallb_false_of_In _ e _ Hin H). cbn [negb]. rewrite orb_true_r. reflexivity.
  - rewrite (forallb_false_of_In _ e _ Hin H). cbn [negb]. apply orb_true_r.
Qed.

(* the recorded finding: one Small entry for frame 3, with the flags and the weight sum
   generate_sketch gives a short text (flags = ALL | SHORT_TEXT = 23, weight sum 200);
   simhash, filter and top terms are made up *)
Definition witness_entry : entry :=
  mkEntry 3 81985529216486895 (repeat 1 16) [7; 9] 200 23 0.
Definition witness_track : track := mkTrack Small [witness_entry].

(* the sketch of C39's (8): a Large track made by generate_sketch, written and read back,
   reports a token of its own text as absent (512-bit filter cut to its first 256 bits and
   then probed modulo 256).  Tokens are numbers hashed by the identity here. *)
Definition idtok_sketch (tokens : list N) : outcome entry :=
  generate_sketch N N.eqb (fun x => x) raw_weight_no_idf 0 tokens Large.
