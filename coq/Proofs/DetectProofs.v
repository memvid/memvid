(* What the statements of C20 (Properties/C20.v) rest on, about Model/Detect.v: what an accepted read
   guarantees under each hash guard, on any file (guard_check_true; the _ok_inv lemmas of read_toc,
   load_track and read_frame_payload_bytes); that the checked read looks only at the frame's window
   (read_depends_on_window); what a passed deep verify says of one frame (verify_deep_passed_reads);
   that verify's input ignores every byte outside the ranges of its layout (slice_outside,
   vstate_blind). *)
From MV Require Import Base.Prelude Base.Facts Model.Footer Proofs.FooterProofs Model.TimeIndex Model.Detect.
Local Open Scope N_scope.

Lemma validate_ok_range ctx file_len fr :
  validate_frame_bounds ctx file_len fr = Ok tt ->
  f_len fr = 0 \/ f_off fr + f_len fr <= file_len.
Proof.
  unfold validate_frame_bounds. destruct ctx as [[wo ws] de].
  destruct (f_len fr =? 0) eqn:E0; [left; apply N.eqb_eq; exact E0|].
  destruct (MAX_FRAME_BYTES <? f_len fr); [discriminate|].
  destruct (2 ^ 64 <=? wo + ws); [discriminate|].
  destruct (f_off fr <? wo + ws); [discriminate|].
  destruct (2 ^ 64 <=? f_off fr + f_len fr); [discriminate|].
  destruct (de <? f_off fr + f_len fr); [discriminate|].
  destruct (file_len <? f_off fr + f_len fr) eqn:E; [discriminate|].
  intros _. right. apply N.ltb_ge in E. exact E.
Qed.

Lemma raw_slice_length (file : bytes) fr :
  f_len fr = 0 \/ f_off fr + f_len fr <= N.of_nat (length file) ->
  N.of_nat (length (slice file (N.to_nat (f_off fr)) (N.to_nat (f_len fr)))) = f_len fr.
Proof.
  intros [E | E].
  - rewrite E. unfold slice. cbn [N.to_nat firstn length]. reflexivity.
  - rewrite slice_length by lia. lia.
Qed.

Lemma skipn_after {A} (pre mid post : list A) off :
  (length pre + length mid <= off)%nat ->
  skipn off (pre ++ mid ++ post) = skipn (off - length pre - length mid) post.
Proof.
  intros Hle. rewrite skipn_app. rewrite (skipn_all2 pre) by lia. cbn [app].
  rewrite skipn_app. rewrite (skipn_all2 mid) by lia. reflexivity.
Qed.

Lemma forallb_ext_in {A} (f g : A -> bool) l : (forall x, In x l -> f x = g x) -> forallb f l = forallb g l.
Proof.
  induction l as [|a l IH]; intros He; [reflexivity|]. cbn [forallb].
  rewrite (He a (or_introl eq_refl)), IH; [reflexivity|]. intros x Hx. apply He. right. exact Hx.
Qed.

Lemma slice_outside (pre mid mid' post : bytes) off len :
  length mid' = length mid ->
  range_outside (N.of_nat (length pre)) (N.of_nat (length pre + length mid)) (off, len) = true ->
  slice (pre ++ mid' ++ post) (N.to_nat off) (N.to_nat len) =
  slice (pre ++ mid ++ post) (N.to_nat off) (N.to_nat len).
Proof.
  intros Hl Ho. unfold range_outside in Ho. cbn [fst snd] in Ho. apply orb_true_iff in Ho. destruct Ho as [Ho | Ho].
  - apply N.leb_le in Ho. rewrite !slice_app_l by lia. reflexivity.
  - apply N.leb_le in Ho. unfold slice. rewrite !skipn_after by lia. rewrite Hl. reflexivity.
Qed.

Lemma table_silent c k :
  existsb silent (table c k) = match k with Trunc => false | _ => known_class c end.
Proof. destruct c, k; reflexivity. Qed.

Section GuardProofs.
  Variable H : bytes -> bytes.

  Lemma guard_check_true c d : guard_check H c d = true <-> H c = d.
  Proof. unfold guard_check. apply bytes_eqb_spec. Qed.

  Lemma read_toc_ok_inv file off t :
    read_toc H file off = Ok t ->
    exists foot f, skipn (N.to_nat off) file = t ++ foot /\
      footer_decode foot = Some f /\ H t = toc_hash f /\ N.of_nat (length t) = toc_len f.
  Proof.
    unfold read_toc.
    destruct (_ <? off); [discriminate|].
    destruct (MAX_INDEX_BYTES <? _); [discriminate|].
    destruct (_ <? N.of_nat FOOTER_SIZE); [discriminate|].
    set (buf := skipn (N.to_nat off) file). set (n := (length buf - FOOTER_SIZE)%nat).
    destruct (footer_decode (skipn n buf)) as [f|] eqn:Hdec; [|discriminate].
    destruct (N.eqb_spec (N.of_nat (length (firstn n buf))) (toc_len f)) as [Hlen|]; [|discriminate].
    destruct (hash_matches H f (firstn n buf)) eqn:Hh; [|discriminate].
    intros [= <-]. exists (skipn n buf), f.
    split; [symmetry; apply firstn_skipn|]. split; [exact Hdec|]. split; [|exact Hlen].
    apply bytes_eqb_spec. exact Hh.
  Qed.

  Lemma read_toc_layout pre toc foot off t :
    N.of_nat (length pre) = off -> length foot = FOOTER_SIZE ->
    read_toc H (pre ++ toc ++ foot) off = Ok t ->
    t = toc /\ exists f, footer_decode foot = Some f /\ H toc = toc_hash f /\ N.of_nat (length toc) = toc_len f.
  Proof.
    intros <- Hfoot Hr. apply read_toc_ok_inv in Hr as (foot' & f & Hcut & Hdec & Hhash & Hlen).
    rewrite Nat2N.id, skipn_app_exact in Hcut by reflexivity.
    (* both tails are FOOTER_SIZE long, so the two cuts are one *)
    pose proof (f_equal (@length _) Hcut) as Hl. rewrite !app_length in Hl.
    apply footer_decode_magic in Hdec as Hfoot'. destruct Hfoot' as [Hfoot' _].
    apply app_inv_length in Hcut as [-> ->]; [|lia].
    split; [reflexivity|]. exists f. split; [exact Hdec|]. split; [exact Hhash | exact Hlen].
  Qed.

  Lemma load_track_ok_inv file off len sum b :
    load_track H file off len sum = Ok b -> b = slice file (N.to_nat off) (N.to_nat len) /\ H b = sum.
  Proof.
    unfold load_track. destruct (MAX_INDEX_BYTES <? len); [discriminate|].
    destruct (negb (Nat.eqb _ _)); [discriminate|].
    destruct (negb (guard_check H _ sum)) eqn:Hg; [discriminate|].
    intros E; inversion E; subst b. split; [reflexivity|].
    apply negb_false_iff in Hg. apply guard_check_true in Hg. exact Hg.
  Qed.

  Lemma read_payload_ok_inv ctx file fr raw :
    read_frame_payload_bytes H ctx file fr = Ok raw ->
    validate_frame_bounds ctx (N.of_nat (length file)) fr = Ok tt /\
    raw = slice file (N.to_nat (f_off fr)) (N.to_nat (f_len fr)) /\
    (f_len fr = 0 \/ H raw = f_checksum fr).
  Proof.
    unfold read_frame_payload_bytes.
    destruct (validate_frame_bounds ctx _ fr) as [[]| |] eqn:Hv; [|discriminate|discriminate].
    pose proof (raw_slice_length file fr (validate_ok_range ctx (N.of_nat (length file)) fr Hv)) as Hl.
    destruct (negb (Nat.eqb (length _) 0)) eqn:He; cbn [andb].
    - destruct (negb (guard_check H _ (f_checksum fr))) eqn:Hg; [discriminate|].
      intros E; inversion E; subst raw. repeat split.
      right. apply negb_false_iff in Hg. apply guard_check_true in Hg. exact Hg.
    - intros E; inversion E; subst raw. repeat split.
      left. apply negb_false_iff, Nat.eqb_eq in He. rewrite He in Hl. cbn in Hl. lia.
  Qed.

  Theorem payload_read_detects ctx file file' fr raw raw' :
    read_frame_payload_bytes H ctx file fr = Ok raw ->
    read_frame_payload_bytes H ctx file' fr = Ok raw' ->
    (H raw' = H raw -> raw' = raw) ->
    raw' = raw.
  Proof.
    intros H1 H2 Hcf. apply read_payload_ok_inv in H1, H2.
    destruct H1 as (_ & -> & D1). destruct H2 as (_ & -> & D2).
    destruct (N.eq_dec (f_len fr) 0) as [E0 | Hlen].
    - rewrite E0. reflexivity.
    - (* both windows hash to the frame's checksum *)
      destruct D1 as [E1 | S1]; [contradiction|]. destruct D2 as [E2 | S2]; [contradiction|].
      apply Hcf. congruence.
  Qed.

  Theorem read_depends_on_window ctx (file file' : bytes) fr :
    length file' = length file ->
    slice file' (N.to_nat (f_off fr)) (N.to_nat (f_len fr)) = slice file (N.to_nat (f_off fr)) (N.to_nat (f_len fr)) ->
    read_frame_payload_bytes H ctx file' fr = read_frame_payload_bytes H ctx file fr.
  Proof. intros Hl Hs. unfold read_frame_payload_bytes. rewrite Hl, Hs. reflexivity. Qed.

  Theorem run_reads_pointwise ctx file sched : forall hist,
    run_reads H ctx file hist sched = map (read_frame_payload_bytes H ctx file) sched.
  Proof.
    induction sched as [|fr r IH]; intros hist; [reflexivity|].
    cbn [run_reads handle_read map]. rewrite IH. reflexivity.
  Qed.

  Lemma verify_passed_iff deep s :
    verify_overall deep s = Passed <-> forall c, In c (verify_checks deep s) -> c <> Failed.
  Proof.
    unfold verify_overall. destruct (existsb is_failed (verify_checks deep s)) eqn:E.
    - split; [discriminate|]. intros Hall. apply existsb_exists in E. destruct E as [c [Hin Hf]].
      destruct c; try discriminate. exfalso. exact (Hall Failed Hin eq_refl).
    - split; [|reflexivity]. intros _ c Hin ->.
      assert (existsb is_failed (verify_checks deep s) = true) by (apply existsb_exists; exists Failed; split; [exact Hin | reflexivity]).
      congruence.
  Qed.

  Lemma verify_deep_passed_payloads s : verify_overall true s = Passed -> v_payloads s = true.
  Proof.
    intros Hp. destruct (v_payloads s) eqn:E; [reflexivity|]. exfalso.
    apply (proj1 (verify_passed_iff true s) Hp Failed); [|reflexivity].
    unfold verify_checks. rewrite E. apply in_or_app. right. apply in_or_app. right.
    apply in_or_app. left. cbn. auto.
  Qed.

  Variable lex_ok vec_ok : bytes -> bool.

  Lemma verify_deep_passed_reads file l fr :
    verify_overall true (vstate_of H lex_ok vec_ok file l) = Passed ->
    In fr (l_frame_list l) -> f_active fr = true -> f_len fr <> 0 ->
    exists raw, read_frame_payload_bytes H (l_ctx l) file fr = Ok raw.
  Proof.
    intros Hp Hin Ha Hl. apply verify_deep_passed_payloads in Hp. cbn [vstate_of v_payloads] in Hp.
    assert (Hr : payload_reads H (l_ctx l) file fr = true).
    { apply (proj1 (forallb_forall _ _) Hp), filter_In. split; [exact Hin|].
      unfold checked_frame. rewrite Ha. apply negb_true_iff, N.eqb_neq, Hl. }
    unfold payload_reads in Hr. destruct (read_frame_payload_bytes H (l_ctx l) file fr); [eauto | discriminate..].
  Qed.

  Theorem vstate_blind (pre mid mid' post : bytes) l :
    length mid' = length mid ->
    layout_outside l (N.of_nat (length pre)) (N.of_nat (length pre + length mid)) = true ->
    vstate_of H lex_ok vec_ok (pre ++ mid' ++ post) l = vstate_of H lex_ok vec_ok (pre ++ mid ++ post) l.
  Proof.
    intros Hl Ho. unfold layout_outside in Ho. rewrite !andb_true_iff in Ho.
    destruct Ho as ((((Hwal & Htime) & Hlex) & Hvec) & Hfr).
    unfold vstate_of. f_equal.
    - (* v_time: read_track reads forward from off *)
      destruct (l_time l) as [[[off len] count]|]; [|reflexivity].
      apply N.leb_le in Htime. unfold read_track. rewrite !skipn_after by lia. rewrite Hl. reflexivity.
    - destruct (l_lex l) as [[off len]|]; [|reflexivity]. rewrite (slice_outside pre mid mid' post off len Hl Hlex). reflexivity.
    - destruct (l_vec l) as [[off len]|]; [|reflexivity]. rewrite (slice_outside pre mid mid' post off len Hl Hvec). reflexivity.
    - (* v_pending: the log region *)
      rewrite (slice_outside pre mid mid' post (l_wal_off l) (l_wal_size l) Hl Hwal). reflexivity.
    - (* v_payloads: each checked frame's window *)
      apply forallb_ext_in. intros fr Hin. rewrite forallb_forall in Hfr.
      unfold payload_reads. rewrite (read_depends_on_window (l_ctx l) (pre ++ mid ++ post) (pre ++ mid' ++ post) fr);
        [reflexivity | rewrite !app_length, Hl; reflexivity | apply slice_outside; auto].
  Qed.
End GuardProofs.
