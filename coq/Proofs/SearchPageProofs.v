(* Proofs for C16 (search pagination) over Model/SearchPage.v.

   Layer: the nested page loop equals a single pass (`flat`) over the flattened slice
   stream (`items`); from an offset it skips `offset` items and then takes items until the
   page holds k hits (`takep`), so a request answers `page_spec` at the offset its cursor parses
   to (`page_of_eq`); following next_cursor therefore cuts the stream into
   consecutive non-empty intervals (`partition`), whatever the evaluated list, the page
   size, the emit function (tantivy or fallback) and with or without the early break.

   End to end: while the candidate list fits into the first page's doc_limit and the
   per-document snippet cap does not bind, every request of the walk -- and the one-shot
   request -- evaluates the same list, so the layer theorem transfers. *)
From MV Require Import Base.Prelude Base.Facts Model.SearchPage.

Fixpoint somes {A} (l : list (option A)) : list A :=
  match l with
  | [] => []
  | None :: r => somes r
  | Some x :: r => x :: somes r
  end.

Lemma somes_app {A} (a b : list (option A)) : somes (a ++ b) = somes a ++ somes b.
Proof. induction a as [|[x|] a IH]; cbn [somes app]; [reflexivity| rewrite IH; reflexivity | exact IH]. Qed.

Lemma somes_firstn_skipn {A} (l : list (option A)) n : somes (firstn n l) ++ somes (skipn n l) = somes l.
Proof. rewrite <- somes_app, firstn_skipn. reflexivity. Qed.

Lemma len_app {A} (a b : list A) : len (a ++ b) = (len a + len b)%N.
Proof. unfold len. rewrite app_length. lia. Qed.

Lemma len_nil {A} : len (@nil A) = 0%N.
Proof. reflexivity. Qed.

Lemma parse_cursor_post c total : post (parse_cursor c total) (fun o => (o <= total)%N) (fun _ => True) False.
Proof.
  unfold parse_cursor. destruct c as [[n padded| |]|]; cbn [post].
  - destruct (N.ltb_spec total n) as [_|Hle]; [exact I | exact Hle].
  - lia.
  - exact I.
  - lia.
Qed.

Section Layer.
  Variable emit : edoc -> N * N -> option hit.

  Definition items (ev : list edoc) : list (option hit) :=
    flat_map (fun d => map (emit d) (e_slices d)) ev.

  Definition stream (ev : list edoc) : list hit := somes (items ev).

  Section Loop.
    Variables k offset : N.

    Fixpoint flat (its : list (option hit)) (st : pstate) : pstate :=
      match its with
      | [] => st
      | it :: r =>
          let '(hits, produced) := st in
          if (produced <? offset)%N then flat r (hits, (produced + 1)%N)
          else if (len hits =? k)%N then st
          else match it with
               | None => flat r (hits, (produced + 1)%N)
               | Some h => flat r (hits ++ [h], (produced + 1)%N)
               end
      end.

    Lemma flat_stuck its hits produced :
      len hits = k -> (offset <= produced)%N -> flat its (hits, produced) = (hits, produced).
    Proof.
      intros Hk Ho. destruct its as [|it r]; cbn [flat]; [reflexivity|].
      replace (produced <? offset)%N with false by lia.
      replace (len hits =? k)%N with true by lia. reflexivity.
    Qed.

    Lemma inner_flat d sls st : inner_loop emit k offset d sls st = flat (map (emit d) sls) st.
    Proof.
      revert st. induction sls as [|sl r IH]; intros [hits produced]; cbn [inner_loop flat map]; [reflexivity|].
      destruct (produced <? offset)%N; [apply IH|].
      destruct (len hits =? k)%N; [reflexivity|].
      destruct (emit d sl); apply IH.
    Qed.

    Lemma flat_app a b st : flat (a ++ b) st = flat b (flat a st).
    Proof.
      revert st. induction a as [|it r IH]; intros [hits produced]; cbn [flat app]; [reflexivity|].
      destruct (produced <? offset)%N eqn:E1; [apply IH|].
      destruct (len hits =? k)%N eqn:E2.
      - symmetry. apply flat_stuck; lia.
      - destruct it; apply IH.
    Qed.

    Lemma outer_flat early docs st : outer_loop emit k offset early docs st = flat (items docs) st.
    Proof.
      revert st. induction docs as [|d r IH]; intros [hits produced]; cbn [outer_loop items flat_map]; [reflexivity|].
      fold (items r).
      destruct (early && (len hits =? k)%N && (offset <=? produced)%N) eqn:E.
      - symmetry. apply flat_stuck; lia.
      - rewrite IH, inner_flat, flat_app. reflexivity.
    Qed.

    Lemma flat_skip its : forall hits produced,
      (produced <= offset)%N -> (offset - produced <= len its)%N ->
      flat its (hits, produced) = flat (skipn (N.to_nat (offset - produced)) its) (hits, offset).
    Proof.
      induction its as [|it r IH]; intros hits produced Hle Hlen.
      - rewrite skipn_nil. cbn [flat]. unfold len in Hlen; cbn [length] in Hlen. f_equal. lia.
      - cbn [flat]. destruct (produced <? offset)%N eqn:E.
        + rewrite IH by (unfold len in *; cbn [length] in Hlen; lia).
          replace (N.to_nat (offset - produced)) with (S (N.to_nat (offset - (produced + 1)))) by lia.
          reflexivity.
        + assert (produced = offset) by lia. subst produced.
          replace (N.to_nat (offset - offset)) with 0 by lia. cbn [skipn flat]. rewrite E. reflexivity.
    Qed.

    (* takes items while the page has room: (the hits taken, the number of items passed) *)
    Fixpoint takep (its : list (option hit)) (room : nat) : list hit * nat :=
      match its with
      | [] => ([], 0)
      | it :: r =>
          match room with
          | O => ([], 0)
          | S room' =>
              match it with
              | None => (fst (takep r (S room')), S (snd (takep r (S room'))))
              | Some x => (x :: fst (takep r room'), S (snd (takep r room')))
              end
          end
      end.

    Lemma flat_take its : forall room hits produced,
      (offset <= produced)%N -> (len hits + N.of_nat room = k)%N ->
      flat its (hits, produced) =
      (hits ++ fst (takep its room), (produced + N.of_nat (snd (takep its room)))%N).
    Proof.
      induction its as [|it r IH]; intros room hits produced Ho Hk.
      - cbn [flat takep fst snd]. rewrite app_nil_r. f_equal. lia.
      - cbn [flat]. replace (produced <? offset)%N with false by lia.
        destruct room as [|room'].
        + replace (len hits =? k)%N with true by lia. cbn [takep fst snd]. rewrite app_nil_r. f_equal. lia.
        + replace (len hits =? k)%N with false by lia.
          destruct it as [x|].
          * rewrite (IH room') by (rewrite ?len_app; unfold len in *; cbn [length] in *; lia).
            cbn [takep fst snd]. rewrite <- app_assoc. cbn [app]. f_equal. lia.
          * rewrite (IH (S room')) by lia. cbn [takep fst snd]. f_equal. lia.
    Qed.
  End Loop.

  Lemma takep_le its : forall room, snd (takep its room) <= length its.
  Proof.
    induction its as [|it r IH]; intros room; cbn [takep snd length]; [lia|].
    destruct room as [|room']; cbn [snd]; [lia|].
    destruct it; cbn [snd]; [specialize (IH room') | specialize (IH (S room'))]; lia.
  Qed.

  Lemma takep_hits its : forall room, fst (takep its room) = somes (firstn (snd (takep its room)) its).
  Proof.
    induction its as [|it r IH]; intros room; cbn [takep]; [reflexivity|].
    destruct room as [|room']; [reflexivity|].
    destruct it; cbn [fst snd firstn somes]; [rewrite <- IH; reflexivity | apply IH].
  Qed.

  Lemma takep_progress its room : its <> [] -> room <> 0 -> 1 <= snd (takep its room).
  Proof.
    destruct its as [|it r]; [congruence|]. destruct room as [|room']; [congruence|].
    intros _ _. cbn [takep]. destruct it; cbn [snd]; lia.
  Qed.

  Lemma takep_full its : forall room,
    snd (takep its room) < length its -> length (fst (takep its room)) = room.
  Proof.
    induction its as [|it r IH]; intros room; cbn [takep snd fst length]; [lia|].
    destruct room as [|room']; [reflexivity|].
    destruct it; cbn [fst snd length]; intros H; [rewrite IH by lia; reflexivity | apply IH; lia].
  Qed.

  Lemma takep_firstn its : forall room, fst (takep its room) = firstn room (somes its).
  Proof.
    induction its as [|it r IH]; intros room; cbn [takep]; [destruct room; reflexivity|].
    destruct room as [|room']; [reflexivity|].
    destruct it as [x|]; cbn [fst somes firstn]; [rewrite IH; reflexivity | apply IH].
  Qed.

  Lemma takep_room its room : length (fst (takep its room)) <= room.
  Proof. rewrite takep_firstn. apply firstn_le_length. Qed.

  Lemma takep_all its room : length (somes its) <= room -> fst (takep its room) = somes its.
  Proof. intros H. rewrite takep_firstn. apply firstn_all2, H. Qed.

  Lemma total_slices_items ev : total_slices ev = len (items ev).
  Proof.
    induction ev as [|d r IH]; cbn [total_slices fold_right items flat_map]; [reflexivity|].
    fold (total_slices r). fold (items r). rewrite len_app, IH. unfold len. rewrite map_length. reflexivity.
  Qed.

  Definition page_spec (ev : list edoc) (top_k : N) (start : nat) : page :=
    let its := items ev in
    let t := takep (skipn start its) (N.to_nat (N.max top_k 1)) in
    mkPage (fst t) (len its)
           (if (N.of_nat (start + snd t) <? len its)%N then Some (N.of_nat (start + snd t)) else None).

  Lemma page_of_eq early ev top_k c :
    page_of early emit ev top_k c =
    match parse_cursor c (total_slices ev) with
    | Ok o => Ok (page_spec ev top_k (N.to_nat o))
    | Err e => Err e
    | Panic s => Panic s
    end.
  Proof.
    unfold page_of. destruct (parse_cursor c (total_slices ev)) as [o| |] eqn:Hc; [|reflexivity|reflexivity].
    (* parse_cursor accepts no offset beyond the total: there are `o` items to skip *)
    apply (post_ok (parse_cursor_post c (total_slices ev))) in Hc. rewrite total_slices_items in Hc.
    rewrite outer_flat, flat_skip by (unfold len in *; lia).
    rewrite flat_take with (room := N.to_nat (N.max top_k 1)) by (unfold len; cbn [length]; lia).
    cbn [app]. unfold page_spec.
    rewrite <- total_slices_items, N.sub_0_r, Nat2N.inj_add, N2Nat.id. reflexivity.
  Qed.

  (* `partition its total start pages`: the pages cut its[start..] into consecutive
     intervals [start, n1) [n1, n2) ... [nj, end), each page holding exactly the hits of
     its interval, announcing the next interval's start, and reporting `total`. *)
  Inductive partition (its : list (option hit)) (total : N) : nat -> list page -> Prop :=
  | part_last start p :
      p_next p = None -> p_total p = total ->
      p_hits p = somes (skipn start its) ->
      partition its total start [p]
  | part_cons start n p ps :
      p_next p = Some (N.of_nat n) -> start < n -> n < length its -> p_total p = total ->
      p_hits p = somes (firstn (n - start) (skipn start its)) ->
      partition its total n ps ->
      partition its total start (p :: ps).

  Lemma partition_concat {its total start pages} :
    partition its total start pages -> concat (map p_hits pages) = somes (skipn start its).
  Proof.
    induction 1 as [start p _ _ Hh | start n p ps _ Hlt _ _ Hh _ IH]; cbn [map concat].
    - rewrite app_nil_r. exact Hh.
    - rewrite IH, Hh. rewrite <- (somes_firstn_skipn (skipn start its) (n - start)).
      rewrite skipn_skipn. replace (start + (n - start)) with n by lia. reflexivity.
  Qed.

  Lemma partition_totals {its total start pages} :
    partition its total start pages -> Forall (fun p => p_total p = total) pages.
  Proof. induction 1; constructor; auto. Qed.

  Lemma partition_nonempty its total start pages : partition its total start pages -> pages <> [].
  Proof. destruct 1; congruence. Qed.

  Lemma page_spec_cases ev top_k start :
    let p := page_spec ev top_k start in
    p_total p = total_slices ev /\ (len (p_hits p) <= N.max top_k 1)%N /\
    (p_next p = None /\ p_hits p = somes (skipn start (items ev)) \/
     exists n, p_next p = Some (N.of_nat n) /\ start < n < length (items ev) /\
               p_hits p = somes (firstn (n - start) (skipn start (items ev)))).
  Proof.
    unfold page_spec. cbn [p_total p_hits p_next]. set (its := items ev) in *.
    set (room := N.to_nat (N.max top_k 1)).
    pose proof (takep_le (skipn start its) room) as Hle. rewrite skipn_length in Hle.
    pose proof (takep_room (skipn start its) room) as Hroom.
    pose proof (takep_hits (skipn start its) room) as Hhits.
    pose proof (takep_progress (skipn start its) room) as Hprog.
    destruct (takep (skipn start its) room) as [hits n]. cbn [fst snd] in *.
    split; [symmetry; apply total_slices_items|]. split; [unfold len; lia|].
    unfold len. destruct (N.ltb_spec (N.of_nat (start + n)) (N.of_nat (length its))) as [Hlt|Hge].
    - right. exists (start + n). split; [reflexivity|].
      replace (start + n - start) with n by lia. split; [|exact Hhits].
      enough (1 <= n) by lia. apply Hprog; [|lia].
      intros Hnil. apply (f_equal (@length _)) in Hnil. rewrite skipn_length in Hnil. cbn [length] in Hnil. lia.
    - left. split; [reflexivity|]. rewrite Hhits, firstn_all2; [reflexivity|]. rewrite skipn_length. lia.
  Qed.

  Lemma parse_cursor_of n total : (n <= total)%N -> parse_cursor (cursor_of n) total = Ok n.
  Proof. intros H. unfold cursor_of, parse_cursor. replace (total <? n)%N with false by lia. reflexivity. Qed.

  Lemma follow_partition early ev top_k : forall fuel start c,
    parse_cursor c (total_slices ev) = Ok (N.of_nat start) ->
    length (items ev) - start < fuel ->
    exists pages,
      follow fuel (page_of early emit ev top_k) c = (pages, Done) /\
      partition (items ev) (total_slices ev) start pages /\
      length pages <= Nat.max 1 (length (items ev) - start) /\
      Forall (fun p => len (p_hits p) <= N.max top_k 1)%N pages.
  Proof.
    induction fuel as [|f IH]; intros start c Hc Hf; [lia|].
    cbn [follow]. rewrite page_of_eq, Hc, Nat2N.id.
    destruct (page_spec_cases ev top_k start) as (Ht & Hroom & [[Hn Hh] | (n & Hn & Hlt & Hh)]); rewrite Hn.
    - eexists; split; [reflexivity|]. split; [apply part_last; assumption|].
      split; [cbn [length]; lia | constructor; [exact Hroom | constructor]].
    - destruct (IH n (cursor_of (N.of_nat n))) as (ps & Hfo & Hpart & Hlen & Hall);
        [apply parse_cursor_of; rewrite total_slices_items; unfold len; lia | lia |].
      rewrite Hfo. eexists; split; [reflexivity|].
      split; [apply part_cons with (n := n); [exact Hn | lia | lia | exact Ht | exact Hh | exact Hpart]|].
      split; [cbn [length]; lia | constructor; assumption].
  Qed.

  Lemma oneshot_spec early ev K :
    (len (stream ev) <= N.max K 1)%N ->
    exists one, page_of early emit ev K None = Ok one /\
                p_hits one = stream ev /\ p_total one = total_slices ev.
  Proof.
    intros HK. eexists. split; [exact (page_of_eq early ev K None)|].
    unfold page_spec. change (N.to_nat 0) with 0. cbn [p_hits p_total skipn]. split; [|symmetry; apply total_slices_items].
    apply takep_all. unfold stream, len in HK. lia.
  Qed.

  Theorem layer_pagination early ev k K :
    (len (stream ev) <= N.max K 1)%N ->
    exists pages one,
      follow (S (N.to_nat (total_slices ev))) (page_of early emit ev k) None = (pages, Done) /\
      page_of early emit ev K None = Ok one /\
      concat (map p_hits pages) = p_hits one /\
      Forall (fun p => p_total p = p_total one) pages /\
      partition (items ev) (total_slices ev) 0 pages /\
      (len pages <= N.max 1 (total_slices ev))%N /\
      Forall (fun p => len (p_hits p) <= N.max k 1)%N pages.
  Proof.
    intros HK.
    destruct (oneshot_spec early ev K HK) as (one & Hone & Hh & Ht).
    destruct (follow_partition early ev k (S (N.to_nat (total_slices ev))) 0 None) as (pages & Hf & Hp & Hl & Ha);
      [reflexivity | rewrite total_slices_items; unfold len; lia |].
    assert (Hc : concat (map p_hits pages) = p_hits one)
      by (rewrite (partition_concat Hp), Hh; reflexivity).
    assert (Htot : Forall (fun p => p_total p = p_total one) pages)
      by (rewrite Ht; apply (partition_totals Hp)).
    assert (Hlen : (len pages <= N.max 1 (total_slices ev))%N)
      by (rewrite total_slices_items in *; unfold len in *; lia).
    exists pages, one. exact (conj Hf (conj Hone (conj Hc (conj Htot (conj Hp (conj Hlen Ha)))))).
  Qed.
End Layer.

Lemma page_of_next_lt early emit ev k c p n :
  page_of early emit ev k c = Ok p -> p_next p = Some n -> (n < total_slices ev)%N.
Proof.
  rewrite page_of_eq. destruct (parse_cursor c (total_slices ev)) as [o| |]; [|discriminate|discriminate].
  intros [= <-]. unfold page_spec. cbn [p_next]. rewrite <- total_slices_items.
  destruct (_ <? total_slices ev)%N eqn:Hlt; [intros [= <-]; apply N.ltb_lt, Hlt | discriminate].
Qed.

Lemma page_of_total early emit ev k c p :
  page_of early emit ev k c = Ok p -> p_total p = total_slices ev.
Proof.
  rewrite page_of_eq. destruct (parse_cursor c (total_slices ev)) as [o| |]; [|discriminate|discriminate].
  intros [= <-]. symmetry. apply total_slices_items.
Qed.

Lemma follow_ext s1 s2 : (forall c, s1 c = s2 c) -> forall fuel c, follow fuel s1 c = follow fuel s2 c.
Proof.
  intros Heq. induction fuel as [|f IH]; intros c; cbn [follow]; [reflexivity|].
  rewrite Heq. destruct (s2 c) as [p| |]; try reflexivity.
  destruct (p_next p) as [n|]; [rewrite IH|]; reflexivity.
Qed.

Definition flt_ok (flt : option N) (n : N) : Prop :=
  match flt with
  | None => True
  | Some f => (n <= N.max f 1)%N
  end.

(* the add and the multiplication saturate, so doc_limit is always Ok *)
Lemma doc_limit_total k hint flt : exists L, doc_limit k hint flt = Ok L.
Proof. unfold doc_limit. eexists; reflexivity. Qed.

Lemma doc_limit_mono k h1 h2 L1 L2 :
  (h1 <= h2)%N -> doc_limit k h1 None = Ok L1 -> doc_limit k h2 None = Ok L2 -> (L1 <= L2)%N.
Proof.
  unfold doc_limit. intros Hh [= <-] [= <-].
  apply N.max_le_compat_r, N.min_le_compat_r, N.mul_le_mono_r, N.min_le_compat_r, N.add_le_mono_l, Hh.
Qed.

(* what fits the first page's limit fits every later one *)
Lemma doc_limit_covers n k hint flt L0 :
  doc_limit k 0 None = Ok L0 -> (n <= L0)%N -> flt_ok flt n ->
  exists L, doc_limit k hint flt = Ok L /\ (n <= N.max L 1)%N.
Proof.
  intros H0 Hn Hf. destruct (doc_limit_total k hint None) as [l Hl].
  assert (Hnl : (n <= l)%N) by (pose proof (doc_limit_mono k 0 hint L0 l (N.le_0_l _) H0 Hl); lia).
  clear H0 Hn. unfold doc_limit in *. injection Hl as Hl. rewrite Hl. clear Hl.
  eexists; split; [reflexivity|]. destruct flt as [f|]; cbn [flt_ok] in Hf; lia.
Qed.

Lemma slices_eqb_spec a b : slices_eqb a b = true <-> a = b.
Proof.
  apply list_eqb_spec. intros [x1 x2] [y1 y2]; cbn [fst snd].
  rewrite andb_true_iff, !N.eqb_eq. split; [intros [-> ->]; reflexivity | intros H; inversion H; auto].
Qed.

Lemma cap_binds_false cands k K :
  cap_binds cands k K = false ->
  forall c, In c cands -> c_keep c = true -> slices_at c (N.max k 1) = slices_at c (N.max K 1).
Proof.
  intros H c Hin Hk. apply slices_eqb_spec.
  destruct (slices_eqb (slices_at c (N.max k 1)) (slices_at c (N.max K 1))) eqn:E; [reflexivity|].
  exfalso. assert (Ht : cap_binds cands k K = true); [|congruence].
  apply existsb_exists. exists c. split; [exact Hin|]. rewrite Hk, E. reflexivity.
Qed.

Lemma evaluate_cap_eq cands a b :
  (forall c, In c cands -> c_keep c = true -> slices_at c a = slices_at c b) ->
  evaluate a cands = evaluate b cands.
Proof.
  induction cands as [|c r IH]; intros H; [reflexivity|].
  unfold evaluate in *. cbn [flat_map]. rewrite IH by (intros; apply H; [right|]; assumption).
  destruct (c_keep c) eqn:Ek; [|reflexivity]. rewrite (H c (or_introl eq_refl) Ek). reflexivity.
Qed.

Section EndToEndProofs.
  Variable combined : N -> Z -> N.

  Lemma after_engine_page has_lex cands k c :
    (0 < total_slices (resort combined (evaluate (N.max k 1) cands)))%N ->
    after_engine combined has_lex cands k c =
    match page_of true emit_tantivy (resort combined (evaluate (N.max k 1) cands)) k c with
    | Ok p => Ok (Some p)
    | Err e => Err e
    | Panic s => Panic s
    end.
  Proof.
    intros Ht. unfold after_engine.
    destruct cands as [|c0 r]; [cbv in Ht; discriminate|].
    remember (resort combined (evaluate (N.max k 1) (c0 :: r))) as EV eqn:HEV.
    destruct EV as [|d EV']; [cbv in Ht; discriminate|].
    replace (total_slices (d :: EV') =? 0)%N with false by lia. reflexivity.
  Qed.

  Lemma e2e_page_fixed has_lex flt cands k c :
    limit_binds cands k = false -> flt_ok flt (len cands) ->
    (0 < total_slices (resort combined (evaluate (N.max k 1) cands)))%N ->
    e2e_page combined has_lex flt cands k c =
    page_of true emit_tantivy (resort combined (evaluate (N.max k 1) cands)) k c.
  Proof.
    intros Hlim Hflt Ht. unfold limit_binds in Hlim.
    destruct (doc_limit k 0 None) as [L0| |] eqn:E0; try discriminate.
    destruct (doc_limit_covers (len cands) k (offset_hint c) flt L0 E0) as (L & HL & Hn); [lia | exact Hflt |].
    unfold e2e_page, e2e_search. rewrite HL.
    rewrite firstn_all2 by (unfold len in *; lia).
    rewrite after_engine_page by exact Ht.
    destruct (page_of true emit_tantivy _ k c); reflexivity.
  Qed.

  Theorem e2e_pagination has_lex flt cands k K :
    limit_binds cands k = false -> limit_binds cands K = false -> cap_binds cands k K = false ->
    flt_ok flt (len cands) ->
    let EV := resort combined (evaluate (N.max k 1) cands) in
    (0 < total_slices EV)%N ->
    (len (stream emit_tantivy EV) <= N.max K 1)%N ->
    exists pages one,
      follow (S (N.to_nat (total_slices EV))) (e2e_page combined has_lex flt cands k) None = (pages, Done) /\
      e2e_page combined has_lex flt cands K None = Ok one /\
      concat (map p_hits pages) = p_hits one /\
      Forall (fun p => p_total p = p_total one) pages /\
      partition (items emit_tantivy EV) (total_slices EV) 0 pages /\
      (len pages <= N.max 1 (total_slices EV))%N /\
      Forall (fun p => len (p_hits p) <= N.max k 1)%N pages.
  Proof.
    intros Hk HK Hcap Hflt EV Ht Hroom.
    destruct (layer_pagination emit_tantivy true EV k K Hroom) as (pages & one & Hf & Hone & Hc & Htot & Hp & Hl & Ha).
    exists pages, one. refine (conj _ (conj _ (conj Hc (conj Htot (conj Hp (conj Hl Ha)))))).
    - rewrite <- Hf. apply follow_ext. intros c. apply e2e_page_fixed; assumption.
    - assert (HEV : resort combined (evaluate (N.max K 1) cands) = EV).
      { unfold EV. f_equal. symmetry. apply evaluate_cap_eq. apply cap_binds_false, Hcap. }
      rewrite <- Hone, <- HEV. apply e2e_page_fixed; try assumption.
      rewrite HEV. exact Ht.
  Qed.
End EndToEndProofs.

(* counting hits, for the witnesses of C16 *)
Definition hit_eqb (a b : hit) : bool :=
  (fst a =? fst b)%N && (fst (snd a) =? fst (snd b))%N && (snd (snd a) =? snd (snd b))%N.
Definition count_hit (h : hit) (l : list hit) : nat := length (filter (hit_eqb h) l).
