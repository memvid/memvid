(* Proofs about Model/Pii.v (mask_pii = sequential replace_all passes, contains_pii = any
   is_match), for every pattern list, every replacement-token list and every Unicode table.
   A window of the result that holds nothing a pass inserted is pulled back through the passes
   (pass_back, pullback_to), so every match left after masking touches a token of its own or
   a later pass (residual_touches_token); hence the marked scan of known_class finds what the
   plain test finds (known_class_is_test), and the statements about the class follow from that. *)
From MV Require Import Base.Prelude Base.Facts Model.Regex Model.Pii Proofs.RegexProofs Proofs.PassProofs.

Lemma hd_error_map {A B} (f : A -> B) l : hd_error (map f l) = option_map f (hd_error l).
Proof. destruct l; reflexivity. Qed.

Section Pii.
  Variables is_digit is_space is_word : N -> bool.
  Notation rm := (rm is_digit is_space is_word).
  Notation match_at := (match_at is_digit is_space is_word).
  Notation im := (im is_digit is_space is_word).
  Notation is_match := (is_match is_digit is_space is_word).
  Notation replace_all := (replace_all is_digit is_space is_word).
  Notation replace_all_m := (replace_all_m is_digit is_space is_word).
  Notation mask_pii := (mask_pii is_digit is_space is_word).
  Notation contains_pii := (contains_pii is_digit is_space is_word).
  Notation mask_m := (mask_m is_digit is_space is_word).
  Notation mask_marked := (mask_marked is_digit is_space is_word).
  Notation resid := (resid is_digit is_space is_word).
  Notation kc := (kc is_digit is_space is_word).
  Notation known_class := (known_class is_digit is_space is_word).

  Lemma mask_no_match ps text :
    (forall rt, In rt ps -> is_match (fst rt) text = false) -> mask_pii ps text = text.
  Proof.
    unfold Pii.mask_pii. induction ps as [|rt ps IH]; intros H; cbn; [reflexivity|].
    rewrite replace_all_no_match by (apply H; left; reflexivity).
    apply IH. intros rt' Hin. apply H. right. exact Hin.
  Qed.

  Theorem contains_false_unchanged mask_order contains_order text :
    incl (map fst mask_order) contains_order ->
    contains_pii contains_order text = false -> mask_pii mask_order text = text.
  Proof.
    intros Hincl H. apply mask_no_match. intros rt Hin.
    apply (existsb_false _ contains_order H). apply Hincl. apply in_map. exact Hin.
  Qed.

  Lemma mask_m_erase ps : forall j ms, map fst (mask_m j ps ms) = mask_pii ps (map fst ms).
  Proof.
    unfold Pii.mask_pii. induction ps as [|rt ps IH]; intros j ms; cbn; [reflexivity|].
    rewrite IH, replace_all_m_erase. reflexivity.
  Qed.

  Lemma mask_marked_erase ps text : map fst (mask_marked ps text) = mask_pii ps text.
  Proof.
    unfold Pii.mask_marked. rewrite mask_m_erase, map_fst_mark. reflexivity.
  Qed.

  Definition window_clean (i : nat) (u c v : mtext) : Prop :=
    (forall y, lasto None u = Some y -> snd y < i) /\ (forall y, In y c -> snd y < i)
    /\ (forall y, hd_error v = Some y -> snd y < i).

  Definition toks_ok (ps : list (regex * list N)) : Prop := forall rt, In rt ps -> snd rt <> [].

  Lemma pass_back {r tok j ms u c v i} :
    tok <> [] -> replace_all_m r tok j ms = u ++ c ++ v -> window_clean i u c v -> i <= j ->
    exists u' v', ms = u' ++ c ++ v' /\ lasto None u' = lasto None u /\ hd_error v' = hd_error v /\
                  match_at (S (length ms)) r (lasto None (map fst u')) (map fst (c ++ v')) = None.
  Proof.
    intros Hne E (H1 & H2 & H3) Hij.
    (* the three window conditions of pass_pullback: a mark < i <= j is not j *)
    apply (pass_pullback is_digit is_space is_word (S (length ms)) r (mark j tok) j
                         (mark_ne j tok Hne) (mark_snd j tok) ms None u c v E).
    - intros y Hy. specialize (H1 y Hy). lia.
    - intros y Hy. specialize (H2 y Hy). lia.
    - intros y Hy. specialize (H3 y Hy). lia.
  Qed.

  Lemma window_clean_transport {i u c v u' v'} :
    window_clean i u c v -> lasto None u' = lasto None u -> hd_error v' = hd_error v -> window_clean i u' c v'.
  Proof.
    intros (H1 & H2 & H3) El Eh. split; [|split].
    - intros y Hy. rewrite El in Hy. exact (H1 y Hy).
    - exact H2.
    - intros y Hy. rewrite Eh in Hy. exact (H3 y Hy).
  Qed.

  Lemma pullback_to : forall ps j ms i u c v k,
    toks_ok ps -> mask_m j ps ms = u ++ c ++ v -> window_clean k u c v -> k <= j + i ->
    exists u' v', mask_m j (firstn i ps) ms = u' ++ c ++ v' /\ lasto None u' = lasto None u /\ hd_error v' = hd_error v /\
                  forall rt, nth_error ps i = Some rt ->
                             match_at (S (length (u' ++ c ++ v'))) (fst rt) (lasto None (map fst u')) (map fst (c ++ v')) = None.
  Proof.
    induction ps as [|rt ps IH]; intros j ms i u c v k Hok E Hw Hk; cbn in E.
    - exists u, v. rewrite firstn_nil. repeat split; [exact E|destruct i; discriminate].
    - assert (Hok' : toks_ok ps) by (intros x Hx; exact (Hok x (or_intror Hx))).
      destruct i as [|i]; [|apply (IH (S j) _ i u c v k Hok' E Hw); lia].
      (* back through the later passes first, then through this one *)
      destruct (IH (S j) _ 0 u c v k Hok' E Hw ltac:(lia)) as (u1 & v1 & E1 & Hl1 & Hh1 & _). cbn in E1.
      pose proof (window_clean_transport Hw Hl1 Hh1) as Hw1. rewrite Nat.add_0_r in Hk.
      destruct (pass_back (Hok rt (or_introl eq_refl)) E1 Hw1 Hk) as (u0 & v0 & E0 & Hl0 & Hh0 & Hm).
      exists u0, v0. repeat split; [exact E0|congruence|congruence|]. intros rt' [= <-]. rewrite <- E0. exact Hm.
  Qed.

  (* C36 (7): in the result of passes j, j+1, ... a match of the pattern of pass j+i has, in its
     window, a code point inserted by pass j+i or a later one *)
  Theorem residual_touches_token : forall ps j ms i r tok u c v q,
    toks_ok ps -> nth_error ps i = Some (r, tok) ->
    mask_m j ps ms = u ++ c ++ v ->
    rm r (lasto None (map fst u), map fst (c ++ v)) (q, map fst v) ->
    ~ window_clean (j + i) u c v.
  Proof.
    intros ps j ms i r tok u c v q Hok Hn E HR Hw.
    destruct (pullback_to ps j ms i u c v (j + i) Hok E Hw (le_n _)) as (u0 & v0 & _ & Hl0 & Hh0 & Hm).
    specialize (Hm _ Hn). cbn [fst] in Hm.
    (* the match found in the final text is a match before pass j+i: same context on both sides *)
    assert (Ep : lasto None (map fst u) = lasto None (map fst u0)).
    { rewrite !lasto_map. congruence. }
    assert (Eh : hd_error (map fst v0) = hd_error (map fst v)).
    { rewrite !hd_error_map. congruence. }
    rewrite map_app in HR, Hm.
    apply (rm_framed is_digit is_space is_word r) in HR as (w & Ew & _ & HR0).
    apply app_inv_tail in Ew. subst w. specialize (HR0 _ Eh). rewrite Ep in HR0.
    apply (match_at_complete is_digit is_space is_word (S (length (u0 ++ c ++ v0))) r HR0); [|exact Hm].
    rewrite !app_length, !map_length. lia.
  Qed.

  Lemma window_cleanb_sound j u c v :
    window_cleanb j (lasto None u) c v = true -> window_clean j u c v.
  Proof.
    unfold window_cleanb, markb, window_clean. intros H.
    apply andb_prop in H. destruct H as [H H3]. apply andb_prop in H. destruct H as [H1 H2].
    repeat split; intros y Hy.
    - rewrite Hy in H1. apply Nat.ltb_lt. exact H1.
    - rewrite forallb_forall in H2. apply Nat.ltb_lt. apply H2. exact Hy.
    - rewrite Hy in H3. apply Nat.ltb_lt. exact H3.
  Qed.

  Lemma resid_is_im n r j full
        (H : forall u c v q, full = u ++ c ++ v ->
                             rm r (lasto None (map fst u), map fst (c ++ v)) (q, map fst v) -> ~ window_clean j u c v) :
    forall ms u0, full = u0 ++ ms ->
                  resid n r j (lasto None u0) (map fst ms) ms = im n r (lasto None (map fst u0)) (map fst ms).
  Proof.
    assert (Here : forall ms u0 rest, full = u0 ++ ms ->
               match_at n r (lasto None (map fst u0)) (map fst ms) = Some rest ->
               negb (window_cleanb j (lasto None u0) (firstn (length (map fst ms) - length rest) ms)
                                   (skipn (length (map fst ms) - length rest) ms)) = true).
    { intros ms u0 rest Ef Em.
      destruct (match_at_sound is_digit is_space is_word Em) as (w & Ew & HR).
      assert (El : length (map fst ms) - length rest = length w) by (rewrite Ew, app_length; lia).
      rewrite El.
      set (c := firstn (length w) ms). set (v := skipn (length w) ms).
      assert (Ec : map fst c = w). { unfold c. rewrite <- firstn_map, Ew. apply firstn_app_exact. reflexivity. }
      assert (Ev : map fst v = rest). { unfold v. rewrite <- skipn_map, Ew. apply skipn_app_exact. reflexivity. }
      destruct (window_cleanb j (lasto None u0) c v) eqn:Eb; [|reflexivity]. exfalso.
      apply window_cleanb_sound in Eb.
      apply (H u0 c v (lasto (lasto None (map fst u0)) w)); [| |exact Eb].
      - rewrite Ef. f_equal. unfold c, v. symmetry. apply firstn_skipn.
      - rewrite map_app, Ec, Ev, <- Ew. exact HR. }
    induction ms as [|xm ms IH]; intros u0 Ef; rewrite im_eq; cbn [Pii.resid]; rewrite <- lasto_map.
    - destruct (match_at n r (lasto None (map fst u0)) (map fst [])) as [rest|] eqn:Em; [|reflexivity].
      rewrite (Here _ u0 rest Ef Em). reflexivity.
    - destruct (match_at n r (lasto None (map fst u0)) (map fst (xm :: ms))) as [rest|] eqn:Em.
      + rewrite (Here _ u0 rest Ef Em). reflexivity.
      + rewrite orb_false_l. cbn [map tl].
        specialize (IH (u0 ++ [xm])). rewrite lasto_snoc, map_app in IH. cbn [map] in IH. rewrite lasto_snoc in IH.
        apply IH. rewrite <- app_assoc. exact Ef.
  Qed.

  Lemma kc_is_existsb fm : forall ps j,
    (forall i rt, nth_error ps i = Some rt ->
                  resid (S (length fm)) (fst rt) (j + i) None (map fst fm) fm = is_match (fst rt) (map fst fm)) ->
    kc j ps fm = existsb (fun rt => is_match (fst rt) (map fst fm)) ps.
  Proof.
    induction ps as [|rt ps IH]; intros j H; cbn [Pii.kc existsb]; [reflexivity|].
    pose proof (H 0 rt eq_refl) as H0. rewrite Nat.add_0_r in H0. rewrite H0. f_equal.
    apply IH. intros i rt' Hn. replace (S j + i) with (j + S i) by lia. exact (H (S i) rt' Hn).
  Qed.

  Theorem known_class_is_test mask_order text :
    toks_ok mask_order ->
    known_class mask_order text = existsb (fun rt => is_match (fst rt) (mask_pii mask_order text)) mask_order.
  Proof.
    intros Hok. unfold Pii.known_class. rewrite <- (mask_marked_erase mask_order text).
    set (fm := mask_marked mask_order text).
    apply kc_is_existsb. intros i [r tok] En. cbn [fst]. rewrite is_match_map_fst.
    apply (resid_is_im _ r (1 + i) fm) with (u0 := []); [|reflexivity].
    intros u c v q Ef HR.
    apply (residual_touches_token mask_order 1 (mark 0 text) i r tok u c v q Hok En); [|exact HR].
    rewrite <- Ef. reflexivity.
  Qed.

  Theorem residual_in_known_class mask_order contains_order text :
    toks_ok mask_order -> incl contains_order (map fst mask_order) ->
    contains_pii contains_order (mask_pii mask_order text) = true -> known_class mask_order text = true.
  Proof.
    intros Hok Hincl H. rewrite (known_class_is_test _ _ Hok).
    unfold Pii.contains_pii in H. apply existsb_exists in H. destruct H as (r & Hin & Hm).
    apply Hincl, in_map_iff in Hin. destruct Hin as (rt & <- & Hin).
    apply existsb_exists. exists rt. split; [exact Hin | exact Hm].
  Qed.

  Theorem known_class_is_residual mask_order contains_order text :
    toks_ok mask_order -> incl (map fst mask_order) contains_order ->
    known_class mask_order text = true -> contains_pii contains_order (mask_pii mask_order text) = true.
  Proof.
    intros Hok Hincl H. rewrite (known_class_is_test _ _ Hok) in H.
    apply existsb_exists in H. destruct H as (rt & Hin & Hm).
    unfold Pii.contains_pii. apply existsb_exists.
    exists (fst rt). split; [apply Hincl, in_map, Hin | exact Hm].
  Qed.

  Theorem outside_known mask_order contains_order text :
    toks_ok mask_order -> incl contains_order (map fst mask_order) -> incl (map fst mask_order) contains_order ->
    known_class mask_order text = false ->
    contains_pii contains_order (mask_pii mask_order text) = false
    /\ mask_pii mask_order (mask_pii mask_order text) = mask_pii mask_order text.
  Proof.
    intros Hok H1 H2 Hk.
    assert (Hc : contains_pii contains_order (mask_pii mask_order text) = false).
    { destruct (contains_pii contains_order (mask_pii mask_order text)) eqn:E; [|reflexivity].
      rewrite (residual_in_known_class mask_order contains_order text Hok H1 E) in Hk. discriminate. }
    split; [exact Hc|]. apply (contains_false_unchanged _ contains_order); assumption.
  Qed.
End Pii.
