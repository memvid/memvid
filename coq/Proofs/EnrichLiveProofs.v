(* C41, progress, from ANY state: two measures on the worker's pc and one invariant of the worker
   left alone.  rank: once the stop flag is set it falls with every worker step, whatever the
   foreground does, and the counters move by at most the task owed (stop_bound; the loop entered
   with the flag set is the case that owes nothing).  steps_to_drain: with the foreground silent
   it falls with every step until the queue is empty.  Live t: a queued task whose frame is found
   stays on its way to Enriched. *)
From MV Require Import Base.Prelude Model.Store Proofs.StoreProofs Model.Derived Model.Enrich Proofs.EnrichProofs.
Local Open Scope N_scope.

(* rank = worker steps left before the loop has exited once the flag is set: a task in hand is
   processed (4), completed (3), possibly checkpointed (2), then the test at the top of the loop
   sees the flag (1).  owed = tasks it may still process, and fail on, on the way. *)
Definition rank (p : wpc) : nat :=
  match p with WHasTask _ => 4 | WProcessed _ => 3 | WCkpt => 2 | WTop => 1 | WStopped => 0 end.
Definition owed (p : wpc) : N := match p with WHasTask _ => 1 | _ => 0 end.

Fixpoint countW (sched : list sitem) : nat :=
  match sched with [] => O | SW _ :: r => S (countW r) | SF _ :: r => countW r end.

Lemma wstep_stop iv extra e w : e_stop e = true ->
  let x1 := wstep iv extra (e, w) in
  e_stop (fst x1) = true /\ (rank (w_pc (snd x1)) <= rank (w_pc w) - 1)%nat /\
  w_nproc (snd x1) + owed (w_pc (snd x1)) <= w_nproc w + owed (w_pc w) /\
  w_nerr (snd x1) + owed (w_pc (snd x1)) <= w_nerr w + owed (w_pc w).
Proof.
  intros Hs.
  destruct (wstep_cases iv extra e w) as [Hpc _|_ Hs' _|t r _ Hs' _|t Hpc|t Hpc|Hpc|Hpc].
  - (* exit *)
    rewrite Hpc. cbn [fst snd set_pc w_pc w_nproc w_nerr rank owed]. split; [destruct (0 <? w_since w); exact Hs|lia].
  - (* idle: excluded, the flag is set *) congruence.
  - (* get: likewise *) congruence.
  - (* process: the owed task is now counted as processed, and as an error at worst *)
    rewrite Hpc. cbn [fst snd w_pc w_nproc w_nerr rank owed]. rewrite process_stop. split; [exact Hs|].
    destruct (snd (process e t)); lia.
  - (* complete *)
    rewrite Hpc. cbn [fst snd w_pc w_nproc w_nerr rank owed complete e_stop]. split; [exact Hs|].
    destruct (iv <=? w_since w + 1); cbn [rank owed]; lia.
  - (* checkpoint *)
    rewrite Hpc. cbn [fst snd w_pc w_nproc w_nerr rank owed]. split; [exact Hs|lia].
  - (* stopped *)
    cbn [fst snd]. rewrite Hpc. cbn [rank owed]. split; [exact Hs|lia].
Qed.

Lemma ftrans_stop e w e1 : ftrans e w e1 -> e_stop e = true -> e_stop e1 = true.
Proof.
  intros HT Hs. destruct HT; cbn [set_stop set_overlap call e_stop]; rewrite ?drain_stop; first [exact Hs | reflexivity].
Qed.

Lemma fstep_stop f e w : e_stop e = true -> e_stop (fst (fstep f (e, w))) = true /\ snd (fstep f (e, w)) = w.
Proof.
  intros Hs. destruct (fstep_cases f e w) as (e1 & -> & HT). split; [exact (ftrans_stop _ _ _ HT Hs)|reflexivity].
Qed.

Lemma stop_bound iv sched : forall x, e_stop (fst x) = true ->
  let x1 := run_from iv x sched in
  e_stop (fst x1) = true /\ (rank (w_pc (snd x1)) <= rank (w_pc (snd x)) - countW sched)%nat /\
  w_nproc (snd x1) + owed (w_pc (snd x1)) <= w_nproc (snd x) + owed (w_pc (snd x)) /\
  w_nerr (snd x1) + owed (w_pc (snd x1)) <= w_nerr (snd x) + owed (w_pc (snd x)).
Proof.
  induction sched as [|i sched IH]; intros [e w] Hs; cbn [run_from fold_left countW fst snd].
  - split; [exact Hs|lia].
  - fold (run_from iv (step iv (e, w) i) sched). destruct i as [extra|f]; cbn [step].
    + destruct (wstep_stop iv extra e w Hs) as (A & B & C & D). destruct (IH _ A) as (A1 & B1 & C1 & D1). split; [exact A1|lia].
    + destruct (fstep_stop f e w Hs) as (A & B). destruct (IH _ A) as (A1 & B1 & C1 & D1). rewrite B in B1, C1, D1. split; [exact A1|lia].
Qed.

Lemma rank_0 p : rank p = O -> p = WStopped.
Proof. destruct p; cbn [rank]; intros H; first [reflexivity | discriminate H]. Qed.

Lemma rank_le_4 p : (rank p <= 4)%nat.
Proof. destruct p; cbn [rank]; lia. Qed.

Theorem idle_worker_exits_on_next_step iv sched x :
  e_stop (fst x) = true -> w_pc (snd x) = WTop -> (1 <= countW sched)%nat ->
  w_pc (snd (run_from iv x sched)) = WStopped /\ w_nproc (snd (run_from iv x sched)) <= w_nproc (snd x).
Proof.
  intros Hs Hp Hc. destruct (stop_bound iv sched x Hs) as (_ & B & C & _). rewrite Hp in B, C. cbn [rank owed] in B, C.
  split; [apply rank_0|]; lia.
Qed.

(* worker steps left until the queue is empty and the worker idle, the foreground silent: four
   per queued task (get, process, complete, checkpoint at worst), and 3, 2 or 1 for the rest of
   the iteration in progress, whose task no longer counts among the queued ones *)
Definition steps_to_drain (x : est * wst) : nat :=
  match w_pc (snd x) with
  | WTop => 4 * length (e_queue (fst x))
  | WHasTask t => 4 * length (remove_id t (e_queue (fst x))) + 3
  | WProcessed t => 4 * length (remove_id t (e_queue (fst x))) + 2
  | WCkpt => 4 * length (e_queue (fst x)) + 1
  | WStopped => 0
  end.

Definition going (x : est * wst) : Prop := e_stop (fst x) = false /\ w_pc (snd x) <> WStopped.

Lemma wstep_towards_drain iv extra x : going x -> going (wstep iv extra x) /\ (steps_to_drain (wstep iv extra x) <= steps_to_drain x - 1)%nat.
Proof.
  destruct x as [e w]. intros [Hs Hp]. cbn [fst snd] in Hs, Hp. unfold going, steps_to_drain.
  destruct (wstep_cases iv extra e w) as [_ Hs'|Hpc _ Hq|t r Hpc _ Hq|t Hpc|t Hpc|Hpc|Hpc]; cbn [fst snd set_pc w_pc].
  - (* exit: excluded, the flag is not set *) congruence.
  - (* idle: the queue is empty, the measure is 0 already *)
    rewrite Hpc, Hq. cbn [length]. split; [split; [exact Hs|discriminate]|lia].
  - (* get: 4 (|r| + 1) -> 4 |r without t| + 3 *)
    rewrite Hpc, Hq, remove_id_head. pose proof (remove_id_length t r). cbn [length]. split; [split; [exact Hs|discriminate]|lia].
  - (* process *)
    rewrite Hpc, process_queue, process_stop. split; [split; [exact Hs|discriminate]|lia].
  - (* complete: t leaves the queue *)
    rewrite Hpc. cbn [complete e_queue e_stop]. destruct (iv <=? w_since w + 1); (split; [split; [exact Hs|discriminate]|lia]).
  - (* checkpoint *)
    rewrite Hpc. split; [split; [exact Hs|discriminate]|]. cbn [checkpoint set_st e_queue]. lia.
  - (* stopped *) contradiction.
Qed.

Lemma wsteps_towards_drain iv n : forall x, going x -> going (wsteps iv n x) /\ (steps_to_drain (wsteps iv n x) <= steps_to_drain x - n)%nat.
Proof.
  induction n as [|n IH]; intros x Hg; cbn [wsteps]; [split; [exact Hg|lia]|].
  destruct (wstep_towards_drain iv 0 x Hg) as [G1 M1]. destruct (IH _ G1) as [G2 M2]. split; [exact G2|lia].
Qed.

Lemma steps_to_drain_bound x : (steps_to_drain x <= 4 * length (e_queue (fst x)) + 3)%nat.
Proof.
  unfold steps_to_drain. destruct (w_pc (snd x)) as [|t|t| |]; try lia; pose proof (remove_id_length t (e_queue (fst x))); lia.
Qed.

Lemma steps_to_drain_zero x : going x -> steps_to_drain x = O -> e_queue (fst x) = [] /\ w_pc (snd x) = WTop.
Proof.
  intros [_ Hp]. unfold steps_to_drain. destruct (w_pc (snd x)) as [|t|t| |]; try lia; [|contradiction].
  intros H. split; [|reflexivity]. destruct (e_queue (fst x)); [reflexivity|cbn [length] in H; lia].
Qed.

Definition Live (t : N) (x : est * wst) : Prop :=
  pending (e_st (fst x)) = [] /\ frame_found (e_st (fst x)) t = true /\
  ((In t (e_queue (fst x)) /\ w_pc (snd x) <> WProcessed t) \/ In t (e_marked (fst x))).

Lemma found_checkpoint e extra t :
  pending (e_st e) = [] ->
  pending (e_st (checkpoint e extra)) = [] /\ frame_found (e_st (checkpoint e extra)) t = frame_found (e_st e) t.
Proof.
  intros Hp. unfold checkpoint, set_st. cbn [e_st sstep fst]. rewrite Hp.
  destruct (dirty (e_st e)); [|split; [exact Hp|reflexivity]].
  split; [reflexivity|]. unfold frame_found, do_commit. cbn [committed]. rewrite (quiescent_committed _ Hp). reflexivity.
Qed.

Lemma wstep_Live iv extra t x : Live t x -> Live t (wstep iv extra x).
Proof.
  destruct x as [e w]. intros (Hp & Hf & Hd). cbn [fst snd] in Hp, Hf, Hd. unfold Live.
  assert (Hmove : forall e1 w1,
            pending (e_st e1) = [] /\ frame_found (e_st e1) t = frame_found (e_st e) t ->
            e_queue e1 = e_queue e -> e_marked e1 = e_marked e -> w_pc w1 <> WProcessed t -> Live t (e1, w1)).
  { intros e1 w1 [A B] Q M Hw1. unfold Live. cbn [fst snd]. rewrite B, Q, M. split; [exact A|]. split; [exact Hf|].
    destruct Hd as [[Hq _]|Hm]; [left; split; assumption|right; exact Hm]. }
  pose proof (found_checkpoint e extra t Hp) as Hck.
  pose proof (conj Hp (eq_refl (frame_found (e_st e) t))) as Hsame.
  destruct (wstep_cases iv extra e w) as [Hpc _|Hpc _ _|h r Hpc _ _|h Hpc|h Hpc|Hpc|Hpc].
  - destruct (0 <? w_since w).
    + apply Hmove; [exact Hck|reflexivity|reflexivity|discriminate].
    + apply Hmove; [exact Hsame|reflexivity|reflexivity|discriminate].
  - (* the queue is empty *)
    apply Hmove; [exact Hsame|reflexivity|reflexivity|]. rewrite Hpc. discriminate.
  - (* get *) apply Hmove; [exact Hsame|reflexivity|reflexivity|discriminate].
  - (* process h: marks t if h = t (the frame is found), leaves t queued otherwise *)
    destruct (process_store e h) as (_ & P & _). cbn [fst snd w_pc].
    split; [rewrite P; exact Hp|]. split; [rewrite (same_store_found _ _ t (process_store e h)); exact Hf|].
    destruct (N.eq_dec h t) as [->|Hn]; [right; apply process_found_marks; exact Hf|].
    destruct Hd as [[Hq _]|Hm].
    + left. rewrite process_queue. split; [exact Hq|congruence].
    + right. apply (process_marks_grow e h), Hm.
  - (* complete h: t stays queued unless h = t, and then t was WProcessed: excluded *)
    cbn [fst snd w_pc complete e_st e_queue e_marked]. split; [exact Hp|]. split; [exact Hf|].
    destruct Hd as [[Hq Hne]|Hm]; [left|right; exact Hm].
    split; [apply remove_id_In; split; [exact Hq|congruence]|destruct (iv <=? w_since w + 1); discriminate].
  - apply Hmove; [exact Hck|reflexivity|reflexivity|discriminate].
  - (* stopped *)
    apply Hmove; [exact Hsame|reflexivity|reflexivity|]. rewrite Hpc. discriminate.
Qed.

Lemma wsteps_Live iv t n : forall x, Live t x -> Live t (wsteps iv n x).
Proof. induction n as [|n IH]; intros x H; cbn [wsteps]; [exact H|]. apply IH. apply wstep_Live. exact H. Qed.

Lemma wsteps_idle iv n : forall e w, e_stop e = false -> e_queue e = [] -> w_pc w = WTop -> wsteps iv n (e, w) = (e, w).
Proof.
  induction n as [|n IH]; intros e w Hs Hq Hp; cbn [wsteps]; [reflexivity|].
  unfold wstep. rewrite Hp, Hs, Hq. apply IH; assumption.
Qed.
