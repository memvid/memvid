(* Proofs for C40 (Model/Bulk.v, Model/BulkSpec.v).  One invariant over `brun`, along every history,
   in two layers: A (frame table and infos are those of plain puts) and, given A, F w l (the indexes
   are the full indexes of that table; w = inside the commit_skip_indexes window, l = a close inside a
   window has lost embeddings: `wrun`, of which `scan` is the case l = false).  Both are stated over
   the components of the state they read, so begin_batch / end_batch, log growth and (for A) the
   reload keep them by conversion.  AF = A /\ F is carried through the composite operations, which
   are compositions of after_put / commit_op / close / reload / recover.  lexical_view reads frames,
   timeline and engine of any history off the two layers, bulk_view adds the vector documents under
   `scan`; the paths of C40 are instances (Plain). *)
From MV Require Import Base.Prelude Base.Facts Model.Store Model.StoreSpec Model.VecStore Model.Timeline Model.Bulk Model.BulkSpec Proofs.StoreProofs.
Local Open Scope N_scope.

Lemma next_pow2_le m : m <= next_pow2 m.
Proof.
  unfold next_pow2. destruct (N.eq_dec m 0) as [->|Hm]; [apply N.le_0_l|].
  apply (N.log2_log2_up_spec m). lia.
Qed.

Lemma new_infos_app recs : forall pi E qi,
  length pi = length recs -> new_infos (recs ++ E) (pi ++ qi) = new_infos recs pi ++ new_infos E qi.
Proof.
  induction recs as [|[sq e] recs IH]; intros pi E qi HL; destruct pi as [|x pi]; cbn [length] in HL; try discriminate; cbn [app new_infos].
  - reflexivity.
  - injection HL as HL. rewrite (IH pi E qi HL). destruct (is_insert e); reflexivity.
Qed.

Lemma new_infos_all_insert E : forall qi,
  forallb (fun se => is_insert (snd se)) E = true -> length qi = length E -> new_infos E qi = qi.
Proof.
  induction E as [|[sq e] E IH]; intros qi HA HL; destruct qi as [|x qi]; cbn [length] in HL; try discriminate; cbn [new_infos]; [reflexivity|].
  cbn [forallb snd] in HA. apply andb_true_iff in HA as [H1 H2]. rewrite H1. f_equal. apply IH; [assumption|lia].
Qed.

Lemma delta_nonempty_app a b : delta_nonempty (a ++ b) = delta_nonempty a || delta_nonempty b.
Proof. unfold delta_nonempty. apply existsb_app. Qed.

Lemma no_frame_lex_only recs : delta_nonempty recs = false -> lex_only recs.
Proof.
  intros H se Hse. pose proof (existsb_false _ _ H se Hse) as He. cbn beta in He.
  destruct (snd se); [discriminate..|reflexivity].
Qed.

Lemma new_infos_lex_only recs : forall pi, lex_only recs -> new_infos recs pi = [].
Proof.
  induction recs as [|[sq e] recs IH]; intros pi H; destruct pi as [|x pi]; cbn [new_infos]; try reflexivity.
  rewrite (H (sq, e) (or_introl eq_refl) : e = ELex). apply IH. intros se Hse. apply H. right. exact Hse.
Qed.

Lemma lex_recs_length n : forall a, length (lex_recs a n) = n.
Proof. induction n as [|n IH]; intros a; cbn [lex_recs length]; [reflexivity|]. rewrite IH. reflexivity. Qed.
Lemma lex_recs_no_frame n : forall a, delta_nonempty (lex_recs a n) = false.
Proof. induction n as [|n IH]; intros a; [reflexivity|]. apply (IH (S a)). Qed.
Lemma chunk_entries_facts n : forall fs ps uk tag i,
  length (chunk_entries fs ps uk tag i n) = n /\ forallb (fun se => is_insert (snd se)) (chunk_entries fs ps uk tag i n) = true.
Proof.
  induction n as [|n IH]; intros fs ps uk tag i; cbn [chunk_entries length forallb]; [split; reflexivity|].
  destruct (IH (fs + 1) ps uk tag (S i)) as [H1 H2]. cbn [snd is_insert andb]. rewrite H1, H2. split; reflexivity.
Qed.

Lemma put_entries_facts sq uk tag nch :
  length (put_entries sq uk tag nch 0) = S (N.to_nat nch) /\
  forallb (fun se => is_insert (snd se)) (put_entries sq uk tag nch 0) = true.
Proof.
  destruct (chunk_entries_facts (N.to_nat nch) (sq + 1) sq uk tag 0) as [L FI].
  unfold put_entries. cbn [length forallb snd is_insert andb]. rewrite L, FI. split; reflexivity.
Qed.

Lemma ref_table_snoc ds d : ref_table (ds ++ [d]) = ref_doc (ref_table ds) d.
Proof. unfold ref_table. rewrite fold_left_app. reflexivity. Qed.
Lemma ref_infos_snoc ds d : ref_infos (ds ++ [d]) = ref_infos ds ++ doc_infos d.
Proof. unfold ref_infos. rewrite flat_map_app. cbn [flat_map]. rewrite app_nil_r. reflexivity. Qed.

Lemma doc_infos_length d : length (doc_infos d) = S (N.to_nat (d_nchunks d)).
Proof. unfold doc_infos. cbn [length]. rewrite map_length, seq_length. reflexivity. Qed.

Lemma ref_chunks_length n : forall i fr pid uk tag, length (ref_chunks fr pid uk tag i n) = (length fr + n)%nat.
Proof. induction n as [|n IH]; intros i fr pid uk tag; cbn [ref_chunks]; [lia|]. rewrite IH, app_length. cbn [length]. lia. Qed.
Lemma ref_doc_length R d : length (ref_doc R d) = (length R + S (N.to_nat (d_nchunks d)))%nat.
Proof. unfold ref_doc, ref_put. rewrite ref_chunks_length, app_length. cbn [length]. lia. Qed.

Lemma length_ref ds : length (ref_table ds) = length (ref_infos ds).
Proof.
  induction ds as [|d ds IH] using rev_ind; [reflexivity|].
  rewrite ref_table_snoc, ref_infos_snoc, ref_doc_length, app_length, doc_infos_length, IH. reflexivity.
Qed.

Definition AllActive (fr : list frame) : Prop := Forall (fun f => f_status f = 0) fr.
Lemma ref_chunks_active n i fr pid uk tag : AllActive fr -> AllActive (ref_chunks fr pid uk tag i n).
Proof.
  apply ref_chunks_closed. intros fr' f H (_ & Hs & _) _.
  apply Forall_app. split; [exact H|]. constructor; [exact Hs|constructor].
Qed.
Lemma ref_table_active ds : AllActive (ref_table ds).
Proof.
  induction ds as [|d ds IH] using rev_ind; [constructor|].
  rewrite ref_table_snoc. unfold ref_doc, ref_put. apply ref_chunks_active.
  apply Forall_app. split; [exact IH|]. constructor; [reflexivity|constructor].
Qed.

(* close / reload / recover are Drop, open and recover_wal of BReopen *)
Definition after_put (suppressed : bool) (auto : option N) (s : bst) : bst :=
  match auto with Some extra => if suppressed then s else commit_full s extra | None => s end.
Definition commit_op (s : bst) (e : N) : bst :=
  match pending (base s), dirty (base s) with
  | [], false => if tdirty (ix s) then commit_full s e else set_base s (bump (base s) e)
  | _, _ => commit_full s e
  end.
Definition close (s : bst) (e : N) : bst := if dirty (base s) then commit_full s e else set_base s (bump (base s) e).
Definition reload (s : bst) : bst :=
  let x := ix s in
  let lx := match tix x with None => lex_full (committed (base s)) (finf s) | Some _ => lex_disk x end in
  mkB (base s) (finf s) (pinf s) (mkBat None (wal_size (bat s)) false 0)
      (mkIdx (tix x) lx lx false (is_some (vtoc x)) (vtoc x) (index_of (vtoc x))).
Definition recover (s : bst) : bst := match pending (base s) with [] => s | _ => commit_full s 0 end.

Lemma bstep_put s d auto g : fst (bstep s (BPut d auto g)) = after_put (suppress s) auto (fst (put_append (grow s g) d)).
Proof. cbn [bstep]. destruct (put_append (grow s g) d). reflexivity. Qed.
Lemma bstep_commit s e g : fst (bstep s (BCommit e g)) = grow (commit_op s e) g.
Proof. reflexivity. Qed.
Lemma bstep_reopen s e : fst (bstep s (BReopen e)) = recover (reload (close s e)).
Proof. reflexivity. Qed.
Lemma reopen_pending_nil s e : pending (base (fst (bstep s (BReopen e)))) = [].
Proof. rewrite bstep_reopen. unfold recover. destruct (pending (base (reload (close s e)))) eqn:Ep; [exact Ep|reflexivity]. Qed.

Lemma brun_cons s op ops : fst (brun s (op :: ops)) = fst (brun (fst (bstep s op)) ops).
Proof. cbn [brun]. destruct (bstep s op) as [s1 o]. cbn [fst]. destruct (brun s1 ops). reflexivity. Qed.
Lemma brun_app ops1 : forall s ops2, fst (brun s (ops1 ++ ops2)) = fst (brun (fst (brun s ops1)) ops2).
Proof. induction ops1 as [|op ops1 IH]; intros s ops2; [reflexivity|]. cbn [app]. rewrite !brun_cons. apply IH. Qed.

Lemma bfinal_app l r : bfinal (l ++ r) = fst (brun (bfinal l) r).
Proof. apply brun_app. Qed.
Lemma bfinal_snoc l op : bfinal (l ++ [op]) = fst (bstep (bfinal l) op).
Proof. rewrite bfinal_app, brun_cons. reflexivity. Qed.

Lemma docs_of_ops_app a b : docs_of_ops (a ++ b) = docs_of_ops a ++ docs_of_ops b.
Proof. unfold docs_of_ops. apply flat_map_app. Qed.

(* A_act: no committed frame is deleted or superseded, so the active-frame filter of
   build_vec_artifact drops nothing. *)
Record A_of (b : store) (il pil : list info) (ds : list doc) : Prop := mkA {
  A_J : J b (ref_table ds);
  A_inf : il ++ new_infos (pending b) pil = ref_infos ds;
  A_lp : length pil = length (pending b);
  A_lf : length il = length (committed b);
  A_act : AllActive (committed b) }.
Arguments A_J {b il pil ds}.
Arguments A_inf {b il pil ds}.
Arguments A_lf {b il pil ds}.
Arguments A_act {b il pil ds}.

Definition A (s : bst) (ds : list doc) : Prop := A_of (base s) (finf s) (pinf s) ds.

Lemma A_bst0 : A bst0 [].
Proof. constructor; [apply J_store0|reflexivity|reflexivity|reflexivity|constructor]. Qed.

Lemma A_put_append s ds d : A s ds -> A (fst (put_append s d)) (ds ++ [d]).
Proof.
  intros [HJ HAF HP HF Hact]. unfold put_append.
  pose proof (sstep_put_J (base s) _ (d_uri d) (d_tag d) (d_nchunks d) None HJ) as HJ1.
  destruct (put_entries_facts (seqno (base s) + 1) (d_uri d) (d_tag d) (d_nchunks d)) as [L FI].
  rewrite sstep_put in *. cbn [auto_commit fst] in *.
  constructor; cbn [base finf pinf put_logged pending committed].
  - rewrite ref_table_snoc. exact HJ1.
  - rewrite ref_infos_snoc, (new_infos_app _ _ _ _ HP), app_assoc, HAF. f_equal.
    apply new_infos_all_insert; [exact FI|]. rewrite doc_infos_length. symmetry. exact L.
  - rewrite !app_length, doc_infos_length, L, HP. reflexivity.
  - exact HF.
  - exact Hact.
Qed.

Lemma A_applied s ds e t x :
  A s ds -> A (mkB (do_commit (base s) e) (finf s ++ new_infos (pending (base s)) (pinf s)) [] t x) ds.
Proof.
  intros [HJ HAF HP HF _]. constructor; cbn [base finf pinf do_commit pending committed new_infos].
  - apply J_commit. exact HJ.
  - rewrite app_nil_r. exact HAF.
  - reflexivity.
  - rewrite HAF, (J_view _ _ HJ), length_ref. reflexivity.
  - rewrite (J_view _ _ HJ). apply ref_table_active.
Qed.

Lemma A_finalize s ds e : A s ds -> A (finalize s e) ds.
Proof.
  intros [HJ HAF HP HF Hact]. unfold finalize. constructor; cbn [base finf pinf committed pending].
  - eapply J_lex_append; [exact HJ|reflexivity|reflexivity|apply lex_recs_lex_only].
  - rewrite (new_infos_app _ _ _ _ HP), (new_infos_lex_only _ _ (lex_recs_lex_only _ _)), app_nil_r. exact HAF.
  - rewrite !app_length, lex_recs_length, repeat_length, HP. reflexivity.
  - exact HF.
  - exact Hact.
Qed.

Lemma A_bump s ds e : A s ds -> A (set_base s (bump (base s) e)) ds.
Proof. intros [HJ Hinf Hlp Hlf Hact]. constructor; [apply J_bump, HJ|assumption..]. Qed.

Definition noemb (i : info) : bool := negb (is_some (i_emb i)).

Lemma vec_from_app a : forall b c, vec_from b (a ++ c) = vec_from b a ++ vec_from (b + N.of_nat (length a)) c.
Proof.
  induction a as [|x a IH]; intros b c; cbn [app vec_from length].
  - f_equal. lia.
  - rewrite IH, app_assoc. do 2 f_equal. lia.
Qed.
Lemma vec_from_noemb l : forall b, forallb noemb l = true -> vec_from b l = [].
Proof.
  induction l as [|x l IH]; intros b H; cbn [vec_from]; [reflexivity|]. cbn [forallb] in H. apply andb_true_iff in H as [H1 H2].
  rewrite (IH _ H2). unfold noemb in H1. destruct (i_emb x); [discriminate|reflexivity].
Qed.
Lemma new_infos_noemb recs : forall pi, forallb noemb pi = true -> forallb noemb (new_infos recs pi) = true.
Proof.
  induction recs as [|[sq e] recs IH]; intros pi H; destruct pi as [|x pi]; cbn [new_infos]; try reflexivity.
  cbn [forallb] in H. apply andb_true_iff in H as [H1 H2]. destruct (is_insert e); cbn [forallb]; rewrite ?H1; apply IH; exact H2.
Qed.
Lemma vec_from_bound l : forall b x, In x (vec_from b l) -> b <= fst x < b + N.of_nat (length l).
Proof.
  induction l as [|y l IH]; intros b x H; cbn [vec_from length] in *; [contradiction|].
  apply in_app_or in H as [H|H].
  - destruct (i_emb y); cbn in H; [destruct H as [H|[]]; subst x; cbn [fst]; lia|contradiction].
  - specialize (IH _ _ H). lia.
Qed.
Lemma active_in_range R i : AllActive R -> i < N.of_nat (length R) -> frame_is_active R i = true.
Proof.
  intros HA Hi. unfold frame_is_active, get.
  destruct (nth_error R (N.to_nat i)) as [f|] eqn:E.
  - apply nth_error_In in E. unfold AllActive in HA. rewrite Forall_forall in HA. rewrite (HA _ E). reflexivity.
  - apply nth_error_None in E. lia.
Qed.
Lemma filter_active_vec R il : AllActive R -> (length il <= length R)%nat ->
  filter (fun x => frame_is_active R (fst x)) (vec_full il) = vec_full il.
Proof.
  intros HA HL. apply filter_all. intros x Hx. apply vec_from_bound in Hx. apply active_in_range; [exact HA|lia].
Qed.

(* Inside the window (w) the persisted indexes (L_fr, V_disk) are stale by design; once the memory
   was closed inside a window (lost) the embeddings that existed in memory only are gone, and nothing
   is claimed of what the vector index holds (V_full). *)
Record Lex (w : bool) (C : list frame) (il : list info) (frame_pending dirt : bool)
           (t : option (list tentry)) (lx ld : list N) (td : bool) : Prop := mkLex {
  L_fr : w = false -> td = false ->
         (t = Some (tix_full C il) \/ (t = None /\ C = [])) /\ lx = lex_full C il /\ ld = lx;
  L_td : td = true -> frame_pending = true;
  L_d : frame_pending = true -> dirt = true }.

Record Vec (w lost : bool) (il pil : list info) (en : bool) (toc : manifest) (vi : option docs) : Prop := mkVec {
  V_full : lost = false -> docs_of vi = vec_full il;
  V_disk : w = false -> index_of toc = vi;
  V_en : en = is_some toc;
  V_pend : en = false -> forallb noemb pil = true;
  V_off : en = false -> vi = None /\ toc = None;
  V_none : vi = None -> index_of toc = None }.
Arguments V_full {w lost il pil en toc vi}.
Arguments V_pend {w lost il pil en toc vi}.

Definition F_lex (w : bool) (s : bst) : Prop :=
  Lex w (committed (base s)) (finf s) (delta_nonempty (pending (base s))) (dirty (base s))
      (tix (ix s)) (lex (ix s)) (lex_disk (ix s)) (tdirty (ix s)).
Definition F_vec (w l : bool) (s : bst) : Prop := Vec w l (finf s) (pinf s) (venabled (ix s)) (vtoc (ix s)) (vidx (ix s)).
Definition F (w l : bool) (s : bst) : Prop := F_lex w s /\ F_vec w l s.

Lemma F_bst0 : F false false bst0.
Proof.
  split; constructor; cbn.
  - intros _ _. split; [right; split; reflexivity|split; reflexivity].
  - intros H. discriminate H.
  - intros H. discriminate H.
  - intros _. reflexivity.
  - intros _. reflexivity.
  - reflexivity.
  - intros _. reflexivity.
  - intros _. split; reflexivity.
  - intros _. reflexivity.
Qed.

Lemma F_weaker w w' l s : (w' = false -> w = false) -> F w l s -> F w' l s.
Proof. intros H [[Lfr Ltd Ld] [Vfull Vdisk Ven Vpend Voff Vnone]]. split; constructor; auto. Qed.

Lemma F_tdirty_false w l s : F w l s -> delta_nonempty (pending (base s)) = false -> tdirty (ix s) = false.
Proof. intros [[_ Htd _] _] HD. destruct (tdirty (ix s)); [|reflexivity]. rewrite <- HD. symmetry. exact (Htd eq_refl). Qed.

Lemma disabled_empty w l s : F_vec w l s -> l = false -> venabled (ix s) = false -> vec_full (finf s) = [].
Proof. intros [Vfull _ _ _ Voff _] Hl HE. destruct (Voff HE) as [Hv _]. specialize (Vfull Hl). rewrite Hv in Vfull. symmetry. exact Vfull. Qed.

Lemma nonempty_docs_false d : nonempty_docs d = false -> d = [].
Proof. destruct d; [reflexivity|discriminate]. Qed.

Lemma applied_vec w l s ds : A s ds -> F_vec w l s ->
  let ni := new_infos (pending (base s)) (pinf s) in
  let newd := vec_from (len (committed (base s))) ni in
  vec_full (finf s ++ ni) = vec_full (finf s) ++ newd /\
  filter (fun x => frame_is_active (view (base s)) (fst x)) (vec_full (finf s)) = vec_full (finf s) /\
  (venabled (ix s) = false -> newd = []).
Proof.
  intros HA HV ni newd. rewrite (J_view _ _ (A_J HA)). split; [|split].
  - unfold vec_full, newd, len. rewrite vec_from_app, (A_lf HA). reflexivity.
  - apply filter_active_vec; [apply ref_table_active|]. rewrite length_ref, <- (A_inf HA), app_length. lia.
  - intros HE. apply vec_from_noemb, new_infos_noemb, (V_pend HV HE).
Qed.

Definition Unmoved (s s' : bst) : Prop :=
  ix s' = ix s /\ finf s' = finf s /\ committed (base s') = committed (base s) /\
  delta_nonempty (pending (base s')) = false.

Lemma commit_full_no_frame s e :
  delta_nonempty (pending (base s)) = false -> tdirty (ix s) = false -> Unmoved s (commit_full s e).
Proof.
  intros HD HT. pose proof (no_frame_lex_only _ HD) as HL. unfold Unmoved, commit_full. cbn [ix finf base].
  rewrite (new_infos_lex_only _ _ HL), HD. cbn [vec_from nonempty_docs andb]. rewrite HT.
  cbn [length inserted_ids seq map filter orb]. rewrite !app_nil_r. unfold flush. cbn [tdirty do_commit pending committed].
  rewrite (view_lex_only _ HL). repeat split.
  (* left: ix s rebuilt field by field, with tdirty false, is ix s *)
  destruct (ix s); cbn in *; subst; reflexivity.
Qed.

Lemma F_unmoved w l s s' : Unmoved s s' -> tdirty (ix s) = false -> pinf s' = [] -> F w l s -> F w l s'.
Proof.
  intros (HAF & HFi & HC & HD) HT HP [[Lfr Ltd Ld] [Vfull Vdisk Ven Vpend Voff Vnone]]. split.
  - unfold F_lex. rewrite HAF, HFi, HC, HD. constructor.
    + exact Lfr.
    + intros H. congruence.
    + intros H. discriminate H.
  - unfold F_vec. rewrite HAF, HFi, HP. constructor; try assumption.
    intros _. reflexivity.
Qed.

Lemma rebuild_lex x fr il newd ins : tdirty x = true \/ ins = [] ->
  let y := rebuild x fr il newd ins in
  tix y = Some (tix_full fr il) /\ lex y = lex_full fr il /\ lex_disk y = lex_full fr il /\ tdirty y = false.
Proof.
  (* either hypothesis selects the full-rebuild branch of lex2 *)
  unfold rebuild. intros [H|H]; [rewrite H|subst ins; destruct (tdirty x)];
    destruct (build_vec_artifact (venabled x) fr (vidx x) newd); cbn; auto.
Qed.

Lemma rebuild_vec x fr il newd ins :
  let y := rebuild x fr il newd ins in
  venabled y = venabled x /\ vidx y = build_vec_artifact (venabled x) fr (vidx x) newd /\
  vtoc y = option_map Some (vidx y).
Proof. unfold rebuild. destruct (build_vec_artifact (venabled x) fr (vidx x) newd); cbn; auto. Qed.

Lemma F_rebuilt w l s b' il' pil' t x newd ins :
  F_vec w l s -> tdirty x = true \/ ins = [] -> venabled x = venabled (ix s) -> vidx x = vidx (ix s) ->
  (delta_nonempty (pending b') = true -> dirty b' = true) ->
  (venabled (ix s) = true ->
   vec_full il' = filter (fun d => frame_is_active (committed b') (fst d)) (vec_full (finf s)) ++ newd) ->
  (venabled (ix s) = false -> (l = false -> vec_full il' = []) /\ forallb noemb pil' = true) ->
  F false l (mkB b' il' pil' t (rebuild x (committed b') il' newd ins)).
Proof.
  intros HV Hfull Hen Hvi Hd Hon Hoff.
  destruct (rebuild_lex x (committed b') il' newd ins Hfull) as (R1 & R2 & R3 & R4).
  destruct (rebuild_vec x (committed b') il' newd ins) as (V1 & V2 & V3).
  split; [unfold F_lex|unfold F_vec]; cbn [base finf pinf ix].
  - rewrite R1, R2, R3, R4. constructor; auto; discriminate.
  - rewrite V1, V3, V2, Hen, Hvi. destruct (venabled (ix s)) eqn:HE; cbn [build_vec_artifact option_map].
    + constructor; cbn [docs_of index_of is_some]; auto; try discriminate.
      intros Hl. rewrite (V_full HV Hl). symmetry. apply Hon. reflexivity.
    + destruct (Hoff eq_refl) as [H1 H2]. constructor; cbn [docs_of index_of is_some]; auto.
      intros Hl. symmetry. exact (H1 Hl).
Qed.

(* commit_from_records re-establishes the persisted indexes whenever it applies a frame record,
   whatever the window state; otherwise it leaves the indexes alone *)
Lemma F_commit_full w l s ds e : A s ds -> F w l s -> F w l (commit_full s e).
Proof.
  intros HA HF. destruct (delta_nonempty (pending (base s))) eqn:HD.
  - destruct HF as [_ HV]. destruct (applied_vec w l s ds HA HV) as (Hfull & Hold & Hoff).
    unfold commit_full. rewrite HD.
    (* the replay enabling never fires here: a disabled index has no embedding pending *)
    replace (if _ && negb (venabled (ix s)) then enable (ix s) else ix s) with (ix s)
      by (destruct (venabled (ix s)); [rewrite andb_false_r|rewrite Hoff]; reflexivity).
    rewrite orb_true_r. apply (F_weaker false); [reflexivity|]. apply (F_rebuilt w l s); auto; cbn [do_commit committed pending].
    + intros _. rewrite Hfull, Hold. reflexivity.
    + intros HE. rewrite Hfull, (Hoff HE), app_nil_r. split; [intros Hl; exact (disabled_empty _ _ _ HV Hl HE)|reflexivity].
  - pose proof (F_tdirty_false _ _ _ HF HD) as HT.
    exact (F_unmoved w l s _ (commit_full_no_frame s e HD HT) HT eq_refl HF).
Qed.

Lemma doc_infos_noemb d : eff_emb (d_emb d) = None -> forallb noemb (doc_infos d) = true.
Proof.
  intros H. unfold doc_infos. cbn [forallb]. unfold noemb at 1. cbn [i_emb]. rewrite H. cbn [is_some negb andb].
  apply forallb_forall. intros x Hx. apply in_map_iff in Hx as (j & Hj & _). subst x. reflexivity.
Qed.

Lemma F_enable w l s : F w l s -> F w l (set_ix s (enable (ix s))).
Proof.
  intros [HL [Vfull Vdisk Ven Vpend Voff Vnone]]. split; [exact HL|]. constructor; cbn [set_ix finf pinf ix enable venabled vtoc vidx]; auto; try discriminate.
  - (* V_disk: a placeholder manifest holds no index, and there was none in memory *)
    intros Hw. destruct (vtoc (ix s)); [exact (Vdisk Hw)|]. destruct (Voff Ven) as [-> _]. reflexivity.
  - destruct (vtoc (ix s)); reflexivity.
  - intros Hv. specialize (Vnone Hv). destruct (vtoc (ix s)); [exact Vnone|reflexivity].
Qed.

Lemma F_appended w l s b1 pi t :
  committed b1 = committed (base s) -> delta_nonempty (pending b1) = true -> dirty b1 = true ->
  (venabled (ix s) = false -> forallb noemb pi = true) ->
  F w l s -> F w l (mkB b1 (finf s) (pinf s ++ pi) t (ix s)).
Proof.
  intros HC HD Hd Hpi [[Lfr Ltd Ld] [Vfull Vdisk Ven Vpend Voff Vnone]]. split; constructor; cbn [base finf pinf ix]; rewrite ?HC; auto.
  (* left, V_pend: the new infos carry no embedding either *)
  intros Hv. rewrite forallb_app, (Vpend Hv), (Hpi Hv). reflexivity.
Qed.

Lemma F_instant w l s sq :
  delta_nonempty (pending (base s)) = true ->
  F w l s -> F w l (set_ix s (mkIdx (tix (ix s)) (lex (ix s) ++ [sq]) (lex_disk (ix s)) true (venabled (ix s)) (vtoc (ix s)) (vidx (ix s)))).
Proof.
  intros HD [[Lfr Ltd Ld] HV]. split; [|exact HV]. constructor; cbn [set_ix base finf ix tix lex lex_disk tdirty]; auto.
  (* L_fr: vacuous, the engine is dirty now *)
  intros _ Ht. discriminate Ht.
Qed.

Lemma F_put_append w l s d : F w l s -> F w l (fst (put_append s d)).
Proof.
  intros HF. unfold put_append. rewrite sstep_put. cbn [auto_commit fst].
  set (b1 := put_logged _ _ _ _ _).
  assert (HDN : delta_nonempty (pending b1) = true) by (cbn [b1 put_logged pending]; rewrite delta_nonempty_app; apply orb_true_r).
  set (en := incoming_dimension (d_emb d) None && negb (venabled (ix s))).
  set (x1 := if en then _ else ix s).
  assert (F1 : F w l (set_ix s x1)) by (subst x1; destruct en; [apply F_enable|]; exact HF).
  assert (Hpi : venabled x1 = false -> forallb noemb (doc_infos d) = true).
  { (* a document that brings an embedding leaves the index enabled *)
    intros Hv. apply doc_infos_noemb. destruct (d_emb d) as [[|a r]|]; try reflexivity.
    subst x1 en. destruct (venabled (ix s)) eqn:HE; cbn in Hv; congruence. }
  destruct (d_instant d); [refine (F_instant w l (mkB b1 (finf s) (pinf s ++ doc_infos d) _ x1) _ HDN _)|];
    exact (F_appended w l (set_ix s x1) b1 (doc_infos d) _ eq_refl HDN eq_refl Hpi F1).
Qed.

Lemma F_finalize w l s ds e : A s ds -> F w l s -> F false l (finalize s e).
Proof.
  intros HA [[_ _ Hd] HV]. unfold finalize.
  apply (F_rebuilt w l s (mkStore (committed (base s)) _ _ _ (dirty (base s)))); auto; cbn [committed pending dirty].
  - rewrite delta_nonempty_app, lex_recs_no_frame, orb_false_r. exact Hd.
  - intros _. rewrite app_nil_r. symmetry. apply filter_active_vec; [exact (A_act HA)|]. rewrite (A_lf HA). lia.
  - intros HE. split; [intros Hl; exact (disabled_empty _ _ _ HV Hl HE)|].
    rewrite forallb_app, (V_pend HV HE). apply forallb_forall. intros x Hx. apply repeat_spec in Hx. subst x. reflexivity.
Qed.

Definition AF (w l : bool) (s : bst) (ds : list doc) : Prop := A s ds /\ F w l s.

(* commit_skip_indexes opens the window; the in-memory vector index stays complete (fix ed861c9) *)
Lemma AF_commit_skip w l s ds : AF w l s ds -> AF true l (commit_skip s) ds.
Proof.
  intros [HA HF]. unfold commit_skip.
  set (applied := mkB (do_commit (base s) 0) _ [] _ _).
  assert (HC : AF true l applied ds).
  { split; [apply A_applied; exact HA|].
    subst applied. destruct HF as [_ HV]. destruct (applied_vec w l s ds HA HV) as (Hfull & Hold & Hoff).
    destruct HV as [Vfull _ Ven _ Voff Vnone].
    split; constructor; cbn [ix base finf pinf tix lex lex_disk tdirty venabled vtoc vidx do_commit committed pending];
      try (intros H; discriminate H).
    (* vacuous: L_fr, V_disk (inside the window), L_td (the engine flag is false), L_d (nothing pending) *)
    - (* V_full: the in-memory index takes the new documents *)
      intros Hl. specialize (Vfull Hl).
      rewrite Hfull. destruct (venabled (ix s)) eqn:HE; [|rewrite andb_false_r, Hoff, app_nil_r by reflexivity; exact Vfull].
      destruct (nonempty_docs _) eqn:Hn; cbn [andb build_vec_artifact docs_of].
      + (* ensure_vec_index loads nothing stale: an index that is not in memory is not in the manifest *)
        assert (Hcur : docs_of (match vidx (ix s) with Some d => Some d | None => index_of (vtoc (ix s)) end) = vec_full (finf s)).
        { rewrite <- Vfull. destruct (vidx (ix s)) eqn:Ev; [reflexivity|]. rewrite (Vnone eq_refl). reflexivity. }
        rewrite Hcur, Hold. reflexivity.
      + rewrite (nonempty_docs_false _ Hn), app_nil_r. exact Vfull.
    - rewrite Ven. destruct (vtoc (ix s)); reflexivity.
    - intros _. reflexivity.
    - intros HE. rewrite HE, andb_false_r. destruct (Voff HE) as (H1 & H2). rewrite H1, H2. split; reflexivity.
    - (* V_none: a cleared manifest holds no index *) intros _. destruct (vtoc (ix s)); reflexivity. }
  destruct (pending (base s)); [destruct (dirty (base s))|]; try exact HC.
  (* the early return: inside the window less is claimed *)
  split; [exact HA|]. apply (F_weaker w true); [discriminate|exact HF].
Qed.

(* each stage applies commit_full or bumps the sequence number; one conjunct per stage, `apply` picks the one that fits *)
Lemma AF_stages w l s ds : AF w l s ds ->
  (forall sup auto, AF w l (after_put sup auto s) ds) /\ (forall e, AF w l (commit_op s e) ds) /\
  (forall e, AF w l (close s e) ds) /\ AF w l (recover s) ds.
Proof.
  intros HAF.
  assert (Hc : forall e, AF w l (commit_full s e) ds)
    by (intros e; destruct HAF as [A0 F0]; exact (conj (A_applied _ _ e _ _ A0) (F_commit_full _ _ _ _ e A0 F0))).
  assert (Hb : forall e, AF w l (set_base s (bump (base s) e)) ds)
    by (intros e; destruct HAF as [A0 F0]; exact (conj (A_bump _ _ e A0) F0)).
  split; [|split; [|split]].
  - intros sup [extra|]; [destruct sup|]; cbn [after_put]; auto.
  - intros e. unfold commit_op. destruct (pending (base s)); [destruct (dirty (base s)); [|destruct (tdirty (ix s))]|]; auto.
  - intros e. unfold close. destruct (dirty (base s)); auto.
  - unfold recover. destruct (pending (base s)); auto.
Qed.

(* Drop leaves the engine flushed: it commits when dirty, and a clean store has no frame record pending *)
Lemma close_flushed w l s ds e : AF w l s ds -> tdirty (ix (close s e)) = false.
Proof.
  intros HAF. apply (F_tdirty_false w l). { apply (AF_stages w l s ds HAF). } unfold close.
  destruct (dirty (base s)) eqn:Ed; [reflexivity|]. cbn [set_base base bump pending].
  destruct (delta_nonempty (pending (base s))) eqn:E; [|reflexivity]. destruct HAF as [_ [[_ _ Hd] _]]. rewrite (Hd E) in Ed. discriminate Ed.
Qed.

Lemma F_reload w l s : F w l s -> tdirty (ix s) = false -> F w (l || w) (reload s).
Proof.
  intros [[Lfr _ Ld] [Vfull Vdisk Ven Vpend Voff Vnone]] HT.
  split.
  - unfold F_lex. cbn [reload base finf ix tix lex lex_disk tdirty]. constructor.
    + (* L_fr: the engine read back (the persisted one, or a rebuild when there is no time index) is the full one *)
      intros Hw _. destruct (Lfr Hw HT) as (T & L0 & L1).
      split; [exact T|]. split; [|reflexivity]. destruct (tix (ix s)); congruence.
    + intros H. discriminate H.
    + exact Ld.
  - unfold F_vec. cbn [reload finf pinf ix venabled vtoc vidx]. rewrite <- Ven. constructor.
    + (* V_full: outside the window the manifest holds the index that was in memory *)
      intros H. apply orb_false_iff in H as [Hl Hw]. rewrite (Vdisk Hw). exact (Vfull Hl).
    + intros _. reflexivity.
    + exact Ven.
    + exact Vpend.
    + intros HE. destruct (Voff HE) as [_ ->]. split; reflexivity.
    + intros H. exact H.
Qed.

Definition lnext (w : bool) (op : bop) : bool := match op with BSkip => true | BFinalize _ _ => false | _ => w end.
Definition lostnext (w l : bool) (op : bop) : bool := match op with BReopen _ => l || w | _ => l end.
Fixpoint wrun (w l : bool) (ops : list bop) : bool * bool :=
  match ops with [] => (w, l) | op :: r => wrun (lnext w op) (lostnext w l op) r end.

Lemma wrun_app a : forall w l b, wrun w l (a ++ b) = wrun (fst (wrun w l a)) (snd (wrun w l a)) b.
Proof. induction a as [|op a IH]; intros w l b; [reflexivity|]. cbn [app wrun]. apply IH. Qed.

Lemma scan_wrun ops : forall w w', scan w ops = Some w' -> wrun w false ops = (w', false).
Proof.
  induction ops as [|op ops IH]; intros w w' H; [cbn in H; injection H as <-; reflexivity|].
  destruct op; cbn [scan wrun lnext lostnext] in *; try exact (IH _ _ H).
  destruct w; [discriminate H|exact (IH _ _ H)].
Qed.

Lemma scan_app l : forall w r, scan w (l ++ r) = match scan w l with Some w' => scan w' r | None => None end.
Proof.
  induction l as [|op l IH]; intros w r; [reflexivity|]. cbn [app].
  destruct op; cbn [scan]; try apply IH. destruct w; [reflexivity|apply IH].
Qed.

Lemma AF_grow w l s ds g : AF w l s ds -> AF w l (grow s g) ds.
Proof. intros HAF. destruct g; exact HAF. Qed.

Definition docs_of_op (op : bop) : list doc := match op with BPut d _ _ => [d] | _ => [] end.

Lemma AF_step w l s ds op : AF w l s ds -> AF (lnext w op) (lostnext w l op) (fst (bstep s op)) (ds ++ docs_of_op op).
Proof.
  intros HAF. pose proof HAF as [HA HF]. destruct op as [d auto g|o| |e g| |e g|e]; cbn [lnext lostnext docs_of_op]; rewrite ?app_nil_r.
  - rewrite bstep_put. apply AF_stages. apply (AF_grow _ _ _ _ g) in HAF as [HA1 HF1]. exact (conj (A_put_append _ _ d HA1) (F_put_append _ _ _ d HF1)).
  - exact HAF.
  - exact HAF.
  - rewrite bstep_commit. apply AF_grow, AF_stages, HAF.
  - apply AF_commit_skip with w. exact HAF.
  - apply AF_grow. exact (conj (A_finalize _ _ e HA) (F_finalize _ _ _ _ e HA HF)).
  - rewrite bstep_reopen. apply AF_stages. destruct (AF_stages w l s ds HAF) as (_ & _ & Hclose & _). destruct (Hclose e) as [HA1 HF1].
    exact (conj HA1 (F_reload _ _ _ HF1 (close_flushed _ _ _ _ e HAF))).
Qed.

Lemma AF_run ops : forall w l s ds, AF w l s ds ->
  AF (fst (wrun w l ops)) (snd (wrun w l ops)) (fst (brun s ops)) (ds ++ docs_of_ops ops).
Proof.
  induction ops as [|op ops IH]; intros w l s ds HAF; [cbn; rewrite app_nil_r; exact HAF|].
  rewrite brun_cons. change (docs_of_ops (op :: ops)) with (docs_of_op op ++ docs_of_ops ops). rewrite app_assoc.
  exact (IH _ _ _ _ (AF_step w l s ds op HAF)).
Qed.

Lemma AF_final ops : AF (fst (wrun false false ops)) (snd (wrun false false ops)) (bfinal ops) (docs_of_ops ops).
Proof. exact (AF_run ops false false bst0 [] (conj A_bst0 F_bst0)). Qed.

Lemma A_quiescent s ds : A s ds -> delta_nonempty (pending (base s)) = false ->
  view (base s) = ref_table ds /\ committed (base s) = ref_table ds /\ finf s = ref_infos ds.
Proof.
  intros [HJ HAF HP HF _] HD. pose proof (J_view _ _ HJ) as HV. apply no_frame_lex_only in HD.
  split; [exact HV|]. split; [rewrite <- (view_lex_only _ HD); exact HV|].
  rewrite (new_infos_lex_only _ _ HD), app_nil_r in HAF. exact HAF.
Qed.

Lemma AF_lexical_view l s ds : A s ds -> F false l s -> delta_nonempty (pending (base s)) = false ->
  view (base s) = ref_table ds /\ finf s = ref_infos ds /\
  timeline_ids s = map snd (tix_full (ref_table ds) (ref_infos ds)) /\
  lex (ix s) = lex_full (ref_table ds) (ref_infos ds).
Proof.
  intros HA HF HD. destruct (A_quiescent s ds HA HD) as (HV & HC & HAF).
  pose proof (F_tdirty_false _ _ _ HF HD) as HT. destruct HF as [[Hfr _ _] _].
  destruct (Hfr eq_refl HT) as (T1 & T2 & _).
  split; [exact HV|]. split; [exact HAF|]. split; [|rewrite T2, HC, HAF; reflexivity].
  unfold timeline_ids. destruct T1 as [T1|[T1 T1']].
  - rewrite T1, HC, HAF. reflexivity.
  - rewrite T1, T1'. rewrite <- HC, T1'. reflexivity.
Qed.

Definition Settled (s : bst) : Prop :=
  tdirty (ix s) = false /\ lex_disk (ix s) = lex (ix s) /\ delta_nonempty (pending (base s)) = false /\ tix (ix s) <> None.

(* holds of EVERY history that ends outside the window with only lex records pending, also one that
   closed the memory inside a window on the way; only the vector documents need `scan` *)
Theorem lexical_view ops :
  let s := bfinal ops in let ds := docs_of_ops ops in
  fst (wrun false false ops) = false -> delta_nonempty (pending (base s)) = false ->
  view (base s) = ref_table ds /\ finf s = ref_infos ds /\
  timeline_ids s = map snd (tix_full (ref_table ds) (ref_infos ds)) /\
  lex (ix s) = lex_full (ref_table ds) (ref_infos ds).
Proof.
  intros s ds Hs HD. destruct (AF_final ops) as [HA HF]. rewrite Hs in HF. exact (AF_lexical_view _ _ _ HA HF HD).
Qed.

(* inside the window the in-memory vector index is already complete (what live search_vec scans) *)
Theorem vector_live_any_window ops w :
  scan false ops = Some w -> vec_full (finf (bfinal ops)) = docs_of (vidx (ix (bfinal ops))).
Proof.
  intros Hs. destruct (AF_final ops) as [_ [_ HV]]. rewrite (scan_wrun _ _ _ Hs) in HV.
  symmetry. exact (V_full HV eq_refl).
Qed.

(* C40 (4): every history that does not close the memory between a commit_skip_indexes and the
   following finalize_indexes, once it is outside that window and only lex records are pending,
   shows exactly what plain puts of its documents show, vector documents included *)
Theorem bulk_view ops :
  scan false ops = Some false ->
  delta_nonempty (pending (base (bfinal ops))) = false ->
  bview (bfinal ops) = spec_view (docs_of_ops ops).
Proof.
  intros Hs HD. pose proof (scan_wrun _ _ _ Hs) as Hw.
  destruct (lexical_view ops (f_equal fst Hw) HD) as (V & I & T & L).
  unfold bview, spec_view. rewrite V, I, T, L, <- (vector_live_any_window ops false Hs), I. reflexivity.
Qed.

(* ... and after close + reopen, whatever was pending at the close *)
Theorem bulk_view_reopened ops e :
  scan false ops = Some false -> bview (bfinal (ops ++ [BReopen e])) = spec_view (docs_of_ops ops).
Proof.
  intros Hs.
  assert (HDo : docs_of_ops (ops ++ [BReopen e]) = docs_of_ops ops) by (rewrite docs_of_ops_app; cbn; apply app_nil_r).
  rewrite <- HDo. apply bulk_view.
  - rewrite scan_app, Hs. reflexivity.
  - rewrite bfinal_snoc, reopen_pending_nil. reflexivity.
Qed.

Definition Plain (ops : list bop) (ds : list doc) : Prop :=
  scan false ops = Some false /\ docs_of_ops ops = ds /\ delta_nonempty (pending (base (bfinal ops))) = false.

Lemma Plain_view ops ds : Plain ops ds ->
  bview (bfinal ops) = spec_view ds /\ forall e, bview (bfinal (ops ++ [BReopen e])) = spec_view ds.
Proof. intros (Hs & <- & HD). split; [apply bulk_view|intros e; apply bulk_view_reopened]; assumption. Qed.

Lemma grow_fields s g : ix (grow s g) = ix s /\ base (grow s g) = base s /\ finf (grow s g) = finf s /\ pinf (grow s g) = pinf s.
Proof. destruct g; cbn; auto. Qed.

Lemma commit_pending_nil s e g : pending (base (fst (bstep s (BCommit e g)))) = [].
Proof.
  rewrite bstep_commit. destruct (grow_fields (commit_op s e) g) as (_ & -> & _). unfold commit_op.
  (* commit_full leaves nothing pending; the one branch without it has nothing pending to begin with *)
  destruct (pending (base s)) eqn:Ep; [|reflexivity].
  destruct (dirty (base s)); [reflexivity|].
  destruct (tdirty (ix s)); [reflexivity|exact Ep].
Qed.

Lemma skip_pending_nil s : pending (base (fst (bstep s BSkip))) = [].
Proof.
  cbn [bstep fst]. unfold commit_skip.
  destruct (pending (base s)) eqn:Ep; [destruct (dirty (base s)); [reflexivity|exact Ep]|reflexivity].
Qed.

Lemma finalize_no_frame s e g : delta_nonempty (pending (base s)) = false ->
  delta_nonempty (pending (base (fst (bstep s (BFinalize e g))))) = false.
Proof.
  intros HD. cbn [bstep fst]. destruct (grow_fields (finalize s e) g) as (_ & -> & _).
  cbn [finalize base pending]. rewrite delta_nonempty_app, HD, lex_recs_no_frame. reflexivity.
Qed.

Lemma finalize_Settled s e g : delta_nonempty (pending (base s)) = false -> Settled (fst (bstep s (BFinalize e g))).
Proof.
  intros HD. pose proof (finalize_no_frame s e g HD) as HD'. cbn [bstep fst] in *.
  destruct (grow_fields (finalize s e) g) as (GI & _).
  destruct (rebuild_lex (ix s) (committed (base s)) (finf s) [] [] (or_intror eq_refl)) as (R1 & R2 & R3 & R4).
  unfold Settled. rewrite GI. cbn [finalize ix]. rewrite R1, R2, R3, R4. repeat split; [exact HD'|discriminate].
Qed.

Lemma end_base s : base (fst (bstep s BEnd)) = base s.
Proof. reflexivity. Qed.

(* finalize_indexes, then close + reopen, after ANY history and whatever was pending (the reopen commits
   it): table, timestamps, timeline and engine are those of plain puts *)
Theorem finalize_lexical_reopened ops e g e2 :
  let s := bfinal ops in let ds := docs_of_ops ops in
  let s' := fst (bstep (fst (bstep s (BFinalize e g))) (BReopen e2)) in
  view (base s') = ref_table ds /\ finf s' = ref_infos ds /\
  timeline_ids s' = map snd (tix_full (ref_table ds) (ref_infos ds)) /\
  lex (ix s') = lex_full (ref_table ds) (ref_infos ds).
Proof.
  intros s ds s'.
  pose proof (lexical_view (ops ++ [BFinalize e g; BReopen e2])) as H.
  rewrite bfinal_app, !brun_cons, docs_of_ops_app in H. cbn [brun fst docs_of_ops flat_map app] in H. rewrite app_nil_r in H.
  apply H.
  - (* finalize_indexes closed the window, the reopen leaves it closed *)
    rewrite wrun_app. reflexivity.
  - rewrite reopen_pending_nil. reflexivity.
Qed.

Definition plain_op (op : bop) : bool := match op with BSkip | BFinalize _ _ | BReopen _ => false | _ => true end.
Lemma scan_plain l : forall w r, forallb plain_op l = true -> scan w (l ++ r) = scan w r.
Proof.
  induction l as [|op l IH]; intros w r H; [reflexivity|]. cbn [forallb] in H. apply andb_true_iff in H as [H1 H2].
  cbn [app]. destruct op; try discriminate; cbn [scan]; apply IH; exact H2.
Qed.

Lemma put_ops_facts xs : forallb plain_op (put_ops xs) = true /\ docs_of_ops (put_ops xs) = map pd_doc xs.
Proof.
  induction xs as [|[[d a] g] xs (I1 & I3)]; [split; reflexivity|].
  cbn [put_ops map forallb plain_op andb pd_doc fst snd]. fold (put_ops xs).
  split; [exact I1|]. change (docs_of_ops (BPut d a g :: put_ops xs)) with (d :: docs_of_ops (put_ops xs)). rewrite I3. reflexivity.
Qed.

Lemma plain_path_Plain xs e g : Plain (plain_path xs e g) (map pd_doc xs).
Proof.
  destruct (put_ops_facts xs) as (P1 & P3). unfold plain_path. split; [|split].
  - rewrite (scan_plain _ _ _ P1). reflexivity.
  - rewrite docs_of_ops_app, P3. apply app_nil_r.
  - rewrite bfinal_snoc, commit_pending_nil. reflexivity.
Qed.

Lemma batch_path_Plain o xs ef e g : Plain (batch_path o xs ef e g) (map pd_doc xs).
Proof.
  destruct (put_ops_facts xs) as (P1 & P3). unfold batch_path. split; [|split].
  - cbn [scan]. rewrite (scan_plain _ _ _ P1). destruct ef; reflexivity.
  - change (BBegin o :: ?l) with ([BBegin o] ++ l). rewrite !docs_of_ops_app, P3. destruct ef; apply app_nil_r.
  - rewrite app_comm_cons, bfinal_app. destruct ef; rewrite !brun_cons; cbn [brun fst].
    + rewrite commit_pending_nil. reflexivity.
    + rewrite end_base, commit_pending_nil. reflexivity.
Qed.

Definition skip_body (segs : list (list pdoc)) : list bop := flat_map (fun xs => put_ops xs ++ [BSkip]) segs.

Lemma skip_body_snoc segs xs : skip_body (segs ++ [xs]) = (skip_body segs ++ put_ops xs) ++ [BSkip].
Proof. unfold skip_body. rewrite flat_map_app. cbn [flat_map]. rewrite app_nil_r, app_assoc. reflexivity. Qed.

Lemma skip_body_facts segs :
  docs_of_ops (skip_body segs) = map pd_doc (concat segs) /\
  (forall w r, scan w (skip_body segs ++ r) = scan (match segs with [] => w | _ => true end) r).
Proof.
  induction segs as [|xs segs (I1 & I2)] using rev_ind; [split; reflexivity|].
  destruct (put_ops_facts xs) as (P1 & P3). rewrite skip_body_snoc. split.
  - rewrite concat_app, map_app, !docs_of_ops_app, I1, P3. cbn. rewrite !app_nil_r. reflexivity.
  - intros w r. rewrite <- !app_assoc, I2, (scan_plain _ _ _ P1). destruct segs; reflexivity.
Qed.

(* each segment ends with a commit *)
Lemma skip_body_pending segs s : pending (base s) = [] -> pending (base (fst (brun s (skip_body segs)))) = [].
Proof.
  intros Hp. destruct segs as [|xs segs _] using rev_ind; [exact Hp|].
  rewrite skip_body_snoc, brun_app, brun_cons. apply skip_pending_nil.
Qed.

Lemma skip_path_Plain segs e g : Plain (skip_path segs e g) (map pd_doc (concat segs)).
Proof.
  destruct (skip_body_facts segs) as (S1 & S2). unfold skip_path. fold (skip_body segs). split; [|split].
  - rewrite S2. destruct segs; reflexivity.
  - rewrite docs_of_ops_app, S1. apply app_nil_r.
  - rewrite bfinal_snoc. apply finalize_no_frame. unfold bfinal. rewrite skip_body_pending; reflexivity.
Qed.
