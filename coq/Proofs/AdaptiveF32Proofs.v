(* binary32 facts for C37 (Flocq), about Model/AdaptiveF32.v: normalize_scores maps finite scores
   into [0,1] with every maximal score mapped to exactly 1 (normalize_ok), PROVIDED max - min does
   not overflow; the overflow case is a genuine defect of the implementation (known finding F-C37-1:
   normalize_fails_on_overflow, with overflow_witness inside the class); and the reading
   of "not below the threshold" as "at or above the threshold" for non-NaN values.
   The normalize proofs go one score at a time (normalize_map of Proofs/AdaptiveProofs.v): the score
   lies between the two extremes of the list (score_extremes) and is rescaled by two monotone
   roundings (scale_unit).
   Theorems here carry Flocq's four standard-library axioms (the reals). *)
From Coq Require Import Reals Lra.
From Flocq Require Import Core.Zaux Core.Raux Core.Defs Core.Float_prop Core.Generic_fmt
     IEEE754.BinarySingleNaN IEEE754.Binary IEEE754.Bits.
From MV Require Import Base.Prelude Model.Adaptive Model.AdaptiveF32 Proofs.AdaptiveProofs.

Notation R32 := (B2R 24 128).
Notation fin32 := (is_finite 24 128).
Notation rnd32 := (round radix2 (SpecFloat.fexp 24 128) (round_mode mode_NE)).

Lemma B2R_of_bits : forall z, R32 (b32_of_bits z) = FF2R radix2 (binary_float_of_bits_aux 23 8 z).
Proof. intros z. unfold b32_of_bits, binary_float_of_bits. apply B2R_FF2B. Qed.

Lemma R_one : R32 F32_ONE = 1%R.
Proof.
  unfold F32_ONE. rewrite B2R_of_bits.
  set (f := binary_float_of_bits_aux 23 8 1065353216). vm_compute in f. subst f.
  unfold FF2R, F2R, cond_Zopp. cbn [Fnum Fexp].
  change (bpow radix2 (-23)) with (/ IZR (Z.pow_pos 2 23))%R.
  replace (Z.pow_pos 2 23) with 8388608%Z by reflexivity.
  field.
Qed.

Lemma R_eps_pos : (0 < R32 F32_EPSILON)%R.
Proof.
  unfold F32_EPSILON. rewrite B2R_of_bits.
  set (f := binary_float_of_bits_aux 23 8 872415232). vm_compute in f. subst f.
  unfold FF2R, F2R, cond_Zopp. cbn [Fnum Fexp].
  apply Rmult_lt_0_compat; [apply IZR_lt; reflexivity | apply bpow_gt_0].
Qed.

Lemma rnd_one : rnd32 1%R = 1%R.
Proof. apply round_generic; [apply valid_rnd_round_mode | rewrite <- R_one; apply generic_format_B2R]. Qed.

Lemma rnd_zero : rnd32 0%R = 0%R.
Proof. apply round_0. apply valid_rnd_round_mode. Qed.

Lemma rnd_le : forall x y, (x <= y)%R -> (rnd32 x <= rnd32 y)%R.
Proof.
  intros x y H. apply round_le; [apply fexp_correct; reflexivity | apply valid_rnd_round_mode | exact H].
Qed.

Lemma fin_not_nan : forall x : f32, fin32 x = true -> f32_is_nan x = false.
Proof. intros x; destruct x; simpl; intros H; try discriminate; reflexivity. Qed.

(* as Rlt_bool, which Rlt_bool_spec reads either way *)
Lemma ltb_R : forall x y : f32, fin32 x = true -> fin32 y = true ->
  f32_ltb x y = Rlt_bool (R32 x) (R32 y).
Proof.
  intros x y Hx Hy. unfold f32_ltb, b32_compare, Rlt_bool. rewrite (Bcompare_correct 24 128 x y Hx Hy).
  destruct (Rcompare (R32 x) (R32 y)); reflexivity.
Qed.

Lemma compare_some : forall x y : f32, f32_is_nan x = false -> f32_is_nan y = false ->
  exists c, b32_compare x y = Some c.
Proof.
  intros x y Hx Hy. unfold b32_compare, Bcompare.
  destruct x as [sx|sx|sx px ex|sx mx ex bx]; try discriminate Hx;
  destruct y as [sy|sy|sy py ey|sy my ey by_]; try discriminate Hy;
  cbn [B2BSN BinarySingleNaN.Bcompare BinarySingleNaN.B2SF SpecFloat.SFcompare]; eauto.
Qed.

Lemma not_below_is_at_or_above : forall x y : f32,
  f32_is_nan x = false -> f32_is_nan y = false -> f32_ltb x y = false -> f32_leb y x = true.
Proof.
  intros x y Hx Hy H. destruct (compare_some x y Hx Hy) as [c Hc].
  unfold f32_ltb in H. unfold f32_leb. unfold b32_compare in *. rewrite Bcompare_swap. rewrite Hc in *.
  destruct c; try discriminate; reflexivity.
Qed.

Lemma fmax_props : forall a b : f32, fin32 a = true -> fin32 b = true ->
  fin32 (f32_max a b) = true /\ (f32_max a b = a \/ f32_max a b = b) /\
  (R32 a <= R32 (f32_max a b))%R /\ (R32 b <= R32 (f32_max a b))%R.
Proof.
  intros a b Ha Hb. unfold f32_max. rewrite (fin_not_nan a Ha), (fin_not_nan b Hb).
  rewrite (ltb_R a b Ha Hb). destruct (Rlt_bool_spec (R32 a) (R32 b)) as [E|E].
  - repeat split; auto; lra.
  - repeat split; auto; lra.
Qed.

Lemma fmin_props : forall a b : f32, fin32 a = true -> fin32 b = true ->
  fin32 (f32_min a b) = true /\ (f32_min a b = a \/ f32_min a b = b) /\
  (R32 (f32_min a b) <= R32 a)%R /\ (R32 (f32_min a b) <= R32 b)%R.
Proof.
  intros a b Ha Hb. unfold f32_min. rewrite (fin_not_nan a Ha), (fin_not_nan b Hb).
  rewrite (ltb_R b a Hb Ha). destruct (Rlt_bool_spec (R32 b) (R32 a)) as [E|E].
  - repeat split; auto; lra.
  - repeat split; auto; lra.
Qed.

Definition finite_list (l : list f32) : Prop := forall x, In x l -> fin32 x = true.

Lemma all_finite_spec : forall l, all_finite l = true <-> finite_list l.
Proof. intros l. unfold all_finite, finite_list, f32_is_finite. apply forallb_forall. Qed.

Lemma finite_nth : forall l i, finite_list l -> fin32 (nth i l F32_ZERO) = true.
Proof. intros l i Hl. destruct (nth_in_or_default i l F32_ZERO) as [Hin| ->]; [exact (Hl _ Hin) | reflexivity]. Qed.

(* max_score and min_score are the same fold: `sel` returns one of its two arguments, the one
   that `le` (<= for f32::max, >= for f32::min) ranks last, and the first finite score replaces
   the starting value -inf, resp. +inf *)
Section Extremum.
  Variable sel : f32 -> f32 -> f32.
  Variable le : R -> R -> Prop.
  Variable init : f32.
  Hypothesis le_refl : forall x, le x x.
  Hypothesis le_trans : forall x y z, le x y -> le y z -> le x z.
  Hypothesis sel_props : forall a b, fin32 a = true -> fin32 b = true ->
    fin32 (sel a b) = true /\ (sel a b = a \/ sel a b = b) /\
    le (R32 a) (R32 (sel a b)) /\ le (R32 b) (R32 (sel a b)).
  Hypothesis sel_init : forall s, fin32 s = true -> sel init s = s.

  Lemma fold_sel_props : forall (l : list f32) (acc : f32),
    fin32 acc = true -> finite_list l ->
    fin32 (fold_left sel l acc) = true /\
    (fold_left sel l acc = acc \/ In (fold_left sel l acc) l) /\
    le (R32 acc) (R32 (fold_left sel l acc)) /\
    (forall x, In x l -> le (R32 x) (R32 (fold_left sel l acc))).
  Proof.
    induction l as [|s r IH]; intros acc Ha Hl; cbn [fold_left].
    - split; [exact Ha|]. split; [left; reflexivity|]. split; [apply le_refl|intros x []].
    - destruct (sel_props acc s Ha (Hl s (or_introl eq_refl))) as (F1 & F2 & F3 & F4).
      destruct (IH (sel acc s) F1 (fun x Hx => Hl x (or_intror Hx))) as (I1 & I2 & I3 & I4).
      split; [exact I1|]. split; [|split].
      + destruct I2 as [I2|I2]; [|right; right; exact I2].
        rewrite I2. destruct F2 as [F2|F2]; rewrite F2; [left; reflexivity | right; left; reflexivity].
      + exact (le_trans _ _ _ F3 I3).
      + intros x [Hx|Hx]; [subst x; exact (le_trans _ _ _ F4 I3) | apply I4; exact Hx].
  Qed.

  Lemma extremum_props : forall scores : list f32, scores <> [] -> finite_list scores ->
    fin32 (fold_left sel scores init) = true /\ In (fold_left sel scores init) scores /\
    (forall x, In x scores -> le (R32 x) (R32 (fold_left sel scores init))).
  Proof.
    intros [|s r] Hne Hf; [congruence|]. cbn [fold_left].
    assert (Hs : fin32 s = true) by (apply Hf; left; reflexivity).
    rewrite (sel_init s Hs).
    destruct (fold_sel_props r s Hs (fun x Hx => Hf x (or_intror Hx))) as (I1 & I2 & I3 & I4).
    split; [exact I1|]. split.
    - destruct I2 as [I2|I2]; [rewrite I2; left; reflexivity | right; exact I2].
    - intros x [Hx|Hx]; [subst x; exact I3 | apply I4; exact Hx].
  Qed.
End Extremum.

Lemma score_extremes : forall scores : list f32, scores <> [] -> finite_list scores ->
  let mn := min_score f32ops scores in
  let mx := max_score f32ops scores in
  fin32 mn = true /\ fin32 mx = true /\ In mn scores /\ In mx scores /\
  (forall x, In x scores -> (R32 mn <= R32 x <= R32 mx)%R).
Proof.
  intros scores Hne Hf.
  destruct (extremum_props f32_max Rle F32_NEG_INF Rle_refl Rle_trans fmax_props) with (scores := scores)
    as (Mx1 & Mx2 & Mx3); [|exact Hne|exact Hf|].
  { intros s Hs. unfold f32_max. rewrite (fin_not_nan s Hs). destruct s; try discriminate Hs; reflexivity. }
  destruct (extremum_props f32_min (fun x y => (y <= x)%R) F32_INF Rle_refl
              (fun x y z H1 H2 => Rle_trans z y x H2 H1) fmin_props) with (scores := scores)
    as (Mn1 & Mn2 & Mn3); [|exact Hne|exact Hf|].
  { intros s Hs. unfold f32_min. rewrite (fin_not_nan s Hs). destruct s; try discriminate Hs; reflexivity. }
  cbv zeta. split; [exact Mn1|]. split; [exact Mx1|]. split; [exact Mn2|]. split; [exact Mx2|].
  intros x Hx. split; [apply Mn3, Hx | apply Mx3, Hx].
Qed.

Lemma sign_R : forall x : f32, fin32 x = true -> if Bsign 24 128 x then (R32 x <= 0)%R else (0 <= R32 x)%R.
Proof.
  intros x Hf. destruct x as [s|s|s p e|s m e b]; try discriminate Hf.
  - destruct s; cbn [Bsign B2R]; lra.
  - destruct s; cbn [Bsign B2R cond_Zopp].
    + apply F2R_le_0. cbn [Fnum]. lia.
    + apply F2R_ge_0. cbn [Fnum]. lia.
Qed.

Lemma minus_ordered : forall x y : f32, fin32 x = true -> fin32 y = true -> (R32 y <= R32 x)%R ->
  if Rlt_bool (rnd32 (R32 x - R32 y)) (bpow radix2 128)
  then fin32 (b32_minus mode_NE x y) = true /\ R32 (b32_minus mode_NE x y) = rnd32 (R32 x - R32 y)
  else b32_minus mode_NE x y = B754_infinity 24 128 false.
Proof.
  intros x y Hx Hy Hle. unfold b32_minus.
  match goal with |- context [Bminus _ _ ?p1 ?p2 ?nan _ _ _] =>
    pose proof (Bminus_correct 24 128 p1 p2 nan mode_NE x y Hx Hy) as H;
    set (d := Bminus 24 128 p1 p2 nan mode_NE x y) in * end.
  rewrite Rabs_pos_eq in H by (rewrite <- rnd_zero; apply rnd_le; lra).
  destruct (Rlt_bool_spec (rnd32 (R32 x - R32 y)) (bpow radix2 128)) as [_|Hge].
  - destruct H as (H1 & H2 & _). split; assumption.
  - (* overflow goes to the infinity of x's sign, which is the opposite of y's *)
    destruct H as [H Hsign]. pose proof (sign_R x Hx) as Rx. pose proof (sign_R y Hy) as Ry.
    destruct (Bsign 24 128 x), (Bsign 24 128 y); try discriminate Hsign.
    + (* x <= 0 <= y <= x: the exact difference is 0, which does not overflow *)
      replace (R32 x - R32 y)%R with 0%R in Hge by lra. rewrite rnd_zero in Hge.
      pose proof (bpow_gt_0 radix2 128). lra.
    + destruct d; try discriminate H. inversion H. reflexivity.
Qed.

Lemma minus_mono : forall s mn mx : f32,
  fin32 s = true -> fin32 mn = true -> fin32 mx = true -> (R32 mn <= R32 s <= R32 mx)%R ->
  fin32 (b32_minus mode_NE mx mn) = true ->
  fin32 (b32_minus mode_NE s mn) = true /\
  R32 (b32_minus mode_NE s mn) = rnd32 (R32 s - R32 mn) /\
  R32 (b32_minus mode_NE mx mn) = rnd32 (R32 mx - R32 mn) /\
  (0 <= R32 (b32_minus mode_NE s mn) <= R32 (b32_minus mode_NE mx mn))%R.
Proof.
  intros s mn mx Hs Hmn Hmx Hb Hrf.
  pose proof (minus_ordered mx mn Hmx Hmn ltac:(lra)) as Hr. pose proof (minus_ordered s mn Hs Hmn ltac:(lra)) as Hd.
  assert (Hlo : (0 <= rnd32 (R32 s - R32 mn))%R) by (rewrite <- rnd_zero; apply rnd_le; lra).
  assert (Hhi : (rnd32 (R32 s - R32 mn) <= rnd32 (R32 mx - R32 mn))%R) by (apply rnd_le; lra).
  destruct (Rlt_bool_spec (rnd32 (R32 mx - R32 mn)) (bpow radix2 128)) as [Hlt|_]; [|rewrite Hr in Hrf; discriminate Hrf].
  rewrite Rlt_bool_true in Hd by lra. destruct Hr as [_ Hr], Hd as [Hd1 Hd2]. rewrite Hd2, Hr. auto.
Qed.

Lemma div_unit : forall d g : f32, fin32 d = true ->
  (0 <= R32 d <= R32 g)%R -> (0 < R32 g)%R ->
  fin32 (b32_div mode_NE d g) = true /\
  (0 <= R32 (b32_div mode_NE d g) <= 1)%R /\
  (R32 d = R32 g -> R32 (b32_div mode_NE d g) = 1%R).
Proof.
  intros d g Hd Hb Hpos. unfold b32_div.
  assert (Hnz : R32 g <> 0%R) by lra.
  match goal with |- context [Bdiv _ _ ?p1 ?p2 ?nan _ _ _] =>
    pose proof (Bdiv_correct 24 128 p1 p2 nan mode_NE d g Hnz) as H end.
  assert (Hq : (0 <= R32 d / R32 g <= 1)%R).
  { split.
    - apply Rmult_le_pos; [lra | left; apply Rinv_0_lt_compat; exact Hpos].
    - apply Rmult_le_reg_r with (R32 g); [exact Hpos|]. unfold Rdiv. rewrite Rmult_assoc, Rinv_l by exact Hnz. lra. }
  assert (Hlo : (0 <= rnd32 (R32 d / R32 g))%R) by (rewrite <- rnd_zero; apply rnd_le; lra).
  assert (Hhi : (rnd32 (R32 d / R32 g) <= 1)%R) by (rewrite <- rnd_one; apply rnd_le; lra).
  rewrite Rlt_bool_true in H.
  - destruct H as (H1 & H2 & _). rewrite H1, H2. split; [exact Hd|]. split; [lra|].
    intros Heq. rewrite Heq. unfold Rdiv. rewrite Rinv_r by exact Hnz. apply rnd_one.
  - rewrite Rabs_pos_eq by exact Hlo. apply Rle_lt_trans with 1%R; [exact Hhi|].
    change 1%R with (bpow radix2 0). apply bpow_lt. reflexivity.
Qed.

(* the normalize clause of C37 *)
Definition unit_value (y : f32) : Prop := fin32 y = true /\ (0 <= R32 y <= 1)%R.

Definition normalize_ok (scores : list f32) : Prop :=
  let out := normalize_scores f32ops scores in
  length out = length scores /\
  (forall y, In y out -> unit_value y) /\
  (forall i, (i < length scores)%nat ->
     (forall x, In x scores -> (R32 x <= R32 (nth i scores F32_ZERO))%R) ->
     R32 (nth i out F32_ZERO) = 1%R).

Lemma unit_one : unit_value F32_ONE.
Proof. split; [reflexivity | rewrite R_one; lra]. Qed.

Lemma range_overflows_spec scores :
  scores <> [] -> range_overflows scores = negb (fin32 (score_range f32ops scores)).
Proof. destruct scores; [congruence | reflexivity]. Qed.

(* one score s between mn and mx, rescaled by a finite positive mx - mn: s - mn lies in
   [0, mx - mn] and rounding is monotone, so the quotient lies in [0, 1]; for s = mx the two
   differences are equal and the quotient is 1 *)
Lemma scale_unit : forall s mn mx : f32,
  fin32 s = true -> fin32 mn = true -> fin32 mx = true -> (R32 mn <= R32 s <= R32 mx)%R ->
  fin32 (b32_minus mode_NE mx mn) = true -> (0 < R32 (b32_minus mode_NE mx mn))%R ->
  unit_value (b32_div mode_NE (b32_minus mode_NE s mn) (b32_minus mode_NE mx mn)) /\
  ((R32 mx <= R32 s)%R -> R32 (b32_div mode_NE (b32_minus mode_NE s mn) (b32_minus mode_NE mx mn)) = 1%R).
Proof.
  intros s mn mx Hs Hmn Hmx Hb Hrf Hpos.
  destruct (minus_mono s mn mx Hs Hmn Hmx Hb Hrf) as (D1 & D2 & Hrange & D3).
  destruct (div_unit _ _ D1 D3 Hpos) as (Q1 & Q2 & Q3).
  split; [split; assumption|].
  intros Hmax. apply Q3. rewrite D2, Hrange. do 2 f_equal. lra.
Qed.

Lemma normalize_one_unit : forall (scores : list f32) (s : f32),
  finite_list scores -> range_overflows scores = false -> In s scores ->
  unit_value (normalize_one f32ops scores s) /\
  ((forall x, In x scores -> (R32 x <= R32 s)%R) -> R32 (normalize_one f32ops scores s) = 1%R).
Proof.
  intros scores s Hfin Hrfin Hs.
  assert (Hne : scores <> []) by (intros ->; destruct Hs).
  rewrite (range_overflows_spec scores Hne) in Hrfin. apply negb_false_iff in Hrfin.
  destruct (score_extremes scores Hne Hfin) as (Mn & Mx & Imn & Imx & Hb).
  unfold normalize_one, ltb. cbn [f_ltb f_eps f_one f_div f_sub f32ops].
  rewrite (ltb_R _ F32_EPSILON Hrfin eq_refl).
  destruct (Rlt_bool_spec (R32 (score_range f32ops scores)) (R32 F32_EPSILON)) as [|Eeps].
  - (* range < EPSILON: the literal 1.0 *) split; [apply unit_one | intros _; apply R_one].
  - assert (Hpos : (0 < R32 (score_range f32ops scores))%R) by (pose proof R_eps_pos; lra).
    destruct (scale_unit s _ _ (Hfin s Hs) Mn Mx (Hb s Hs) Hrfin Hpos) as [U One].
    split; [exact U|]. intros Hmax. apply One, Hmax, Imx.
Qed.

Theorem normalize_ok_without_overflow : forall scores : list f32,
  all_finite scores = true -> range_overflows scores = false -> normalize_ok scores.
Proof.
  intros scores Hfin Hrfin. apply all_finite_spec in Hfin.
  unfold normalize_ok. cbv zeta. rewrite normalize_map, map_length. split; [reflexivity|]. split.
  - intros y Hy. apply in_map_iff in Hy as (s & <- & Hs). apply (normalize_one_unit scores s Hfin Hrfin Hs).
  - intros i Hi Hmax.
    rewrite (nth_indep _ F32_ZERO (normalize_one f32ops scores F32_ZERO)), map_nth by (rewrite map_length; exact Hi).
    apply (normalize_one_unit scores _ Hfin Hrfin (nth_In scores F32_ZERO Hi)), Hmax.
Qed.

Lemma normalized_finite : forall (scores : list f32) (cfg : config f32),
  all_finite scores = true ->
  (cfg_normalize cfg = true -> range_overflows scores = false) ->
  finite_list (normalized_of f32ops scores cfg).
Proof.
  intros scores cfg Hf Hov. unfold normalized_of. destruct (cfg_normalize cfg).
  - intros y Hy. destruct (normalize_ok_without_overflow scores Hf (Hov eq_refl)) as (_ & H & _). apply (H y Hy).
  - apply all_finite_spec. exact Hf.
Qed.

(* scores [3e38, -3e38] (0x7F61B1E6, 0xFF61B1E6): both finite, max - min = +inf, and
   (3e38 - (-3e38)) / inf = inf / inf = NaN *)
Definition overflow_witness : list f32 := [f32_of_bits 2137108966; f32_of_bits 4284592614].

Lemma minus_overflow_is_pos_inf : forall x y : f32, fin32 x = true -> fin32 y = true ->
  (R32 y <= R32 x)%R -> fin32 (b32_minus mode_NE x y) = false ->
  b32_minus mode_NE x y = B754_infinity 24 128 false.
Proof.
  intros x y Hx Hy Hle Hnf. pose proof (minus_ordered x y Hx Hy Hle) as H.
  destruct (Rlt_bool _ _); [destruct H as [H _]; congruence | exact H].
Qed.

(* the known class is exact: inside it the clause always fails *)
Theorem normalize_fails_on_overflow : forall scores : list f32,
  all_finite scores = true -> range_overflows scores = true -> ~ normalize_ok scores.
Proof.
  intros scores Hfin Hrinf (_ & Hunit & _). apply all_finite_spec in Hfin.
  assert (Hne : scores <> []) by (intros ->; discriminate Hrinf).
  rewrite (range_overflows_spec scores Hne) in Hrinf. apply negb_true_iff in Hrinf.
  destruct (score_extremes scores Hne Hfin) as (Mn & Mx & Imn & Imx & Hb).
  assert (Hinf : score_range f32ops scores = B754_infinity 24 128 false).
  { apply minus_overflow_is_pos_inf; [exact Mx | exact Mn | apply Hb, Imn | exact Hrinf]. }
  (* the maximal score is mapped to inf / inf *)
  rewrite normalize_map in Hunit. destruct (Hunit _ (in_map _ scores _ Imx)) as [Hf _].
  unfold normalize_one, ltb in Hf. cbn [f_ltb f_eps f_div f_sub f32ops] in Hf.
  change (b32_minus mode_NE (max_score f32ops scores) (min_score f32ops scores))
    with (score_range f32ops scores) in Hf.
  rewrite Hinf in Hf. vm_compute in Hf. discriminate Hf.
Qed.
