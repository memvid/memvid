(* C24: the capacity state machine of Model/Capacity.v.  Every step keeps inv, provided tickets fit
   (ticket_ok) and the put is counted (put_counted: always under the fixed check, by staying outside
   known_class under the old one).  An accepted put is add_pend, then shift by the growth of the
   log, then commit if a checkpoint follows; pre-sizing the log is a shift too (presize_shift).
   inv gives within_capacity.  tickets_okb_sound: the boolean hypotheses the examples evaluate are
   sound. *)
From MV Require Import Base.Prelude Model.Capacity.
From Coq Require Import ZifyBool.
Local Open Scope N_scope.

Lemma sum_cons : forall x l, sum (x :: l) = x + sum l.
Proof. reflexivity. Qed.
Lemma sum_nil : sum [] = 0.
Proof. reflexivity. Qed.

Lemma sum_app : forall a b, sum (a ++ b) = sum a + sum b.
Proof.
  induction a as [|x a IH]; intros b; cbn [app]; rewrite ?sum_cons, ?sum_nil, ?IH; lia.
Qed.

Lemma apply_pend_spec : forall l cur cp,
  apply_pend cur cp l = (cur + sum l, match l with [] => cp | _ => N.max cp (cur + sum l) end).
Proof.
  induction l as [|x r IH]; intros cur cp; cbn [apply_pend].
  - rewrite sum_nil. f_equal. lia.
  - rewrite IH, sum_cons. destruct r as [|y r']; [rewrite sum_nil|set (sr := sum (y :: r'))]; f_equal; lia.
Qed.

Lemma frames_end_le : forall l cur fe, frames_end cur fe l <= N.max fe (cur + sum l).
Proof.
  induction l as [|x r IH]; intros cur fe; cbn [frames_end].
  - rewrite sum_nil. lia.
  - rewrite sum_cons. specialize (IH (cur + x) (if x =? 0 then fe else N.max fe (cur + x))).
    destruct (x =? 0); lia.
Qed.

Lemma move_le : forall d fe, move d fe <= fe + d.
Proof. intros d fe. unfold move. destruct (fe =? 0); lia. Qed.

Lemma commit_nil : forall s, pend s = [] -> commit s = s.
Proof. intros s E. unfold commit. rewrite E. reflexivity. Qed.

Lemma commit_nonempty : forall s, pend s <> [] ->
  commit s = let cp := N.max (cpe s) (dend s + sum (pend s)) in
             mkC cp cp (wal s) (tcap s) (tseq s) (iss s) (vec s) [] (stored s + sum (pend s))
                 (frames_end (dend s) (fend s) (pend s)).
Proof.
  intros s Hne. unfold commit. rewrite apply_pend_spec. destruct (pend s); [congruence|reflexivity].
Qed.

Lemma pend_cases : forall s, pend s = [] \/ pend s <> [].
Proof. intros s. destruct (pend s); [left; reflexivity|right; discriminate]. Qed.

Lemma pend_commit : forall s, pend (commit s) = [].
Proof.
  intros s. destruct (pend_cases s) as [E|Hne]; [rewrite commit_nil; exact E|].
  rewrite commit_nonempty by exact Hne. reflexivity.
Qed.

Lemma commit_limit_base : forall s, limit (commit s) = limit s /\ base (commit s) = base s.
Proof.
  intros s. destruct (pend_cases s) as [E|Hne]; [rewrite commit_nil by exact E; split; reflexivity|].
  rewrite commit_nonempty by exact Hne. split; reflexivity.
Qed.

Lemma step_up_mono t hi (g : N -> N) :
  (forall a b, a <= b -> g a <= g b) -> (forall w, g w <= hi) ->
  forall a b, a <= b -> (if t <=? a then hi else g a) <= (if t <=? b then hi else g b).
Proof.
  intros Hg Hhi a b H. destruct (t <=? a) eqn:A, (t <=? b) eqn:B; [lia|lia|apply Hhi|apply Hg, H].
Qed.

Lemma tier_cap_mono : forall a b, a <= b -> tier_cap a <= tier_cap b.
Proof.
  unfold tier_cap. apply step_up_mono.
  - apply step_up_mono; intros; [apply N.le_refl|cbv; discriminate].
  - intros w. destruct (WAL_SIZE_MEDIUM <=? w); cbv; discriminate.
Qed.

Lemma limit_mono : forall s s', tcap s' = tcap s -> wal s <= wal s' -> limit s <= limit s'.
Proof.
  intros s s' Ht Hw. unfold limit. rewrite Ht. destruct (tcap s =? 0); [apply tier_cap_mono; exact Hw|lia].
Qed.

Lemma pow2_log2_up_ge : forall m, 0 < m -> m <= 2 ^ N.log2_up m.
Proof.
  intros m Hm. destruct (N.eq_dec m 1) as [->|Hn]; [cbn; lia|]. apply N.log2_up_spec. lia.
Qed.

Lemma presize_shift : forall s m, wal s < m -> presize s m = shift (2 ^ N.log2_up m - wal s) s.
Proof.
  intros s m Hm. unfold presize, shift. rewrite (proj2 (N.leb_gt _ _) Hm).
  pose proof (pow2_log2_up_ge m ltac:(lia)) as Hp.
  generalize dependent (2 ^ N.log2_up m). intros t Ht. f_equal. lia.
Qed.

Lemma inv_commit : forall s, inv s -> inv (commit s).
Proof.
  intros s Hi. destruct (pend_cases s) as [E|Hne]; [rewrite commit_nil by exact E; exact Hi|].
  destruct Hi as (Hw & Hfd & Hl & Ht & Hp). specialize (Hp Hne).
  pose proof (commit_limit_base s) as [El Eb]. pose proof (frames_end_le (pend s) (dend s) (fend s)) as Hfe.
  unfold inv, fits. rewrite El, Eb. rewrite commit_nonempty by exact Hne.
  (* after the commit both ends are cp = max (cpe, dend + sum pend); the frame end is at most that
     (frames_end_le); this is exactly what the promise clause Hp bounded, and nothing is pending
     afterwards (the congruence goal) *)
  unfold top in *. cbn [wal fend dend cpe pend]. repeat split; try lia. congruence.
Qed.

Lemma inv_shift : forall d s, inv s -> inv (shift d s).
Proof.
  intros d s (Hw & Hfd & Hl & Ht & Hp).
  pose proof (limit_mono s (shift d s) eq_refl ltac:(cbn; lia)) as Hlim.
  pose proof (move_le d (fend s)) as Hm.
  unfold inv, fits, top, base in *. set (L := limit (shift d s)) in *.
  (* every offset and the base move by d; the limit does not shrink (Hlim); fend moves by at most
     d (Hm) *)
  cbn [wal fend dend cpe pend shift]. repeat split; [lia..|]. intros Hne. specialize (Hp Hne). lia.
Qed.

Lemma inv_presize : forall m s, inv s -> inv (presize s m).
Proof.
  intros m s Hi. destruct (N.le_gt_cases m (wal s)) as [Hle|Hlt].
  - unfold presize. rewrite (proj2 (N.leb_le _ _) Hle). exact Hi.
  - rewrite presize_shift by exact Hlt. apply inv_shift. exact Hi.
Qed.

Lemma inv_add_pend : forall s st, inv s ->
  full_projection s st <= limit s -> inv (add_pend s st).
Proof.
  intros s st (Hw & Hfd & Hl & Ht & Hp) Hf.
  unfold inv, fits, full_projection, top, base in *. change (limit (add_pend s st)) with (limit s).
  cbn [wal fend dend cpe pend add_pend]. rewrite sum_app. unfold BASE0 in *. lia.
Qed.

(* the step does not accept an under-counted put: never under the fixed check, by hypothesis under
   the check before the fix *)
Definition put_counted (fixed : bool) (s : cstate) (o : cop) : Prop :=
  fixed = true \/ undercounted s o = false.

Lemma inv_put : forall fixed s emb chk st grow auto,
  inv s -> put_counted fixed s (OPut emb chk st grow auto) ->
  inv (fst (put fixed s emb chk st grow auto)).
Proof.
  intros fixed s emb chk st grow auto Hi Hc. unfold put.
  destruct (mutation_allowed s) eqn:Ha; cbn [negb]; [|exact Hi].
  (* enable_vec touches nothing the invariant or the projection looks at *)
  set (s1 := if emb then set_vec s else s).
  assert (Hs1 : inv s1 /\ full_projection s1 st = full_projection s st /\ limit s1 = limit s)
    by (unfold s1; destruct emb; auto).
  destruct Hs1 as (Hi1 & Ep & El).
  destruct (limit s <? tail fixed s + chk) eqn:E1; [exact Hi1|].
  destruct (fixed && (limit s <? tail fixed s + sum st)) eqn:E2; [exact Hi1|].
  assert (Hf : full_projection s1 st <= limit s1).
  { rewrite Ep, El. unfold full_projection. destruct fixed; cbn [andb tail] in *; [lia|].
    (* the old check: the put is accepted, so it is counted only if not under-counted *)
    destruct Hc as [|Hu]; [discriminate|]. cbn [undercounted] in Hu. rewrite Ha, E1 in Hu.
    unfold full_projection in Hu. cbn [negb andb] in Hu. lia. }
  cbn [fst]. destruct auto; [apply inv_commit|]; apply inv_shift, inv_add_pend; assumption.
Qed.

Lemma inv_ticket : forall s sq cap i, inv s -> ticket_ok s (OTicket sq cap i) -> inv (fst (ticket s sq cap i)).
Proof.
  intros s sq cap i Hi Hok. cbn [ticket_ok] in Hok. unfold ticket in *.
  destruct (sq <=? tseq s) eqn:E; cbn [fst] in *; [exact Hi|].
  destruct Hi as (Hw & Hfd & _). split; [exact Hw|]. split; [exact Hfd|]. apply Hok. lia.
Qed.

Lemma inv_reopen : forall s d, inv s -> ticket_ok s (OReopen d) -> inv (reopen s d).
Proof.
  intros s d Hi Hok. cbn [ticket_ok] in Hok. unfold reopen.
  pose proof (inv_commit s Hi) as (Hw & Hfd & Hl & Ht & _). pose proof (pend_commit s) as Ep.
  generalize dependent (commit s). intros c Hok Hw Hfd Hl Ht Ep.
  unfold inv, fits, top, base in *. change (limit (mkC _ _ _ _ _ _ _ _ _ _)) with (limit c).
  cbn [wal fend dend cpe pend]. repeat split; [lia..|]. intros Hne. congruence.
Qed.

Lemma inv_step : forall fixed s o, inv s -> ticket_ok s o -> put_counted fixed s o -> inv (fst (step fixed s o)).
Proof.
  intros fixed s o Hi Ht Hc. destruct o as [emb chk st grow auto|grow|sq cap i|d|m]; cbn [step fst].
  - apply inv_put; assumption.
  - apply inv_shift, inv_commit; exact Hi.
  - apply inv_ticket; assumption.
  - apply inv_reopen; assumption.
  - apply inv_presize; exact Hi.
Qed.

Lemma inv_init : inv init.
Proof. repeat split; cbv; discriminate. Qed.

(* every history of the code as it is (fixed check), and every history of the check before the fix
   that stays outside the (then) known class *)
Lemma inv_run : forall fixed ops s,
  inv s -> tickets_ok fixed s ops -> (fixed = false -> known_class s ops = false) -> inv (run fixed s ops).
Proof.
  induction ops as [|o r IH]; intros s Hi Ht Hk; cbn [run]; [exact Hi|].
  cbn [tickets_ok] in Ht. destruct Ht as [Ht1 Ht2].
  assert (Hc : put_counted fixed s o /\ (fixed = false -> known_class (fst (step fixed s o)) r = false)).
  { destruct fixed; [split; [left; reflexivity|discriminate]|].
    specialize (Hk eq_refl). cbn [known_class] in Hk. apply Bool.orb_false_iff in Hk.
    split; [right; apply Hk|intros _; apply Hk]. }
  apply IH; [apply inv_step; [exact Hi|exact Ht1|apply Hc]|exact Ht2|apply Hc].
Qed.

(* the payload end, cached or real, is within the capacity: corrected for log growth; as an
   absolute offset while the log has its initial size; as the size of the payload region *)
Definition within_capacity (s : cstate) : Prop :=
  top s + BASE0 <= limit s + base s /\ (wal s = WAL_SIZE_TINY -> top s <= limit s) /\ top s - base s <= limit s.

Lemma inv_capacity : forall s, inv s -> within_capacity s.
Proof. intros s (Hw & _ & _ & H & _). unfold within_capacity, base, BASE0 in *. lia. Qed.

Lemma put_result : forall fixed s emb chk st grow auto,
  snd (put fixed s emb chk st grow auto) =
    if negb (mutation_allowed s) then r_ticket_required
    else if limit s <? tail fixed s + chk then r_cap (tail fixed s) (limit s) chk
    else if fixed && (limit s <? tail fixed s + sum st) then r_cap (tail fixed s) (limit s) (sum st)
    else r_ok.
Proof.
  intros. unfold put. destruct (negb (mutation_allowed s)); [reflexivity|].
  destruct (limit s <? tail fixed s + chk); [reflexivity|].
  destruct (fixed && (limit s <? tail fixed s + sum st)); reflexivity.
Qed.

Theorem put_old_result : forall s emb chk st grow auto,
  snd (put false s emb chk st grow auto) =
    if negb (mutation_allowed s) then r_ticket_required
    else if limit s <? cpe s + chk then r_cap (cpe s) (limit s) chk
    else r_ok.
Proof. intros. apply put_result. Qed.

Theorem put_fixed_result : forall s emb chk st grow auto,
  snd (put true s emb chk st grow auto) =
    let t := N.max (cpe s) (dend s) + sum (pend s) in
    if negb (mutation_allowed s) then r_ticket_required
    else if limit s <? t + chk then r_cap t (limit s) chk
    else if limit s <? t + sum st then r_cap t (limit s) (sum st)
    else r_ok.
Proof. intros. apply put_result. Qed.

Theorem put_rejected_state : forall fixed s emb chk st grow auto,
  code (snd (put fixed s emb chk st grow auto)) <> 0 ->
  fst (put fixed s emb chk st grow auto) =
    (if emb && mutation_allowed s then set_vec s else s).
Proof.
  intros fixed s emb chk st grow auto H. unfold put in *.
  destruct (mutation_allowed s) eqn:Ha; cbn [negb] in *; [|rewrite Bool.andb_false_r; reflexivity].
  rewrite Bool.andb_true_r.
  destruct (limit s <? tail fixed s + chk) eqn:E1; [reflexivity|].
  destruct (fixed && (limit s <? tail fixed s + sum st)) eqn:E2; [reflexivity|].
  cbn in H. congruence.
Qed.

Lemma set_vec_id : forall s, vec s = true -> set_vec s = s.
Proof. intros s H. destruct s. cbn in H. subst. reflexivity. Qed.

Lemma fitsb_sound : forall s, fitsb s = true -> fits s.
Proof.
  intros s H. unfold fitsb in H. apply Bool.andb_true_iff in H. destruct H as [H1 H2].
  apply Bool.andb_true_iff in H1. destruct H1 as [H0 H1].
  split; [lia|]. split; [lia|]. intros Hne. destruct (pend s) as [|x r]; [congruence|]. lia.
Qed.

Lemma tickets_okb_sound : forall fixed ops s, tickets_okb fixed s ops = true -> tickets_ok fixed s ops.
Proof.
  induction ops as [|o r IH]; intros s H; cbn [tickets_ok tickets_okb] in *; [exact I|].
  apply Bool.andb_true_iff in H. destruct H as [H1 H2]. split; [|apply IH; exact H2].
  destruct o as [emb chk st grow auto|grow|sq cap i|d|m]; cbn [ticket_ok ticket_okb] in *; try exact I; [|lia].
  intros Hlt. assert (E : tseq s <? sq = true) by lia. rewrite E in H1. apply fitsb_sound. exact H1.
Qed.
