(* C19 (Model/SingleFile.v): the names in the directory after every call.
   The refusal check is a `find` over the candidate names.  step_shape classifies what a call does
   to the world: nothing, create the target, staged commits on a memory that has a file or a handle
   (they add the leaked staging names and no other), a lockfile operation.
   names_inv -- every handle has its file, and the names are the initial ones, the create targets
   and the leaked staging names -- is kept by every call but the lockfile operations. *)
From MV Require Import Base.Prelude Base.Facts Model.FsProto Model.SingleFile.
Require MV.Gen.Consts.
Local Open Scope N_scope.

Lemma name_eqb_eq a b : name_eqb a b = true <-> a = b.
Proof. apply bytes_eqb_spec. Qed.
Lemma name_eqb_neq a b : name_eqb a b = false <-> a <> b.
Proof. rewrite <- name_eqb_eq. symmetry. apply not_true_iff_false. Qed.

Lemma mem_name_In l n : mem_name l n = true <-> In n l.
Proof. exact (existsb_eqb_In name_eqb name_eqb_eq n l). Qed.

Lemma del_name_In l m n : In n (del_name l m) <-> In n l /\ n <> m.
Proof. unfold del_name. rewrite filter_In, negb_true_iff, name_eqb_neq. reflexivity. Qed.

Lemma has_In d n : has d n = true <-> In n (names d).
Proof.
  unfold has. induction d as [|[m k] d IH]; cbn [lookup names map fst In].
  - split; [discriminate | contradiction].
  - destruct (name_eqb m n) eqn:E.
    + apply name_eqb_eq in E. split; auto.
    + apply name_eqb_neq in E. fold (names d). rewrite IH. tauto.
Qed.

Lemma has_false d n : has d n = false <-> ~ In n (names d).
Proof. rewrite <- has_In. destruct (has d n); split; congruence. Qed.

Lemma stat_ok_has d n : stat_ok d n = true -> has d n = true.
Proof. unfold stat_ok, has. destruct (lookup d n) as [[| |[|]]|]; congruence. Qed.

Lemma names_unlink_eq d m : names (d_unlink d m) = del_name (names d) m.
Proof. exact (map_filter fst (fun x => negb (name_eqb x m)) d). Qed.

Lemma names_unlink d m n : In n (names (d_unlink d m)) <-> In n (names d) /\ n <> m.
Proof. rewrite names_unlink_eq. apply del_name_In. Qed.

Lemma names_creat d m n : In n (names (d_creat d m)) <-> In n (names d) \/ n = m.
Proof.
  unfold d_creat. destruct (has d m) eqn:H.
  - apply has_In in H. split; [auto | intros [?| ->]; auto].
  - unfold names. rewrite map_app, in_app_iff. cbn [map fst In].
    split; [intros [?|[?|[]]]; auto | intros [?|?]; auto].
Qed.

(* d_rename does nothing when a is missing or a = b: hence the two side conditions *)
Lemma names_rename d a b n : has d a = true -> a <> b ->
  (In n (names (d_rename d a b)) <-> (In n (names d) /\ n <> a) \/ n = b).
Proof.
  intros Ha Hab. unfold d_rename.
  apply name_eqb_neq in Hab. rewrite Hab, Ha. apply name_eqb_neq in Hab.
  unfold names. rewrite map_app, in_app_iff. fold (names (d_unlink (d_unlink d a) b)).
  rewrite !names_unlink. cbn [map fst In].
  split.
  - intros [[[H1 H2] H3]|[H|[]]]; auto.
  - intros [[H1 H2]|H].
    + destruct (list_eq_dec N.eq_dec n b) as [E|E]; [right; left; auto | left; auto].
    + right; left; auto.
Qed.

Lemma find_none_conv {A} (f : A -> bool) l : (forall x, In x l -> f x = false) -> find f l = None.
Proof.
  induction l as [|a l IH]; intros H; cbn [find]; [reflexivity|].
  rewrite (H a (or_introl eq_refl)). apply IH. intros x Hx. apply H. right; exact Hx.
Qed.

Lemma sidecar_names_length n : length (sidecar_names n) = 8%nat.
Proof. reflexivity. Qed.

Lemma ensure_single_file_none_iff d u n :
  ensure_single_file d u n = None <-> forall c, In c (candidates u n) -> stat_ok d c = false.
Proof. split; [intros H c; exact (find_none _ _ H c) | apply find_none_conv]. Qed.

Lemma ensure_single_file_some_iff d u n :
  (exists c, ensure_single_file d u n = Some c) <-> exists c, In c (candidates u n) /\ stat_ok d c = true.
Proof.
  split; [intros [c H]; exists c; exact (find_some _ _ H)|]. intros (c & Hc & Hs).
  destruct (ensure_single_file d u n) eqn:E; [eauto|].
  rewrite (proj1 (ensure_single_file_none_iff d u n) E c Hc) in Hs. discriminate.
Qed.

Theorem suffix_lists_tied :
  dash_suffixes = map str_bytes MV.Gen.Consts.FORBIDDEN_SIDECAR_SUFFIXES /\
  dot_suffixes = map str_bytes MV.Gen.Consts.HIDDEN_FORBIDDEN_SIDECAR_SUFFIXES.
Proof. split; reflexivity. Qed.

(* a name that to_str rejects: the check looks at eight names that do not depend on the
   memory's name, so an unrelated file called "-wal" (etc.) makes it refuse *)
Theorem non_utf8_spurious d n c : In c (sidecar_names []) -> stat_ok d c = true ->
  exists c', ensure_single_file d false n = Some c'.
Proof. intros Hc Hs. apply (ensure_single_file_some_iff d false n). eauto. Qed.

Lemma refused_changes_nothing w a c :
  match a with
  | ACreate p u _ _ | AOpen p u _ _ | ADoctor p u _ => ensure_single_file (wdir w) u p = Some c
  | _ => False
  end -> step w a = (w, RRefused c, []).
Proof. destruct a; cbn [step]; intros H; try contradiction; rewrite H; reflexivity. Qed.

Theorem refused_iff w a c :
  snd (fst (step w a)) = RRefused c <->
  match a with
  | ACreate p u _ _ | AOpen p u _ _ | ADoctor p u _ => ensure_single_file (wdir w) u p = Some c
  | _ => False
  end.
Proof.
  split; [|intros H; rewrite (refused_changes_nothing w a c H); reflexivity].
  (* only the Some branch of the check answers RRefused *)
  destruct a; cbn [step]; try destruct (run_stages _ _ _ _) as [[? ?] ?].
  - (* create *)
    destruct (ensure_single_file (wdir w) utf8 p) as [c'|]; [cbn; intros [= ->]; reflexivity|].
    destruct creat_ok; discriminate.
  - (* open *)
    destruct (ensure_single_file (wdir w) utf8 p) as [c'|]; [cbn; intros [= ->]; reflexivity|].
    destruct (has (wdir w) p); discriminate.
  - (* close *) destruct (mem_name (whandles w) p); discriminate.
  - (* any call on a handle *) destruct (mem_name (whandles w) p); discriminate.
  - (* doctor *)
    destruct (ensure_single_file (wdir w) utf8 p) as [c'|]; [cbn; intros [= ->]; reflexivity|].
    destruct (has (wdir w) p); discriminate.
  - destruct (has (wdir w) (lock_name p)); [|destruct ok]; discriminate.
  - destruct (mem_name (wlocks w) (lock_name p)); discriminate.
Qed.

Lemma strace_names d p s x n : has d p = true -> has d (stg p s) = false ->
  (In n (names (dexec d (strace_of p s x))) <-> In n (names d ++ if leaks x then [stg p s] else [])).
Proof.
  intros Hp Hs.
  assert (Hne : (stg p s) <> p) by (intros E; rewrite E in Hs; congruence).
  apply has_In in Hp. apply has_false in Hs.
  assert (Hc : has (d_creat d (stg p s)) (stg p s) = true) by (apply has_In, names_creat; auto).
  assert (Hcreated : In n (names (d_creat d (stg p s))) <-> In n (names d ++ [stg p s])).
  { rewrite names_creat, in_app_iff. cbn [In]. split.
    - intros [H| ->]; [left; exact H | right; left; reflexivity].
    - intros [H|[<-|[]]]; [left; exact H | right; reflexivity]. }
  assert (Hunlinked : In n (names (d_unlink (d_creat d (stg p s)) (stg p s))) <-> In n (names d)).
  { rewrite names_unlink, names_creat. split.
    - intros [[H|H] Hn]; [exact H | contradiction].
    - intros H. split; [left; exact H | intros ->; contradiction]. }
  assert (Hrenamed : In n (names (d_rename (d_creat d (stg p s)) (stg p s) p)) <-> In n (names d)).
  { rewrite (names_rename (d_creat d (stg p s)) (stg p s) p n Hc Hne), names_creat. split.
    - intros [[[H|H] Hn]| ->]; [exact H | contradiction | exact Hp].
    - intros H. left. split; [left; exact H | intros ->; contradiction]. }
  destruct x; cbn [strace_of dexec fold_left dstep leaks]; rewrite ?app_nil_r.
  - (* XPrepareNoFile *) reflexivity.
  - (* XPrepareLeak *) exact Hcreated.
  - (* XCopyErr *) exact Hunlinked.
  - (* XClosureErr *) exact Hunlinked.
  - (* XDiscardUnlinkErr *) exact Hcreated.
  - (* XSyncErr *) exact Hunlinked.
  - (* XCommitErr *) exact Hcreated.
  - (* XCommitErrDirSync *) exact Hrenamed.
  - (* XReopenErr *) exact Hrenamed.
  - (* XOk *) exact Hrenamed.
Qed.

Lemma pick_fresh_free d p sfxs s : pick_fresh d p sfxs = Some s -> has d (stg p s) = false.
Proof.
  unfold pick_fresh. intros H. apply find_some in H. destruct H as [_ H].
  destruct (has d (stg p s)); [discriminate | reflexivity].
Qed.

Lemma run_stages_names p sts : forall d lk tr,
  let r := fold_left (run_stage p) sts (d, lk, tr) in
  exists nl, snd (fst r) = lk ++ nl /\ (existsb stage_leaks sts = false -> nl = []) /\
    (has d p = true -> forall n, In n (names (fst (fst r))) <-> In n (names d) \/ In n nl).
Proof.
  induction sts as [|[sfxs x] sts IH]; intros d lk tr; cbn [fold_left].
  - exists []. cbn [fst snd]. rewrite app_nil_r. repeat split; auto. intros [?|[]]; auto.
  - cbn [run_stage fst snd existsb]. unfold stage_leaks at 1. cbn [snd].
    destruct (pick_fresh d p sfxs) as [s|] eqn:Epf.
    2:{ destruct (IH d lk tr) as (nl & H1 & H2 & H3). exists nl. split; [exact H1|]. split; [|exact H3].
        intros H. apply orb_false_iff in H. apply H2, H. }
    destruct (IH (dexec d (strace_of p s x)) (if leaks x then lk ++ [stg p s] else lk) (tr ++ strace_of p s x)) as (nl & H1 & H2 & H3).
    pose proof (pick_fresh_free d p sfxs s Epf) as Hs.
    exists ((if leaks x then [stg p s] else []) ++ nl). split; [|split].
    + rewrite H1. destruct (leaks x); cbn [app]; rewrite <- ?app_assoc; reflexivity.
    + intros H. apply orb_false_iff in H as [-> Hr]. apply H2, Hr.
    + intros Hp n. rewrite H3, (strace_names d p s x n Hp Hs), !in_app_iff; [tauto|].
      apply has_In, (strace_names d p s x p Hp Hs), in_or_app. left. apply has_In, Hp.
Qed.

(* base = the names present before the caller's first call *)
Definition names_inv (base : list name) (w : world) : Prop :=
  (forall p, In p (whandles w) -> has (wdir w) p = true) /\
  (forall n, In n (names (wdir w)) <-> In n base \/ In n (wcreated w) \/ In n (wleaked w)).

(* projections and no destructuring let, so that wcreated and wleaked of it reduce by cbn *)
Definition staged (w : world) (p : name) (sts : list stage) (hs : list name) : world :=
  let rs := run_stages p (wdir w) (wleaked w) sts in
  mkW (fst (fst rs)) hs (wcreated w) (snd (fst rs)) (wlocks w).

(* the left-hand side is what cbn [step] leaves of the four calls that run staged commits *)
Lemma staged_eq w p sts hs (r : res) :
  fst (fst (let '(d', lk', tr) := run_stages p (wdir w) (wleaked w) sts in
            (mkW d' hs (wcreated w) lk' (wlocks w), r, tr))) = staged w p sts hs.
Proof. unfold staged. destruct (run_stages p (wdir w) (wleaked w) sts) as [[? ?] ?]. reflexivity. Qed.

Inductive step_shape (w : world) (a : api) : world -> Prop :=
| SS_same : step_shape w a w
| SS_create p u ok : a = ACreate p u true ok ->
    step_shape w a (mkW (d_creat (wdir w) p) (if ok then p :: whandles w else whandles w)
                        (p :: wcreated w) (wleaked w) (wlocks w))
| SS_staged p sts hs :
    io_leak_op a = existsb stage_leaks sts ->
    has (wdir w) p = true \/ In p (whandles w) -> incl hs (p :: whandles w) ->
    step_shape w a (staged w p sts hs)
| SS_lockfile d lks : lockfile_op a = true ->
    step_shape w a (mkW d (whandles w) (wcreated w) (wleaked w) lks).

Lemma step_w_shape w a : step_shape w a (step_w w a).
Proof.
  unfold step_w. destruct a; cbn [step].
  - (* create *)
    destruct (ensure_single_file (wdir w) utf8 p); [apply SS_same|].
    destruct creat_ok; [eapply SS_create; reflexivity | apply SS_same].
  - (* open *)
    destruct (ensure_single_file (wdir w) utf8 p); [apply SS_same|].
    destruct (has (wdir w) p) eqn:Hp; [|apply SS_same].
    rewrite staged_eq. apply SS_staged; [reflexivity | auto |].
    destruct ok; [apply incl_refl | apply incl_tl, incl_refl].
  - (* close *)
    destruct (mem_name (whandles w) p) eqn:E; [|apply SS_same]. apply mem_name_In in E.
    rewrite staged_eq. apply SS_staged; [reflexivity | auto |].
    intros q Hq. right. apply del_name_In in Hq. apply Hq.
  - (* any call on a handle *)
    destruct (mem_name (whandles w) p) eqn:E; [|apply SS_same]. apply mem_name_In in E.
    rewrite staged_eq. apply SS_staged; [reflexivity | auto | apply incl_tl, incl_refl].
  - (* doctor *)
    destruct (ensure_single_file (wdir w) utf8 p); [apply SS_same|].
    destruct (has (wdir w) p) eqn:Hp; [|apply SS_same].
    rewrite staged_eq. apply SS_staged; [reflexivity | auto | apply incl_tl, incl_refl].
  - destruct (has (wdir w) (lock_name p)); [apply SS_same|].
    destruct ok; [apply SS_lockfile; reflexivity | apply SS_same].
  - destruct (mem_name (wlocks w) (lock_name p)); [apply SS_lockfile; reflexivity | apply SS_same].
Qed.

Lemma step_inv base w a : lockfile_op a = false -> names_inv base w -> names_inv base (step_w w a).
Proof.
  intros Hl [Hh Hn].
  destruct (step_w_shape w a) as [|p u ok _|p sts hs _ Hp Hhs|d lks Hl']; [split; assumption| | |congruence].
  - (* SS_create *)
    split; cbn [wdir whandles wcreated wleaked].
    + (* handles: the new one is the created file, the old ones keep theirs *)
      intros q Hq. apply has_In, names_creat.
      assert (Hq' : q = p \/ In q (whandles w)) by (destruct ok; [destruct Hq; auto | auto]).
      destruct Hq' as [->|Hq']; [right; reflexivity | left; apply has_In, Hh, Hq'].
    + intros n. rewrite names_creat, Hn. cbn [In]. split.
      * intros [[H|[H|H]]| ->].
        -- left; exact H.
        -- right; left; right; exact H.
        -- right; right; exact H.
        -- right; left; left; reflexivity.
      * intros [H|[[<-|H]|H]].
        -- left; left; exact H.
        -- right; reflexivity.
        -- left; right; left; exact H.
        -- left; right; right; exact H.
  - (* SS_staged *)
    assert (Hp' : has (wdir w) p = true) by (destruct Hp as [Hp|Hp]; [exact Hp | apply Hh, Hp]).
    unfold staged, run_stages.
    destruct (run_stages_names p sts (wdir w) (wleaked w) []) as (nl & H1 & _ & H3). specialize (H3 Hp').
    split; cbn [wdir whandles wcreated wleaked].
    + intros q Hq. apply has_In, H3. left. apply has_In. apply Hhs in Hq as [<-|Hq]; [exact Hp' | apply Hh, Hq].
    + intros n. rewrite H3, H1, Hn, in_app_iff. tauto.
Qed.

Lemma step_no_leak w a : io_leak_op a = false -> wleaked (step_w w a) = wleaked w.
Proof.
  intros Hl. destruct (step_w_shape w a) as [|p u ok _|p sts hs E _ _|d lks _]; try reflexivity.
  unfold staged, run_stages. cbn [wleaked].
  destruct (run_stages_names p sts (wdir w) (wleaked w) []) as (nl & -> & H & _).
  rewrite (H (eq_trans (eq_sym E) Hl)). apply app_nil_r.
Qed.

Lemma run_snoc w h a : run w (h ++ [a]) = step_w (run w h) a.
Proof. unfold run. rewrite fold_left_app. reflexivity. Qed.

Lemma run_inv base h : forall w, existsb lockfile_op h = false -> names_inv base w -> names_inv base (run w h).
Proof.
  intros w Hl. apply fold_left_invariant_In. intros w1 a Ha. apply step_inv, (existsb_false _ _ Hl a Ha).
Qed.

Lemma run_no_leak h : forall w, existsb io_leak_op h = false -> wleaked (run w h) = wleaked w.
Proof.
  intros w Hl. apply (fold_left_invariant_In step_w (fun w1 => wleaked w1 = wleaked w)); [|reflexivity].
  intros w1 a Ha <-. apply step_no_leak, (existsb_false _ _ Hl a Ha).
Qed.

Lemma inv_world0 d0 : names_inv (names d0) (world0 d0).
Proof.
  split; cbn [world0 whandles wdir wcreated wleaked].
  - intros p [].
  - intros n. split.
    + intros H. left. exact H.
    + intros [H|[[]|[]]]. exact H.
Qed.

Theorem names_after_history d0 h : existsb lockfile_op h = false ->
  let w := run (world0 d0) h in
  forall n, In n (names (wdir w)) <-> In n (names d0) \/ In n (wcreated w) \/ In n (wleaked w).
Proof. intros Hl. cbv zeta. exact (proj2 (run_inv (names d0) h (world0 d0) Hl (inv_world0 d0))). Qed.

Theorem single_file_after_history d0 h : known_class h = false ->
  let w := run (world0 d0) h in
  forall n, In n (names (wdir w)) <-> In n (names d0) \/ In n (wcreated w).
Proof.
  intros H. cbv zeta. intros n. unfold known_class in H. apply orb_false_iff in H. destruct H as [Hio Hlk].
  rewrite (names_after_history d0 h Hlk n), (run_no_leak h (world0 d0) Hio). cbn [world0 wleaked In]. tauto.
Qed.

Lemma existsb_firstn {A} (f : A -> bool) k l : existsb f l = false -> existsb f (firstn k l) = false.
Proof.
  revert k; induction l as [|a l IH]; intros [|k] H; cbn [firstn existsb] in *; auto.
  apply orb_false_iff in H. destruct H as [-> H]. cbn [orb]. auto.
Qed.

Lemma known_class_firstn k h : known_class h = false -> known_class (firstn k h) = false.
Proof.
  unfold known_class. intros H. apply orb_false_iff in H. destruct H as [H1 H2].
  rewrite (existsb_firstn _ k _ H1), (existsb_firstn _ k _ H2). reflexivity.
Qed.

Lemma step_created w a n : In n (wcreated (step_w w a)) ->
  In n (wcreated w) \/ exists u c o, a = ACreate n u c o.
Proof.
  destruct (step_w_shape w a) as [|p u ok ->|p sts hs _ _ _|d lks _]; auto.
  cbn [wcreated In]. intros [<-|H]; [right; eauto | auto].
Qed.

Theorem created_are_create_targets h : forall w n, In n (wcreated (run w h)) ->
  In n (wcreated w) \/ exists u c o, In (ACreate n u c o) h.
Proof.
  intros w n. revert n.
  apply (fold_left_invariant_In step_w (fun w1 => forall n, In n (wcreated w1) -> In n (wcreated w) \/ exists u c o, In (ACreate n u c o) h)); [|auto].
  intros w1 a Ha IH n H. apply step_created in H as [H|[u [c [o ->]]]]; [exact (IH n H)|]. right. exists u, c, o. exact Ha.
Qed.

Lemma names_ok_spec d0 w : names_ok d0 w = true <->
  forall n, In n (names (wdir w)) <-> In n (names d0) \/ In n (wcreated w).
Proof.
  unfold names_ok. rewrite andb_true_iff, !forallb_forall. split.
  - intros [H1 H2] n. split.
    + intros H. apply H1 in H. apply orb_true_iff in H. rewrite !mem_name_In in H. exact H.
    + intros H. apply mem_name_In, H2, in_or_app. exact H.
  - intros H. split.
    + intros n Hn. apply orb_true_iff. rewrite !mem_name_In. apply H, Hn.
    + intros n Hn. apply mem_name_In, H. apply in_app_or, Hn.
Qed.

Lemma strip_P_map l : strip_P (map P l) = l.
Proof. unfold strip_P. induction l as [|a l IH]; cbn [map flat_map app]; [reflexivity | rewrite IH; reflexivity]. Qed.

Lemma only_tmp_writes_no_dop p s body : only_tmp_writes body = true -> flat_map (dop_of p s) (map P body) = [].
Proof.
  induction body as [|o body IH]; cbn [only_tmp_writes map flat_map]; [reflexivity|].
  destruct o; try discriminate; intros H; cbn [dop_of app]; auto.
Qed.
