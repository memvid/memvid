(* src/footer.rs (Model/Footer.v).  The backward scan is reduced to the specification predicate
   valid_at by its step equation scan_step; the codec round trip goes through fields_at_app. *)
From MV Require Import Base.Prelude Base.Facts Model.Footer.

Lemma footer_decode_magic b f :
  footer_decode b = Some f -> length b = FOOTER_SIZE /\ firstn 8 b = FOOTER_MAGIC.
Proof.
  unfold footer_decode. destruct (Nat.eqb (length b) FOOTER_SIZE) eqn:E1; cbn [negb]; [|discriminate].
  destruct (bytes_eqb (firstn 8 b) FOOTER_MAGIC) eqn:E2; cbn [negb]; [|discriminate].
  intros _. split; [apply Nat.eqb_eq; exact E1 | apply bytes_eqb_spec; exact E2].
Qed.

Lemma footer_decode_first_byte b f : footer_decode b = Some f -> nth 0 b 0%N = 77%N.
Proof.
  intros Hd. apply footer_decode_magic in Hd as [Hl Hm].
  destruct b as [|x b]; [discriminate|]. cbn in Hm. inversion Hm; reflexivity.
Qed.

Section ScanProofs.
  Variable H : bytes -> bytes.

  (* the loop's memrchr skip and its separate exits collapse into the one test valid_at *)
  Lemma scan_step b pos :
    scan H b (S pos) = if valid_at H b pos then slice_at b pos else scan H b pos.
  Proof.
    cbn [scan]. unfold valid_at, slice_at. rewrite Nat.ltb_antisym.
    destruct (footer_decode (slice b pos FOOTER_SIZE)) as [f|] eqn:ED.
    - (* what decodes starts with 'M', so memrchr does not skip this position *)
      apply footer_decode_first_byte in ED. rewrite nth_slice, Nat.add_0_r in ED by (unfold FOOTER_SIZE; lia).
      rewrite ED, N.eqb_refl, N.ltb_antisym. cbn [negb].
      destruct (Nat.leb _ _); cbn [negb andb]; [|reflexivity].
      destruct (N.eqb (toc_len f) 0); cbn [negb orb andb]; [reflexivity|].
      destruct (N.leb (toc_len f) (N.of_nat pos)); cbn [negb andb]; [|reflexivity].
      destruct (hash_matches H f _); reflexivity.
    - (* nothing decodes at pos: whichever way the loop leaves pos, it goes on below it *)
      rewrite andb_false_r. destruct (negb _); [|destruct (negb _)]; reflexivity.
  Qed.

  Lemma valid_at_in_range b q : valid_at H b q = true -> q + FOOTER_SIZE <= length b.
  Proof. unfold valid_at. intros Hv. apply andb_true_iff in Hv as [Hl _]. lia. Qed.

  Lemma valid_at_lt b q : valid_at H b q = true -> q < length b.
  Proof. intros Hv. apply valid_at_in_range in Hv. unfold FOOTER_SIZE in Hv. lia. Qed.

  Lemma scan_spec b n :
    match scan H b n with
    | Some s => exists pos, pos < n /\ valid_at H b pos = true /\ slice_at b pos = Some s /\
                            forall q, pos < q -> q < n -> valid_at H b q = false
    | None => forall q, q < n -> valid_at H b q = false
    end.
  Proof.
    induction n as [|n IH]; [intros q Hq; lia|]. rewrite scan_step. destruct (valid_at H b n) eqn:EV.
    - destruct (slice_at b n) as [s|] eqn:ES.
      + exists n. repeat split; auto. intros q H1 H2; lia.
      + unfold slice_at in ES. unfold valid_at in EV.
        destruct (footer_decode _); [discriminate|]. rewrite andb_false_r in EV; discriminate.
    - destruct (scan H b n) as [s|].
      + destruct IH as (pos & Hp & Hv & Hs & Hmax). exists pos. repeat split; auto.
        intros q H1 H2. destruct (Nat.eq_dec q n) as [->|]; [exact EV | apply Hmax; lia].
      + intros q Hq. destruct (Nat.eq_dec q n) as [->|]; [exact EV | apply IH; lia].
  Qed.

  Theorem find_last_valid_footer_none b :
    find_last_valid_footer H b = None <-> forall q, valid_at H b q = false.
  Proof.
    unfold find_last_valid_footer. destruct (Nat.ltb (length b) FOOTER_SIZE) eqn:EL.
    - split; [|reflexivity]. intros _ q. destruct (valid_at H b q) eqn:EV; [|reflexivity].
      apply valid_at_in_range in EV. lia.
    - pose proof (scan_spec b (length b)) as Hsc. destruct (scan H b (length b)) as [s|].
      + destruct Hsc as (pos & _ & Hv & _). split; [discriminate|]. intros Hq. rewrite Hq in Hv. discriminate.
      + split; [|reflexivity]. intros _ q. destruct (valid_at H b q) eqn:EV; [|reflexivity].
        rewrite <- EV. apply Hsc, valid_at_lt, EV.
  Qed.

  Theorem find_last_valid_footer_some b s :
    find_last_valid_footer H b = Some s <->
    exists pos, valid_at H b pos = true /\ slice_at b pos = Some s /\
                forall q, valid_at H b q = true -> q <= pos.
  Proof.
    unfold find_last_valid_footer. destruct (Nat.ltb (length b) FOOTER_SIZE) eqn:EL.
    - split; [discriminate|]. intros (pos & Hv & _). apply valid_at_in_range in Hv. lia.
    - pose proof (scan_spec b (length b)) as Hsc. destruct (scan H b (length b)) as [s'|].
      + destruct Hsc as (pos & Hp & Hv & Hs & Hmax).
        assert (Hge : forall q, valid_at H b q = true -> q <= pos).
        { intros q Hq. destruct (Nat.le_gt_cases q pos) as [|Hgt]; [assumption|].
          rewrite (Hmax q Hgt (valid_at_lt _ _ Hq)) in Hq. discriminate. }
        split.
        * intros [= <-]. exists pos. auto.
        * intros (pos' & Hv' & Hs' & Hmax'). assert (pos' = pos) as -> by (apply Nat.le_antisymm; auto).
          congruence.
      + split; [discriminate|]. intros (pos & Hv & _). rewrite (Hsc pos (valid_at_lt _ _ Hv)) in Hv. discriminate.
  Qed.

  Lemma slice_at_describes b pos s :
    slice_at b pos = Some s ->
    fs_footer_offset s = pos /\
    footer_decode (slice b pos FOOTER_SIZE) = Some (fs_footer s) /\
    fs_toc_offset s = pos - N.to_nat (toc_len (fs_footer s)) /\
    fs_toc_bytes s = slice b (fs_toc_offset s) (N.to_nat (toc_len (fs_footer s))).
  Proof.
    unfold slice_at. destruct (footer_decode _) as [f|]; [|discriminate].
    intros E; inversion E; subst; cbn. repeat split; reflexivity.
  Qed.
End ScanProofs.

Lemma footer_decode_blocks l h g :
  length l = 8 -> length h = 32 -> length g = 8 ->
  footer_decode (FOOTER_MAGIC ++ l ++ h ++ g) = Some (mkFooter (le_decode l) h (le_decode g)).
Proof.
  intros Hl Hh Hg.
  pose proof (fields_at_app [l; h; g] FOOTER_MAGIC []) as E.
  cbn [fields_at fold_right] in E. rewrite app_nil_r, Hl, Hh, Hg in E.
  change (length FOOTER_MAGIC) with 8 in E. cbn [Nat.add] in E. destruct E as (El & Eh & Eg & _).
  unfold footer_decode. rewrite El, Eh, Eg, !app_length, Hl, Hh, Hg.
  change (firstn 8 (FOOTER_MAGIC ++ ?x)) with FOOTER_MAGIC. rewrite bytes_eqb_refl. reflexivity.
Qed.

Lemma footer_decode_encode f :
  (toc_len f < 2 ^ 64)%N -> (generation f < 2 ^ 64)%N -> length (toc_hash f) = 32 ->
  footer_decode (footer_encode f) = Some f.
Proof.
  intros Ht Hg Hh. unfold footer_encode.
  rewrite footer_decode_blocks by (exact Hh || apply le_encode_length).
  rewrite !le_decode_encode by assumption. destruct f; reflexivity.
Qed.
