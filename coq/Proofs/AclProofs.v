(* Proofs about Model/Acl.v (C12).  Everything holds for every pair of JSON parsers
   (json_str, json_arr), every frame table, every hit payload type.  Each reader of the code
   computes a relation of the specification.  Each class of the specification is decided
   by a test on the record the metadata parses to and on the normalised context;
   evaluate_acl_metadata is the decision tree over these tests (acl_decide_spec).  The pass in
   Enforce is re-ranking after filtering by that decision (apply_enforce_ok), in Audit the
   identity.  A call site is a `site`: it has left before its ACL stage, or it holds hits and a
   response function; `run` is what it answers, and the four entry points are `run` of their site
   (search_adaptive_acl post-processes the vector search, adaptive_eq). *)
From MV Require Import Base.Prelude Base.Facts Base.Strings Model.Acl.
Local Open Scope N_scope.

Lemma str_eqb_spec a b : str_eqb a b = true <-> a = b.
Proof. apply list_eqb_spec. intros; apply N.eqb_eq. Qed.

Lemma str_eqb_false a b : str_eqb a b = false <-> a <> b.
Proof. rewrite <- str_eqb_spec. symmetry. apply not_true_iff_false. Qed.

Lemma str_mem_spec x l : str_mem x l = true <-> In x l.
Proof. exact (existsb_eqb_In str_eqb str_eqb_spec x l). Qed.

Lemma is_nil_true {A} (l : list A) : is_nil l = true <-> l = [].
Proof. destruct l; cbn; split; congruence. Qed.
Lemma is_nil_false {A} (l : list A) : is_nil l = false <-> l <> [].
Proof. destruct l; cbn; split; congruence. Qed.

Lemma trim_start_fix s :
  match s with [] => True | c :: _ => is_ws c = false end -> trim_start s = s.
Proof. destruct s as [|c r]; cbn; [reflexivity|]. intros ->. reflexivity. Qed.

Lemma trim_start_all_ws s : forallb is_ws s = true -> trim_start s = [].
Proof.
  induction s as [|c r IH]; cbn [forallb trim_start]; [reflexivity|].
  intros H. apply andb_true_iff in H as [-> H]. auto.
Qed.

Lemma trim_start_app_nonws a c r : is_ws c = false -> forallb is_ws a = true -> trim_start (a ++ c :: r) = c :: r.
Proof.
  intros Hc. induction a as [|x a IH]; cbn [app forallb trim_start].
  - intros _. rewrite Hc. reflexivity.
  - intros H. apply andb_true_iff in H as [-> H]. auto.
Qed.

Lemma trim_spec s :
  exists a b, s = a ++ trim s ++ b /\ forallb is_ws a = true /\ forallb is_ws b = true /\
              match trim s with [] => True | c :: _ => is_ws c = false end /\
              match rev (trim s) with [] => True | c :: _ => is_ws c = false end.
Proof.
  (* trim is trim_by is_ws of Base/Strings.v, by computation *)
  destruct (trim_by_split is_ws s) as (a & b & E & Ha & Hb). exists a, b.
  split; [exact E|]. split; [exact Ha|]. split; [exact Hb|]. split.
  - destruct (trim s) as [|c r] eqn:Et; [exact I | exact (trim_by_hd is_ws s c r Et)].
  - destruct (rev (trim s)) as [|c r] eqn:Et; [exact I | exact (trim_by_last is_ws s c r Et)].
Qed.

Lemma trim_nil_iff s : trim s = [] <-> forallb is_ws s = true.
Proof.
  split.
  - intros H. destruct (trim_spec s) as [a [b [Hs [Ha [Hb _]]]]]. rewrite H in Hs. cbn in Hs.
    rewrite Hs, forallb_app, Ha, Hb. reflexivity.
  - intros H. unfold trim, trim_end. rewrite (trim_start_all_ws s H). reflexivity.
Qed.

Lemma trim_idem s : trim (trim s) = trim s.
Proof.
  destruct (trim_spec s) as (a & b & Hs & Ha & Hb & Hh & Hl).
  set (t := trim s) in *.
  unfold trim at 1, trim_end. rewrite (trim_start_fix t Hh).
  rewrite (trim_start_fix (rev t) Hl). apply rev_involutive.
Qed.

Lemma lower_c_idem c : lower_c (lower_c c) = lower_c c.
Proof. unfold lower_c. destruct ((65 <=? c) && (c <=? 90)) eqn:E; [|rewrite E; reflexivity].
  destruct ((65 <=? c + 32) && (c + 32 <=? 90)) eqn:E2; [lia | reflexivity]. Qed.
Lemma lower_idem s : lower (lower s) = lower s.
Proof. unfold lower. rewrite map_map. apply map_ext. apply lower_c_idem. Qed.
Lemma lower_length s : length (lower s) = length s.
Proof. apply map_length. Qed.
Lemma lower_no_upper s : forallb (fun c => negb ((65 <=? c) && (c <=? 90))) (lower s) = true.
Proof.
  induction s as [|c r IH]; cbn [lower map forallb]; [reflexivity|].
  fold (lower r). rewrite IH, andb_true_r. unfold lower_c.
  destruct ((65 <=? c) && (c <=? 90)) eqn:E; [|rewrite E; reflexivity].
  destruct ((65 <=? c + 32) && (c + 32 <=? 90)) eqn:E2; [lia | reflexivity].
Qed.

Section Decide.
  Variable json_str : str -> option str.
  Variable json_arr : str -> option (list str).

  Notation norm := (normalize_scalar json_str).
  Notation reads := (reads_as json_str).

  Lemma normalize_scalar_spec v out : norm v = Some out <-> reads v out.
  Proof.
    unfold normalize_scalar, reads_as. split.
    - destruct v as [raw|]; [|discriminate].
      destruct (is_nil (trim raw)) eqn:En; [discriminate|]. apply is_nil_false in En.
      set (u := match json_str (trim raw) with Some p => trim p | None => trim raw end).
      destruct (is_nil u) eqn:Eu; [discriminate|]. apply is_nil_false in Eu.
      intros [= <-]. exists raw. repeat split; [exact En|]. exists u. repeat split; [|exact Eu].
      unfold u. destruct (json_str (trim raw)); reflexivity.
    - intros (raw & -> & Hne & u & Hu & Hune & ->). apply is_nil_false in Hne, Hune. rewrite Hne.
      replace (match json_str (trim raw) with Some p => trim p | None => trim raw end) with u
        by (destruct (json_str (trim raw)); exact Hu).
      rewrite Hune. reflexivity.
  Qed.

  Lemma reads_functional {v a b} : reads v a -> reads v b -> a = b.
  Proof. intros Ha Hb. apply normalize_scalar_spec in Ha, Hb. congruence. Qed.

  Lemma reads_not_blank v out : reads v out -> out <> [].
  Proof.
    intros [raw [_ [_ [u [_ [Hu ->]]]]]]. destruct u; [contradiction|]. cbn. discriminate.
  Qed.

  Lemma normalize_all_spec vs l :
    normalize_all json_str vs = Some l <-> Forall2 (fun v o => reads (Some v) o) vs l.
  Proof.
    split.
    - revert l; induction vs as [|v r IH]; intros l; cbn [normalize_all]; [intros [= <-]; constructor|].
      destruct (norm (Some v)) as [n|] eqn:En; [|discriminate].
      destruct (normalize_all json_str r) as [ns|]; [|discriminate].
      intros [= <-]. constructor; [apply normalize_scalar_spec, En | apply IH; reflexivity].
    - induction 1 as [|v o r l' Hv _ IH]; cbn [normalize_all]; [reflexivity|].
      apply normalize_scalar_spec in Hv. rewrite Hv, IH. reflexivity.
  Qed.

  Lemma parse_acl_list_spec m key l :
    parse_acl_list json_str json_arr m key = Some l <-> allow_list json_str json_arr m key l.
  Proof.
    unfold parse_acl_list, allow_list. split.
    - destruct (mget m key) as [raw|]; [|intros [= <-]; left; auto].
      destruct (json_arr raw) as [vs|] eqn:Ea; [|discriminate].
      intros H. right. exists raw, vs. apply normalize_all_spec in H. auto.
    - intros [[-> ->]|(raw & vs & -> & -> & H)]; [reflexivity | apply normalize_all_spec, H].
  Qed.

  Lemma visibility_spec v pub :
    (if str_eqb v S_PUBLIC then Some true else if str_eqb v S_RESTRICTED then Some false else None) = Some pub
    <-> (v = S_PUBLIC /\ pub = true) \/ (v = S_RESTRICTED /\ pub = false).
  Proof.
    destruct (str_eqb v S_PUBLIC) eqn:E1; [apply str_eqb_spec in E1; subst v|].
    { split; [intros [= <-]; auto | intros [[_ ->]|[E _]]; [reflexivity | discriminate]]. }
    destruct (str_eqb v S_RESTRICTED) eqn:E2; [apply str_eqb_spec in E2; subst v|].
    { split; [intros [= <-]; auto | intros [[E _]|[_ ->]]; [discriminate | reflexivity]]. }
    apply str_eqb_false in E1, E2. split; [discriminate | intros [[E _]|[E _]]; contradiction].
  Qed.

  Lemma parse_acl_metadata_spec m p :
    parse_acl_metadata json_str json_arr m = Some p <->
    well_formed json_str json_arr m (p_tenant p) (p_public p) (p_roles p) (p_groups p) (p_principals p).
  Proof.
    unfold parse_acl_metadata, well_formed. split.
    - destruct (norm (mget m K_TENANT)) as [t|] eqn:Et; [|discriminate].
      destruct (norm (mget m K_VISIBILITY)) as [v|] eqn:Ev; [|discriminate].
      destruct (if str_eqb v S_PUBLIC then _ else _) as [pub|] eqn:Evis; [|discriminate].
      destruct (parse_acl_list json_str json_arr m K_ROLES) as [ro|] eqn:Ero; [|discriminate].
      destruct (parse_acl_list json_str json_arr m K_GROUPS) as [gr|] eqn:Egr; [|discriminate].
      destruct (parse_acl_list json_str json_arr m K_PRINCIPALS) as [pr|] eqn:Epr; [|discriminate].
      intros [= <-]. cbn.
      apply normalize_scalar_spec in Et, Ev. apply visibility_spec in Evis.
      apply parse_acl_list_spec in Ero, Egr, Epr.
      split; [exact Et|]. split; [exists v; split; assumption|]. repeat split; assumption.
    - intros (Ht & (v & Hv & Hc) & Hro & Hgr & Hpr).
      apply normalize_scalar_spec in Ht, Hv. apply visibility_spec in Hc.
      apply parse_acl_list_spec in Hro, Hgr, Hpr.
      rewrite Ht, Hv, Hc, Hro, Hgr, Hpr. destruct p; reflexivity.
  Qed.

  Lemma parse_none_bad m : parse_acl_metadata json_str json_arr m = None <-> bad_metadata json_str json_arr m.
  Proof.
    unfold bad_metadata. split.
    - intros E t pub ro gr pr H. apply (parse_acl_metadata_spec m (mkParsed t pub ro gr pr)) in H. congruence.
    - intros H. destruct (parse_acl_metadata json_str json_arr m) as [p|] eqn:E; [|reflexivity].
      apply parse_acl_metadata_spec in E. exfalso. eapply H. exact E.
  Qed.

  Lemma normalize_some_In l r :
    In r (normalize_some json_str l) <-> exists x, In x l /\ reads (Some x) r.
  Proof.
    replace (normalize_some json_str l) with (filter_some (fun x => norm (Some x)) l)
      by (induction l as [|y l IH]; cbn [normalize_some filter_some]; [|destruct (norm (Some y)); rewrite IH]; reflexivity).
    rewrite in_filter_some.
    split; intros (x & Hx & H); exists x; (split; [exact Hx | apply normalize_scalar_spec, H]).
  Qed.

  Lemma normalize_context_spec c n :
    normalize_acl_context json_str (Some c) = Some n <->
    reads (c_tenant c) (n_tenant n) /\
    n_subject n = (match c_subject c with None => None | Some v => norm (Some v) end) /\
    n_roles n = normalize_some json_str (c_roles c) /\
    n_groups n = normalize_some json_str (c_groups c).
  Proof.
    unfold normalize_acl_context. destruct (norm (c_tenant c)) as [t|] eqn:Et.
    - split.
      + intros E; inversion E; subst n; cbn. repeat split. apply normalize_scalar_spec; exact Et.
      + intros [Ht [Hs [Hr Hg]]]. apply normalize_scalar_spec in Ht.
        destruct n as [nt ns nr ng]; cbn in *. congruence.
    - split; [discriminate|]. intros [Ht _]. apply normalize_scalar_spec in Ht. congruence.
  Qed.

  Lemma normalize_context_none c :
    normalize_acl_context json_str (Some c) = None <-> ~ has_tenant json_str c.
  Proof.
    unfold normalize_acl_context, has_tenant. destruct (norm (c_tenant c)) as [t|] eqn:Et.
    - split; [discriminate|]. intros H. exfalso. apply H. exists t. apply normalize_scalar_spec; exact Et.
    - split; [|reflexivity]. intros _ [t Ht]. apply normalize_scalar_spec in Ht. congruence.
  Qed.

  (* the credential test of evaluate_acl_metadata: principal, role or group on a list *)
  Definition cred_test (n : norm_context) (p : parsed_acl) : bool :=
    (match n_subject n with Some s => str_mem s (p_principals p) | None => false end)
    || existsb (fun role => str_mem role (p_roles p)) (n_roles n)
    || existsb (fun g => str_mem g (p_groups p)) (n_groups n).

  Lemma cred_test_spec c n p :
    normalize_acl_context json_str (Some c) = Some n ->
    cred_test n p = true <-> credential_match json_str c (p_roles p) (p_groups p) (p_principals p).
  Proof.
    intros Hn. apply normalize_context_spec in Hn as [_ [Hs [Hr Hg]]].
    unfold cred_test, credential_match. rewrite !orb_true_iff, !existsb_exists. split.
    - intros [[H | [r [Hin Hm]]] | [g [Hin Hm]]].
      + left. rewrite Hs in H. destruct (c_subject c) as [x|]; [|discriminate].
        destruct (norm (Some x)) as [s|] eqn:Ex; [|discriminate].
        exists x, s. repeat split; [apply normalize_scalar_spec; exact Ex | apply str_mem_spec; exact H].
      + right; left. rewrite Hr in Hin. apply normalize_some_In in Hin as [x [Hx Hrd]].
        exists x, r. repeat split; auto. apply str_mem_spec; exact Hm.
      + right; right. rewrite Hg in Hin. apply normalize_some_In in Hin as [x [Hx Hrd]].
        exists x, g. repeat split; auto. apply str_mem_spec; exact Hm.
    - intros [[x [s [Hx [Hrd Hin]]]] | [[x [r [Hx [Hrd Hin]]]] | [x [g [Hx [Hrd Hin]]]]]].
      + left; left. rewrite Hs, Hx. apply normalize_scalar_spec in Hrd. rewrite Hrd. apply str_mem_spec; exact Hin.
      + left; right. exists r. split; [rewrite Hr; apply normalize_some_In; exists x; auto | apply str_mem_spec; exact Hin].
      + right. exists g. split; [rewrite Hg; apply normalize_some_In; exists x; auto | apply str_mem_spec; exact Hin].
  Qed.

  Lemma reads_tenant c n t :
    normalize_acl_context json_str (Some c) = Some n -> (reads (c_tenant c) t <-> t = n_tenant n).
  Proof.
    intros Hn. apply normalize_context_spec in Hn as [Ht _]. split.
    - intros H. exact (reads_functional H Ht).
    - intros ->. exact Ht.
  Qed.

  Lemma well_formed_parsed {m p t pub ro gr pr} :
    parse_acl_metadata json_str json_arr m = Some p ->
    well_formed json_str json_arr m t pub ro gr pr -> p = mkParsed t pub ro gr pr.
  Proof.
    intros Hp Hw. apply (parse_acl_metadata_spec m (mkParsed t pub ro gr pr)) in Hw. congruence.
  Qed.

  Section Classes.
    Variables (m : meta) (c : acl_context) (n : norm_context) (p : parsed_acl).
    Hypothesis Hn : normalize_acl_context json_str (Some c) = Some n.
    Hypothesis Hp : parse_acl_metadata json_str json_arr m = Some p.

    Lemma grants_parsed :
      grants json_str json_arr m c <->
      p_tenant p = n_tenant n /\ (p_public p = true \/ cred_test n p = true).
    Proof.
      rewrite (cred_test_spec c n p Hn). split.
      - intros (t & pub & ro & gr & pr & Hw & Ht & Hor).
        rewrite (well_formed_parsed Hp Hw). cbn.
        split; [apply (reads_tenant c n t Hn); exact Ht | exact Hor].
      - intros [Et Hor]. exists (p_tenant p), (p_public p), (p_roles p), (p_groups p), (p_principals p).
        split; [apply parse_acl_metadata_spec; exact Hp|].
        split; [apply (reads_tenant c n _ Hn); exact Et | exact Hor].
    Qed.

    Lemma other_tenant_parsed : other_tenant json_str json_arr m c <-> p_tenant p <> n_tenant n.
    Proof.
      split.
      - intros (t & t' & pub & ro & gr & pr & Hw & Ht & Hne).
        rewrite (well_formed_parsed Hp Hw). cbn.
        apply (reads_tenant c n t' Hn) in Ht. congruence.
      - intros Hne. exists (p_tenant p), (n_tenant n), (p_public p), (p_roles p), (p_groups p), (p_principals p).
        split; [apply parse_acl_metadata_spec; exact Hp|].
        split; [apply (reads_tenant c n _ Hn); reflexivity | exact Hne].
    Qed.

    Lemma restricted_parsed :
      restricted_no_match json_str json_arr m c <->
      p_tenant p = n_tenant n /\ p_public p = false /\ cred_test n p = false.
    Proof.
      rewrite <- (not_true_iff_false (cred_test n p)), (cred_test_spec c n p Hn). split.
      - intros (t & ro & gr & pr & Hw & Ht & Hno).
        rewrite (well_formed_parsed Hp Hw). cbn.
        split; [apply (reads_tenant c n t Hn); exact Ht | split; [reflexivity | exact Hno]].
      - intros (Et & Epub & Hno). exists (p_tenant p), (p_roles p), (p_groups p), (p_principals p).
        split; [rewrite <- Epub; apply parse_acl_metadata_spec; exact Hp|].
        split; [apply (reads_tenant c n _ Hn); exact Et | exact Hno].
    Qed.
  End Classes.

  Lemma bad_no_class m c :
    bad_metadata json_str json_arr m ->
    ~ grants json_str json_arr m c /\ ~ other_tenant json_str json_arr m c /\ ~ restricted_no_match json_str json_arr m c.
  Proof.
    intros Hb. split; [|split].
    - intros (t & pub & ro & gr & pr & Hw & _). exact (Hb t pub ro gr pr Hw).
    - intros (t & t' & pub & ro & gr & pr & Hw & _). exact (Hb t pub ro gr pr Hw).
    - intros (t & ro & gr & pr & Hw & _). exact (Hb t false ro gr pr Hw).
  Qed.

  (* the decision, as the hook acl_decide reports it, against the four classes of the
     specification: for every metadata map and every context *)
  Theorem acl_decide_spec m c :
    (acl_decide json_str json_arr m c = None <-> ~ has_tenant json_str c) /\
    (forall a x y, acl_decide json_str json_arr m c = Some (a, x, y) ->
       (a = true <-> grants json_str json_arr m c) /\
       (x = true <-> other_tenant json_str json_arr m c) /\
       (y = true <-> bad_metadata json_str json_arr m) /\
       (a = false /\ x = false /\ y = false <-> restricted_no_match json_str json_arr m c) /\
       (a = false <-> other_tenant json_str json_arr m c \/ restricted_no_match json_str json_arr m c
                      \/ bad_metadata json_str json_arr m)).
  Proof.
    unfold acl_decide. rewrite <- normalize_context_none.
    destruct (normalize_acl_context json_str (Some c)) as [n|] eqn:En.
    2:{ split; [tauto | discriminate]. }
    split; [split; [discriminate | congruence]|].
    intros a x y [= <- <- <-]. unfold evaluate_acl_metadata.
    destruct (parse_acl_metadata json_str json_arr m) as [p|] eqn:Ep.
    - (* the metadata parses: the tests of the code (tenant, public, credential) are those of the classes *)
      rewrite (grants_parsed m c n p En Ep), (other_tenant_parsed m c n p En Ep), (restricted_parsed m c n p En Ep).
      assert (Hb : ~ bad_metadata json_str json_arr m) by (rewrite <- parse_none_bad; congruence).
      cbv zeta. fold (cred_test n p).
      destruct (str_eqb (p_tenant p) (n_tenant n)) eqn:Et;
        [apply str_eqb_spec in Et | apply str_eqb_false in Et]; cbn [negb].
      + destruct (p_public p); [cbn; intuition congruence|].
        destruct (cred_test n p); cbn; intuition congruence.
      + cbn. intuition congruence.
    - (* it does not: bad metadata, and no other class *)
      apply parse_none_bad in Ep. destruct (bad_no_class m c Ep) as (Hg & Ho & Hr).
      cbn. intuition congruence.
  Qed.

  Corollary decide_allow_iff m c n :
    normalize_acl_context json_str (Some c) = Some n ->
    (d_allowed (evaluate_acl_metadata json_str json_arr m (Some n)) = true <-> grants json_str json_arr m c).
  Proof.
    intros Hn. pose proof (acl_decide_spec m c) as [_ H]. unfold acl_decide in H. rewrite Hn in H.
    exact (proj1 (H _ _ _ eq_refl)).
  Qed.

  Section Hits.
    Variable P : Type.
    Variable frame_meta : N -> option meta.
    Notation hit := (hit P).

    Notation readable := (readable json_str json_arr frame_meta).

    Definition hit_allowed (n : norm_context) (h : hit) : bool :=
      d_allowed (decide_hit json_str json_arr P frame_meta (Some n) h).

    Lemma hit_allowed_spec c n h :
      normalize_acl_context json_str (Some c) = Some n ->
      (hit_allowed n h = true <-> readable c (h_frame h)).
    Proof.
      intros Hn. unfold hit_allowed, decide_hit, Acl.readable.
      destruct (frame_meta (h_frame h)) as [m|].
      - rewrite (decide_allow_iff m c n Hn). split.
        + intros H. exists m. auto.
        + intros [m' [E H]]. inversion E; subst; exact H.
      - cbn. split; [discriminate | intros [m' [E _]]; discriminate].
    Qed.

    Lemma filter_loop_spec n mode hits st :
      let ok h := d_allowed (decide_hit json_str json_arr P frame_meta n h) in
      exists st', filter_loop json_str json_arr P frame_meta n mode hits st
                  = (match mode with Audit => hits | Enforce => filter ok hits end, st') /\
        st_allowed st' = st_allowed st + N.of_nat (length (filter ok hits)) /\
        st_allowed st' + st_denied st' = st_allowed st + st_denied st + N.of_nat (length hits).
    Proof.
      intros ok. revert st; induction hits as [|h r IH]; intros st; cbn [filter_loop filter length].
      - exists st. split; [destruct mode; reflexivity | lia].
      - destruct (IH (record_stat st (decide_hit json_str json_arr P frame_meta n h))) as (st' & -> & H1 & H2).
        exists st'. unfold record_stat in H1, H2. fold (ok h) in *.
        destruct (ok h); cbn [st_allowed st_denied length] in *.
        + split; [destruct mode; reflexivity | lia].
        + split; [destruct mode; reflexivity | lia].
    Qed.

    Lemma filter_loop_audit n hits st :
      fst (filter_loop json_str json_arr P frame_meta n Audit hits st) = hits.
    Proof. destruct (filter_loop_spec n Audit hits st) as (st' & -> & _). reflexivity. Qed.

    Lemma rerank_from_map {B} (f : hit -> B) i (l : list hit) :
      (forall r h, f (mkHit r (h_frame h) (h_body h)) = f h) -> map f (rerank_from P i l) = map f l.
    Proof.
      intros Hf. revert i; induction l as [|h r IH]; intros i; cbn [rerank_from map]; [reflexivity|].
      rewrite Hf, IH. reflexivity.
    Qed.

    Lemma rerank_from_Forall (Q : hit -> Prop) i (l : list hit) :
      (forall r h, Q h -> Q (mkHit r (h_frame h) (h_body h))) -> Forall Q l -> Forall Q (rerank_from P i l).
    Proof.
      intros HQ H. revert i. induction H as [|h r Hh Hr IH]; intros i; cbn [rerank_from]; constructor; auto.
    Qed.

    Lemma rerank_from_length i (l : list hit) : length (rerank_from P i l) = length l.
    Proof. revert i; induction l as [|h r IH]; intros i; cbn [rerank_from length]; [reflexivity|]. rewrite IH; reflexivity. Qed.

    Lemma rerank_from_rank i (l : list hit) k h :
      nth_error (rerank_from P i l) k = Some h -> h_rank h = i + N.of_nat k + 1.
    Proof.
      (* lia captures frame_meta into its proof term: hence the clear *)
      clear frame_meta. revert i k; induction l as [|x r IH]; intros i k; cbn [rerank_from].
      - destruct k; discriminate.
      - destruct k as [|k]; cbn [nth_error].
        + intros E; inversion E; cbn. lia.
        + intros E. apply IH in E. lia.
    Qed.

    Notation acl_pass := (apply_acl json_str json_arr P frame_meta).

    Lemma apply_enforce_no_tenant hits c :
      ~ has_tenant json_str c -> acl_pass hits (Some c) Enforce = Err E_TENANT_REQUIRED.
    Proof.
      intros H. apply normalize_context_none in H. unfold apply_acl, validate_enforce_acl_context.
      rewrite H. reflexivity.
    Qed.

    Lemma apply_enforce_ok hits c n :
      normalize_acl_context json_str (Some c) = Some n ->
      exists st, acl_pass hits (Some c) Enforce = Ok (rerank P (filter (hit_allowed n) hits), st) /\
                 st_allowed st = N.of_nat (length (filter (hit_allowed n) hits)) /\
                 st_allowed st + st_denied st = N.of_nat (length hits).
    Proof.
      intros Hn. unfold apply_acl, validate_enforce_acl_context. rewrite Hn.
      destruct (filter_loop_spec (Some n) Enforce hits stats0) as (st & -> & H1 & H2).
      exists st. split; [reflexivity|]. split; [exact H1 | exact H2].
    Qed.

    Lemma apply_enforce_cases hits c :
      (no_tenant json_str c /\ exists k, acl_pass hits c Enforce = Err k) \/
      (~ no_tenant json_str c /\ exists r, acl_pass hits c Enforce = Ok r).
    Proof.
      destruct c as [c|]; cbn [no_tenant].
      - destruct (normalize_acl_context json_str (Some c)) as [n|] eqn:En.
        + right. destruct (apply_enforce_ok hits c n En) as [st [E _]]. split; [|eauto].
          intros Hno. apply normalize_context_none in Hno. congruence.
        + left. apply normalize_context_none in En. split; [exact En|].
          exists E_TENANT_REQUIRED. exact (apply_enforce_no_tenant hits c En).
      - left. split; [exact I|]. exists E_CTX_REQUIRED. reflexivity.
    Qed.

    Theorem apply_enforce_err_iff hits c :
      (forall r, acl_pass hits c Enforce <> Ok r) <-> no_tenant json_str c.
    Proof.
      destruct (apply_enforce_cases hits c) as [[Hn [k E]] | [Hn [r E]]].
      - split; [intros _; exact Hn | intros _ r; rewrite E; discriminate].
      - split; [intros Hno; exfalso; exact (Hno r E) | intros Hno; contradiction].
    Qed.

    Lemma apply_enforce_inv hits c out st :
      acl_pass hits (Some c) Enforce = Ok (out, st) ->
      exists n, normalize_acl_context json_str (Some c) = Some n /\
                out = rerank P (filter (hit_allowed n) hits) /\
                st_allowed st = N.of_nat (length (filter (hit_allowed n) hits)) /\
                st_allowed st + st_denied st = N.of_nat (length hits).
    Proof.
      intros E. destruct (normalize_acl_context json_str (Some c)) as [n|] eqn:En.
      - destruct (apply_enforce_ok hits c n En) as [st' [E' [Hs1 Hs2]]]. rewrite E' in E.
        injection E as <- <-. exists n. split; [reflexivity|]. split; [reflexivity|]. split; [exact Hs1 | exact Hs2].
      - apply normalize_context_none in En. rewrite (apply_enforce_no_tenant hits c En) in E. discriminate.
    Qed.

    (* Enforce returns exactly the readable hits, in order, ranked 1..n *)
    Theorem apply_enforce_exact hits c out st :
      acl_pass hits (Some c) Enforce = Ok (out, st) ->
      exists keep : hit -> bool,
        (forall h, keep h = true <-> readable c (h_frame h)) /\
        map (fun h => (h_frame h, h_body h)) out = map (fun h => (h_frame h, h_body h)) (filter keep hits) /\
        (forall k h, nth_error out k = Some h -> h_rank h = N.of_nat k + 1) /\
        Forall (fun h => readable c (h_frame h)) out /\
        st_allowed st = N.of_nat (length out) /\ st_allowed st + st_denied st = N.of_nat (length hits).
    Proof.
      intros E. apply apply_enforce_inv in E as (n & En & -> & Hs1 & Hs2).
      exists (hit_allowed n). split; [intros h; apply hit_allowed_spec; exact En|].
      split; [apply rerank_from_map; reflexivity|].
      split; [intros k h Hk; apply rerank_from_rank in Hk; lia|].
      split.
      - apply rerank_from_Forall; [auto|]. apply Forall_forall. intros h Hin.
        apply filter_In in Hin as [_ Ha]. apply (hit_allowed_spec c n h En). exact Ha.
      - unfold rerank. rewrite rerank_from_length. split; [exact Hs1 | exact Hs2].
    Qed.

    Theorem apply_audit_unchanged hits c : exists st, acl_pass hits c Audit = Ok (hits, st).
    Proof.
      unfold apply_acl. destruct (normalize_acl_context json_str c) as [n|].
      - destruct (filter_loop json_str json_arr P frame_meta (Some n) Audit hits stats0) as [fl st]. eexists; reflexivity.
      - eexists; reflexivity.
    Qed.

    Theorem apply_never_panics hits c mode s : acl_pass hits c mode <> Panic s.
    Proof.
      destruct mode.
      - destruct (apply_audit_unchanged hits c) as [st E]. rewrite E. discriminate.
      - destruct (apply_enforce_cases hits c) as [[_ [k E]] | [_ [r E]]].
        + rewrite E. discriminate.
        + rewrite E. discriminate.
    Qed.

    Lemma hit_allowed_frame n (h h' : hit) : h_frame h = h_frame h' -> hit_allowed n h = hit_allowed n h'.
    Proof. intros E. unfold hit_allowed, decide_hit. rewrite E. reflexivity. Qed.

    Lemma rerank_from_idem i (l : list hit) : rerank_from P i (rerank_from P i l) = rerank_from P i l.
    Proof. revert i; induction l as [|h r IH]; intros i; cbn [rerank_from]; [reflexivity|]. cbn. rewrite IH. reflexivity. Qed.

    Theorem apply_enforce_fixed_point hits c out st :
      acl_pass hits (Some c) Enforce = Ok (out, st) -> exists st', acl_pass out (Some c) Enforce = Ok (out, st').
    Proof.
      intros E. apply apply_enforce_inv in E as (n & En & -> & _).
      destruct (apply_enforce_ok (rerank P (filter (hit_allowed n) hits)) c n En) as [st' [E' _]].
      exists st'. rewrite E'. f_equal. f_equal.
      rewrite filter_all.
      - apply rerank_from_idem.
      - apply Forall_forall, rerank_from_Forall.
        + intros r h <-. apply hit_allowed_frame. reflexivity.
        + apply Forall_forall. intros h Hin. apply filter_In in Hin. tauto.
    Qed.

    Definition all_readable (c : acl_context) (hits : list hit) : Prop :=
      Forall (fun h => readable c (h_frame h)) hits.

    Variable C : Type.
    Variable build_context : list hit -> C.
    Variable conv : N -> option P.
    Variable cutoff : list hit -> nat.
    Variable has_scores : list hit -> bool.

    Notation search := (search_acl json_str json_arr P frame_meta C build_context).
    Notation vsearch := (vec_search_acl json_str json_arr P frame_meta C build_context conv).
    Notation asearch := (search_adaptive_acl json_str json_arr P frame_meta C build_context conv cutoff has_scores).
    Notation ask := (ask_acl json_str json_arr P frame_meta C build_context).

    (* A call site, seen from its ACL stage: it has answered before reaching the stage, or it
       holds the hits it gathered and the response F it will make of what the pass lets through. *)
    Inductive site (R : Type) : Type :=
    | Leave (o : outcome R)
    | Stage (hits : list hit) (F : acl_mode -> list hit -> R).
    Arguments Leave {R}.
    Arguments Stage {R}.

    Definition run {R} (s : site R) (c : option acl_context) (mode : acl_mode) : outcome R :=
      match s with
      | Leave o => o
      | Stage hits F =>
          match acl_pass hits c mode with
          | Ok (hits', _) => Ok (F mode hits')
          | Err k => Err k
          | Panic p => Panic p
          end
      end.

    Theorem run_audit {R} (s : site R) c :
      run s c Audit = match s with Leave o => o | Stage hits F => Ok (F Audit hits) end.
    Proof. destruct s as [o|hits F]; [reflexivity|]. cbn [run]. destruct (apply_audit_unchanged hits c) as [st ->]. reflexivity. Qed.

    Theorem run_enforce {R} (s : site R) c r :
      run s (Some c) Enforce = Ok r ->
      match s with
      | Leave o => o = Ok r
      | Stage hits F => exists out, r = F Enforce out /\ all_readable c out /\
                                    exists st, acl_pass out (Some c) Enforce = Ok (out, st)
      end.
    Proof.
      destruct s as [o|hits F]; [auto|]. cbn [run].
      destruct (acl_pass hits (Some c) Enforce) as [[out st]|k|p] eqn:E; [|discriminate|discriminate].
      intros [= <-]. exists out. split; [reflexivity|]. split.
      - destruct (apply_enforce_exact hits c out st E) as (keep & Hkeep & Hmap & Hrank & Hreadable & Hstats).
        exact Hreadable.
      - exact (apply_enforce_fixed_point hits c out st E).
    Qed.

    Theorem run_no_tenant {R} (s : site R) c r :
      no_tenant json_str c -> run s c Enforce = Ok r -> s = Leave (Ok r).
    Proof.
      intros Hn. destruct s as [o|hits F]; cbn [run]; [intros ->; reflexivity|].
      destruct (acl_pass hits c Enforce) as [[out st]|k|p] eqn:E; [|discriminate|discriminate].
      exfalso. exact (proj2 (apply_enforce_err_iff hits c) Hn _ E).
    Qed.

    Definition search_site (pre : pre_search P C) : site (response P C) :=
      match pre with
      | PreErr _ _ k => Leave (Err k)
      | PreEmpty _ _ => Leave (Ok (empty_response P C build_context))
      | PreResp _ _ r0 =>
          Stage (r_hits r0) (fun mode out => match mode with
                                             | Enforce => mkResp P C out (N.of_nat (length out)) (build_context out)
                                             | Audit => mkResp P C out (r_total r0) (r_context r0)
                                             end)
      end.

    Definition vec_site (pre : outcome (list N)) (top_k : nat) : site (response P C) :=
      match pre with
      | Err k => Leave (Err k)
      | Panic p => Leave (Panic p)
      | Ok [] => Leave (Ok (empty_response P C build_context))
      | Ok ids => Stage (vec_collect P conv top_k ids [])
                        (fun _ out => mkResp P C out (N.of_nat (length out)) (build_context out))
      end.

    Definition ask_site (pre : outcome (list hit * N)) (context_only : bool) : site (ask_response P C) :=
      match pre with
      | Err k => Leave (Err k)
      | Panic p => Leave (Panic p)
      | Ok (hits, total) =>
          Stage hits (fun mode out =>
            mkAsk P C out (match mode with Enforce => N.of_nat (length out) | Audit => total end)
                  (build_context out) (if context_only then [] else citations_from P 0 out)
                  (map (fun h => (h_rank h, h_frame h)) out))
      end.

    Lemma search_site_eq pre c mode : search pre c mode = run (search_site pre) c mode.
    Proof. destruct pre as [k| |r0]; [reflexivity | reflexivity |]. destruct mode; reflexivity. Qed.

    Lemma vec_site_eq pre top_k c mode : vsearch pre top_k c mode = run (vec_site pre top_k) c mode.
    Proof. destruct pre as [[|id ids]|k|p]; reflexivity. Qed.

    Lemma ask_site_eq pre context_only c mode : ask pre context_only c mode = run (ask_site pre context_only) c mode.
    Proof. destruct pre as [[hits total]|k|p]; reflexivity. Qed.

    (* search_adaptive_acl post-processes the vector search's response *)
    Definition adaptive_post (enabled : bool) (resp : response P C) : list hit :=
      if negb enabled then r_hits resp
      else if is_nil (r_hits resp) then []
      else if negb (has_scores (r_hits resp)) then r_hits resp
      else rerank P (firstn (cutoff (r_hits resp)) (r_hits resp)).

    Lemma adaptive_eq enabled pre max_results c mode :
      asearch enabled pre max_results c mode =
      match vsearch pre max_results c mode with
      | Ok resp => Ok (adaptive_post enabled resp)
      | Err k => Err k
      | Panic p => Panic p
      end.
    Proof.
      unfold search_adaptive_acl, adaptive_post.
      destruct (vsearch pre max_results c mode) as [resp|k|p]; [|reflexivity|reflexivity].
      destruct (negb enabled); [reflexivity|]. destruct (is_nil (r_hits resp)); [reflexivity|].
      destruct (negb (has_scores (r_hits resp))); reflexivity.
    Qed.

    Lemma adaptive_ok enabled pre max_results c mode out :
      asearch enabled pre max_results c mode = Ok out ->
      exists resp, vsearch pre max_results c mode = Ok resp /\ out = adaptive_post enabled resp.
    Proof.
      rewrite adaptive_eq. destruct (vsearch pre max_results c mode) as [resp|k|p]; [|discriminate|discriminate].
      intros [= <-]. exists resp. split; reflexivity.
    Qed.

    Lemma adaptive_post_readable enabled c resp :
      all_readable c (r_hits resp) -> all_readable c (adaptive_post enabled resp).
    Proof.
      intros Hr. unfold adaptive_post.
      destruct (negb enabled); [exact Hr|]. destruct (is_nil (r_hits resp)); [constructor|].
      destruct (negb (has_scores (r_hits resp))); [exact Hr|].
      apply rerank_from_Forall; [auto|]. apply Forall_firstn. exact Hr.
    Qed.

    Lemma citations_from_ids i (l : list hit) : map snd (citations_from P i l) = map (@h_frame P) l.
    Proof. revert i; induction l as [|h r IH]; intros i; cbn [citations_from map]; [reflexivity|]. rewrite IH; reflexivity. Qed.

    Lemma citations_readable c i (l : list hit) :
      all_readable c l -> Forall (fun ci => readable c (snd ci)) (citations_from P i l).
    Proof. intros H. apply Forall_map. rewrite citations_from_ids. apply Forall_map. exact H. Qed.

    (* the refutation: on the early exits Enforce without a tenant is Ok *)
    Theorem search_enforce_no_tenant_refuted :
      search (PreEmpty P C) None Enforce = Ok (empty_response P C build_context).
    Proof. reflexivity. Qed.
    Theorem vec_search_enforce_no_tenant_refuted top_k :
      vsearch (Ok []) top_k None Enforce = Ok (empty_response P C build_context).
    Proof. reflexivity. Qed.

  End Hits.
End Decide.

(* parsers, frame table and types are read off the goal *)
Arguments Leave {P R} o.
Arguments Stage {P R} hits F.
Arguments run {json_str json_arr P frame_meta R} s c mode.
Arguments run_audit {json_str json_arr P frame_meta R} s c.
Arguments run_enforce {json_str json_arr P frame_meta R s c r} _.
Arguments run_no_tenant {json_str json_arr P frame_meta R s c r} _ _.
Arguments search_site {P C} build_context pre.
Arguments vec_site {P C} build_context conv pre top_k.
Arguments ask_site {P C} build_context pre context_only.
