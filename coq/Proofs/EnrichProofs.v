(* C41 (Model/Enrich.v), the machine.  Every statement of C41 is about ALL schedules (merges of
   worker steps and foreground calls).  wtrans / ftrans list the transitions of the worker and of
   the foreground, one constructor per branch; run_from_inv reduces "holds along every schedule"
   to those cases, drain_inv does the same for the rounds of the foreground drain.  Whatever
   touches the shared state is one of five actions -- process, complete, checkpoint, a store
   call, a flag write -- and the lemmas here say what each does, field by field.
   The invariant is in EnrichQueueProofs, progress in EnrichLiveProofs. *)
From MV Require Import Base.Prelude Base.Facts Model.Store Proofs.StoreProofs Model.Derived Model.Enrich.
Local Open Scope N_scope.

Lemma mem_In x l : mem x l = true <-> In x l.
Proof. exact (existsb_eqb_In N.eqb N.eqb_eq x l). Qed.

(* 1 = Enriched, the state its put gave it *)
Lemma state_of_unqueued e i : ~ In i (e_queued e) -> state_of e i = 1.
Proof.
  intros Hn. unfold state_of. destruct (mem i (e_marked e)); [reflexivity|].
  destruct (mem i (e_queued e)) eqn:Eq; [|reflexivity]. apply mem_In in Eq. contradiction.
Qed.

Lemma state_of_marked e i : In i (e_marked e) -> state_of e i = 1.
Proof. intros H. unfold state_of. rewrite (proj2 (mem_In _ _) H). reflexivity. Qed.

Lemma remove_id_In t q x : In x (remove_id t q) <-> In x q /\ x <> t.
Proof. unfold remove_id. rewrite filter_In, negb_true_iff, N.eqb_neq. reflexivity. Qed.

Lemma remove_id_head t r : remove_id t (t :: r) = remove_id t r.
Proof. unfold remove_id. cbn [filter]. rewrite N.eqb_refl. reflexivity. Qed.

Lemma remove_id_other t h r : h <> t -> remove_id t (h :: r) = h :: remove_id t r.
Proof. intros Hn. unfold remove_id. cbn [filter]. apply N.eqb_neq in Hn. rewrite Hn. reflexivity. Qed.

Lemma remove_id_length t q : (length (remove_id t q) <= length q)%nat.
Proof. unfold remove_id. induction q as [|x q IH]; cbn [filter length]; [lia|]. destruct (negb (x =? t)); cbn [length]; lia. Qed.

Lemma NoDup_snoc (l : list N) x : NoDup l -> ~ In x l -> NoDup (l ++ [x]).
Proof.
  intros Hl Hx. apply NoDup_rev in Hl. rewrite <- (rev_involutive (l ++ [x])), rev_app_distr.
  apply NoDup_rev. constructor; [rewrite <- in_rev; exact Hx|exact Hl].
Qed.

Lemma In_snoc (l : list N) t x : In x (l ++ [t]) <-> In x l \/ x = t.
Proof. rewrite in_app_iff. cbn [In]. intuition congruence. Qed.

Lemma nfi_touch s : next_frame_id (touch s) = next_frame_id s.
Proof. reflexivity. Qed.

Lemma nfi_commit s extra : K s -> next_frame_id (do_commit s extra) = next_frame_id s.
Proof.
  intros HK. unfold next_frame_id, do_commit. cbn [committed pending_inserts]. rewrite len_view. unfold K in HK. lia.
Qed.

Lemma nfi_auto s auto : K s -> next_frame_id (auto_commit s auto) = next_frame_id s.
Proof. intros HK. destruct auto; [apply nfi_commit; exact HK|reflexivity]. Qed.

Lemma nfi_ocommit s extra : K s -> next_frame_id (fst (sstep s (OCommit extra))) = next_frame_id s.
Proof. intros HK. apply (settle_closed (fun s1 => next_frame_id s1 = next_frame_id s)); [apply nfi_commit, HK|reflexivity]. Qed.

Lemma nfi_put s uk tag n auto : K s ->
  next_frame_id (fst (sstep s (OPut uk tag n 0 auto))) = next_frame_id s + 1 + n.
Proof.
  intros HK. pose proof (sstep_K s (OPut uk tag n 0 None) HK) as HK2.
  rewrite sstep_put in *. cbn [fst auto_commit] in *. rewrite nfi_auto by exact HK2.
  unfold next_frame_id, put_logged. cbn [committed pending_inserts]. lia.
Qed.

Lemma nfi_mono s op : K s -> next_frame_id s <= next_frame_id (fst (sstep s op)).
Proof.
  intros HK.
  apply (sstep_closed (fun s0 => K s0 /\ next_frame_id s <= next_frame_id s0)); [..|split; [exact HK|lia]].
  - intros s0 e [H0 H1]. split; [apply K_append, H0|]. rewrite next_frame_id_append. lia.
  - intros s0 e [H0 H1]. split; [reflexivity|]. rewrite nfi_commit by exact H0. exact H1.
  - intros s0 e H. exact H.
  - intros s0 q _ H. exact H.
Qed.

Inductive wtrans (iv extra : N) (e : est) (w : wst) : est * wst -> Prop :=
| W_exit : w_pc w = WTop -> e_stop e = true ->
    wtrans iv extra e w ((if 0 <? w_since w then checkpoint e extra else e), set_pc w WStopped)
| W_idle : w_pc w = WTop -> e_stop e = false -> e_queue e = [] -> wtrans iv extra e w (e, w)
| W_get t r : w_pc w = WTop -> e_stop e = false -> e_queue e = t :: r -> wtrans iv extra e w (e, set_pc w (WHasTask t))
| W_process t : w_pc w = WHasTask t ->
    wtrans iv extra e w (fst (process e t),
                         mkW (WProcessed t) (w_since w) (w_nproc w + 1) (if snd (process e t) then w_nerr w + 1 else w_nerr w))
| W_complete t : w_pc w = WProcessed t ->
    wtrans iv extra e w (complete e t, mkW (if iv <=? w_since w + 1 then WCkpt else WTop) (w_since w + 1) (w_nproc w) (w_nerr w))
| W_ckpt : w_pc w = WCkpt -> wtrans iv extra e w (checkpoint e extra, mkW WTop 0 (w_nproc w) (w_nerr w))
| W_stopped : w_pc w = WStopped -> wtrans iv extra e w (e, w).

Lemma wstep_cases iv extra e w : wtrans iv extra e w (wstep iv extra (e, w)).
Proof.
  unfold wstep. destruct (w_pc w) as [|t|t| |] eqn:Epc.
  - destruct (e_stop e) eqn:Es; [apply W_exit; assumption|].
    destruct (e_queue e) as [|t r] eqn:Eq; [apply W_idle|apply (W_get _ _ _ _ t r)]; assumption.
  - pose proof (W_process iv extra e w t Epc) as H. destruct (process e t) as [e1 err]. exact H.
  - apply W_complete. exact Epc.
  - apply W_ckpt. exact Epc.
  - apply W_stopped. exact Epc.
Qed.

Definition pushes (f : fop) : bool := match f with FPut _ _ _ _ q => q | _ => false end.
Definition call (e : est) (so : sop) (push : bool) : est :=
  let id := next_frame_id (e_st e) in
  mkE (fst (sstep (e_st e) so)) (if push then e_queue e ++ [id] else e_queue e) (e_stop e) (e_marked e)
      (if push then e_queued e ++ [id] else e_queued e) (e_early e) (e_gone e) (e_plog e)
      (e_hist e ++ [(so, snd (sstep (e_st e) so))]) (e_overlap e).
Definition set_stop (e : est) : est :=
  mkE (e_st e) (e_queue e) true (e_marked e) (e_queued e) (e_early e) (e_gone e) (e_plog e) (e_hist e) (e_overlap e).
Definition set_overlap (e : est) (ov : bool) : est :=
  mkE (e_st e) (e_queue e) (e_stop e) (e_marked e) (e_queued e) (e_early e) (e_gone e) (e_plog e) (e_hist e) ov.

Inductive ftrans (e : est) (w : wst) : est -> Prop :=
| F_search : ftrans e w e
| F_stop : ftrans e w (set_stop e)
| F_drain : ftrans e w (set_overlap (drain (length (e_queue e)) e)
                          (e_overlap e || (inflight w && negb (match e_queue e with [] => true | _ => false end))))
| F_call f so : sop_of_f f = Some so -> ftrans e w (call e so (pushes f)).

Lemma fstep_call f so e w : sop_of_f f = Some so -> fstep f (e, w) = (call e so (pushes f), w).
Proof.
  destruct f; intros [= <-]; cbn [fstep sop_of_f]; unfold call; destruct (sstep (e_st e) _); reflexivity.
Qed.

Lemma fstep_cases f e w : exists e1, fstep f (e, w) = (e1, w) /\ ftrans e w e1.
Proof.
  destruct (sop_of_f f) as [so|] eqn:Eso.
  - exists (call e so (pushes f)). split; [apply fstep_call; exact Eso|apply F_call; exact Eso].
  - destruct f; try discriminate Eso; eexists; (split; [reflexivity|constructor]).
Qed.

Lemma run_from_inv (P : est * wst -> Prop) iv :
  (forall extra e w x1, wtrans iv extra e w x1 -> P (e, w) -> P x1) ->
  (forall e w e1, ftrans e w e1 -> P (e, w) -> P (e1, w)) ->
  forall sched x, P x -> P (run_from iv x sched).
Proof.
  intros HW HF. induction sched as [|i sched IH]; intros [e w] HP; cbn [run_from fold_left]; [exact HP|].
  apply IH. destruct i as [extra|f]; cbn [step].
  - exact (HW _ _ _ _ (wstep_cases iv extra e w) HP).
  - destruct (fstep_cases f e w) as (e1 & -> & HT). exact (HF _ _ _ HT HP).
Qed.

Lemma run_from_app iv a b x : run_from iv x (a ++ b) = run_from iv (run_from iv x a) b.
Proof. unfold run_from. apply fold_left_app. Qed.

(* by cases on the three outcomes of process: frame found, not committed yet, committed but not Active *)
Local Ltac process_cases e t :=
  unfold process; destruct (frame_found (e_st e) t); [|destruct (get (committed (e_st e)) t)]; cbn [fst].

Lemma process_queue e t : e_queue (fst (process e t)) = e_queue e.
Proof. process_cases e t; reflexivity. Qed.
Lemma process_stop e t : e_stop (fst (process e t)) = e_stop e.
Proof. process_cases e t; reflexivity. Qed.
Lemma process_queued e t : e_queued (fst (process e t)) = e_queued e.
Proof. process_cases e t; reflexivity. Qed.
Lemma process_hist e t : e_hist (fst (process e t)) = e_hist e.
Proof. process_cases e t; reflexivity. Qed.
Lemma process_overlap e t : e_overlap (fst (process e t)) = e_overlap e.
Proof. process_cases e t; reflexivity. Qed.
Lemma process_plog e t : e_plog (fst (process e t)) = e_plog e ++ [t].
Proof. process_cases e t; reflexivity. Qed.

Definition done (e : est) (t : N) : Prop := In t (e_marked e) \/ In t (e_early e) \/ In t (e_gone e).

Lemma process_done e t x : done (fst (process e t)) x <-> done e x \/ x = t.
Proof. unfold done. process_cases e t; cbn [e_marked e_early e_gone In]; intuition congruence. Qed.

Lemma process_marks_grow e t :
  let e1 := fst (process e t) in
  incl (e_marked e) (e_marked e1) /\ incl (e_early e) (e_early e1) /\ incl (e_gone e) (e_gone e1).
Proof. process_cases e t; cbn [e_marked e_early e_gone]; auto using incl_refl, incl_tl. Qed.

Lemma process_found_marks e t : frame_found (e_st e) t = true -> In t (e_marked (fst (process e t))).
Proof. intros H. unfold process. rewrite H. left. reflexivity. Qed.

(* what any action other than a foreground store call leaves of the store *)
Definition same_store (s s1 : store) : Prop :=
  committed s1 = committed s /\ pending s1 = pending s /\ pending_inserts s1 = pending_inserts s.

Lemma same_store_refl s : same_store s s.
Proof. repeat split. Qed.
Lemma same_store_touch s : same_store s (touch s).
Proof. repeat split. Qed.
Lemma same_store_J s s1 R : same_store s s1 -> J s R -> J s1 R.
Proof. intros (C & P & _). exact (J_frame s s1 R C P). Qed.
Lemma same_store_K s s1 : same_store s s1 -> K s -> K s1.
Proof. intros (_ & P & I) HK. unfold K in *. rewrite P, I. exact HK. Qed.
Lemma same_store_nfi s s1 : same_store s s1 -> next_frame_id s1 = next_frame_id s.
Proof. intros (C & _ & I). unfold next_frame_id. rewrite C, I. reflexivity. Qed.
Lemma same_store_found s s1 t : same_store s s1 -> frame_found s1 t = frame_found s t.
Proof. intros (C & _ & _). unfold frame_found. rewrite C. reflexivity. Qed.

Lemma process_store e t : same_store (e_st e) (e_st (fst (process e t))).
Proof. process_cases e t; first [apply same_store_refl | apply same_store_touch]. Qed.

(* process_all_enrichment is process + complete on the head of the queue, repeated *)
Lemma drain_inv (P : est -> Prop) :
  (forall e t r, e_queue e = t :: r -> P e -> P (complete (fst (process e t)) t)) ->
  forall fuel e, P e -> P (drain fuel e).
Proof.
  intros Hround. induction fuel as [|k IH]; intros e HP; cbn [drain]; [exact HP|].
  destruct (e_queue e) as [|t r] eqn:Eq; [exact HP|]. apply IH. exact (Hround e t r Eq HP).
Qed.

Lemma drain_keeps {X} (field : est -> X) :
  (forall e t, field (fst (process e t)) = field e) -> (forall e t, field (complete e t) = field e) ->
  forall fuel e, field (drain fuel e) = field e.
Proof.
  intros Hp Hc fuel e. apply (drain_inv (fun e1 => field e1 = field e)); [|reflexivity].
  intros e1 t _ _ H. rewrite Hc, Hp. exact H.
Qed.

Lemma drain_stop fuel e : e_stop (drain fuel e) = e_stop e.
Proof. apply drain_keeps; [apply process_stop|reflexivity]. Qed.
Lemma drain_queued fuel e : e_queued (drain fuel e) = e_queued e.
Proof. apply drain_keeps; [apply process_queued|reflexivity]. Qed.
Lemma drain_hist fuel e : e_hist (drain fuel e) = e_hist e.
Proof. apply drain_keeps; [apply process_hist|reflexivity]. Qed.

Lemma drain_queue_nil fuel : forall e, (length (e_queue e) <= fuel)%nat -> e_queue (drain fuel e) = [].
Proof.
  induction fuel as [|k IH]; intros e Hl; cbn [drain].
  - destruct (e_queue e); [reflexivity|cbn [length] in Hl; lia].
  - destruct (e_queue e) as [|t r] eqn:Eq; [exact Eq|].
    apply IH. cbn [complete e_queue]. rewrite process_queue, Eq, remove_id_head.
    pose proof (remove_id_length t r). cbn [length] in Hl. lia.
Qed.

Fixpoint fore_calls (sched : list sitem) : list sop :=
  match sched with
  | [] => []
  | SF f :: r => match sop_of_f f with Some so => so :: fore_calls r | None => fore_calls r end
  | SW _ :: r => fore_calls r
  end.

Lemma wstep_hist iv extra e w : e_hist (fst (wstep iv extra (e, w))) = e_hist e.
Proof.
  destruct (wstep_cases iv extra e w); cbn [fst]; try reflexivity.
  - destruct (0 <? w_since w); reflexivity.
  - apply process_hist.
Qed.

Lemma fstep_hist f e w :
  map fst (e_hist (fst (fstep f (e, w)))) = map fst (e_hist e) ++ match sop_of_f f with Some so => [so] | None => [] end.
Proof.
  destruct (sop_of_f f) as [so|] eqn:Eso.
  - rewrite (fstep_call f so e w Eso). cbn [fst call e_hist]. rewrite map_app. reflexivity.
  - destruct f; try discriminate Eso; cbn [fstep fst e_hist]; rewrite ?drain_hist, app_nil_r; reflexivity.
Qed.

Lemma hist_calls iv sched : forall x,
  map fst (e_hist (fst (run_from iv x sched))) = map fst (e_hist (fst x)) ++ fore_calls sched.
Proof.
  induction sched as [|i sched IH]; intros [e w]; cbn [run_from fold_left fore_calls]; [rewrite app_nil_r; reflexivity|].
  fold (run_from iv (step iv (e, w) i) sched). rewrite IH.
  destruct i as [extra|f]; cbn [step].
  - rewrite wstep_hist. reflexivity.
  - rewrite fstep_hist.
    destruct (sop_of_f f); [rewrite <- app_assoc; reflexivity|rewrite app_nil_r; reflexivity].
Qed.
