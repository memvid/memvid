(* The three string primitives the Rust code uses in several places: str::trim (trim_by over
   skip_while, which is trim_start), starts_with (is_prefix_of) and contains (is_infix_of).
   The models keep their own copies; each is convertible to the function here or equal to it by
   a two-line induction, and the proof files say so where they use it. *)
From MV Require Import Base.Prelude Base.Facts.

Section Trim.
  Context {A : Type}.
  Variable p : A -> bool.

  Fixpoint skip_while (s : list A) : list A :=
    match s with
    | [] => []
    | c :: r => if p c then skip_while r else s
    end.

  Definition trim_by (s : list A) : list A := rev (skip_while (rev (skip_while s))).

  Lemma skip_while_split s : exists a, s = a ++ skip_while s /\ forallb p a = true.
  Proof.
    induction s as [|c r IH]; cbn [skip_while].
    - exists []. split; reflexivity.
    - destruct (p c) eqn:E.
      + destruct IH as (a & H1 & H2). exists (c :: a). cbn [app forallb]. rewrite E, H2, <- H1. split; reflexivity.
      + exists []. split; reflexivity.
  Qed.

  Lemma skip_while_stops s c r : skip_while s = c :: r -> p c = false.
  Proof.
    induction s as [|x s IH]; cbn [skip_while]; [discriminate|].
    destruct (p x) eqn:E; [exact IH|]. intros [= <- _]. exact E.
  Qed.

  Lemma skip_while_id s : (forall c r, s = c :: r -> p c = false) -> skip_while s = s.
  Proof. destruct s as [|c r]; [reflexivity|]. intros H. cbn [skip_while]. rewrite (H c r eq_refl). reflexivity. Qed.

  Lemma trim_by_split s : exists a b, s = a ++ trim_by s ++ b /\ forallb p a = true /\ forallb p b = true.
  Proof.
    unfold trim_by. destruct (skip_while_split s) as (a & Ha & Hpa).
    destruct (skip_while_split (rev (skip_while s))) as (b & Hb & Hpb).
    exists a, (rev b). split.
    - (* rev (skip_while (rev ..)) ++ rev b is skip_while s reversed twice *)
      rewrite <- rev_app_distr, <- Hb, rev_involutive. exact Ha.
    - rewrite forallb_rev. split; [exact Hpa | exact Hpb].
  Qed.

  Lemma trim_by_last s c r : rev (trim_by s) = c :: r -> p c = false.
  Proof. unfold trim_by. rewrite rev_involutive. apply skip_while_stops. Qed.

  Lemma trim_by_hd s c r : trim_by s = c :: r -> p c = false.
  Proof.
    unfold trim_by. intros H. destruct (skip_while_split (rev (skip_while s))) as (b & Hb & _).
    (* skip_while s = rev (skip_while (rev ..)) ++ rev b = c :: r ++ rev b *)
    apply (f_equal (@rev A)) in Hb. rewrite rev_involutive, rev_app_distr, H in Hb.
    exact (skip_while_stops s c _ Hb).
  Qed.

  Lemma trim_by_id s :
    (forall c r, s = c :: r -> p c = false) -> (forall c r, rev s = c :: r -> p c = false) -> trim_by s = s.
  Proof. intros Hh Hl. unfold trim_by. rewrite (skip_while_id s Hh), (skip_while_id _ Hl). apply rev_involutive. Qed.
End Trim.

(* starts_with and contains on code points *)
Fixpoint is_prefix_of (a b : list N) : bool :=
  match a, b with
  | [], _ => true
  | x :: a', y :: b' => (x =? y)%N && is_prefix_of a' b'
  | _ :: _, [] => false
  end.

Fixpoint is_infix_of (a b : list N) : bool :=
  is_prefix_of a b || match b with [] => false | _ :: b' => is_infix_of a b' end.

Lemma is_prefix_of_spec a : forall b, is_prefix_of a b = true <-> exists q, b = a ++ q.
Proof.
  induction a as [|x a IH]; intros b; cbn [is_prefix_of].
  - split; [exists b|]; reflexivity.
  - destruct b as [|y b].
    + split; [discriminate | intros (q & [=])].
    + rewrite andb_true_iff, N.eqb_eq, IH. split.
      * intros (-> & q & ->). exists q. reflexivity.
      * intros (q & [= -> ->]). split; [reflexivity | exists q; reflexivity].
Qed.

Lemma is_infix_of_spec a b : is_infix_of a b = true <-> exists p q, b = p ++ a ++ q.
Proof.
  induction b as [|y b IH]; cbn [is_infix_of]; rewrite orb_true_iff, is_prefix_of_spec.
  - split.
    + intros [(q & ->)|[=]]. exists [], q. reflexivity.
    + intros ([|z p] & q & E); [left; exists q; exact E | discriminate].
  - rewrite IH. split.
    + intros [(q & ->)|(p & q & ->)]; [exists [], q | exists (y :: p), q]; reflexivity.
    + intros ([|z p] & q & E).
      * left. exists q. exact E.
      * injection E as _ ->. right. exists p, q. reflexivity.
Qed.
