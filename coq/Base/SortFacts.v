(* Stable sorting, generically over a boolean comparison [leb].

   Rust's [slice::sort_by] / [sort_by_key] are stable sorts; this file shows that the result
   of a stable sort is UNIQUE, so it does not matter which stable algorithm the implementation
   uses (insertion sort below 20 elements, driftsort above): it is [isort].

   [leb] is asked to be total and transitive only on the elements that satisfy a guard P
   (total_on P, trans_on P; for a comparison of floats P is "not NaN"), and the lists are
   Forall P: the lemmas named _on.  Under the section's hypotheses leb_total and leb_trans
   (a total preorder) the guard is [everything], and the lemmas after them are stated without
   it.  Last, [best p]: one pass that returns what [find p] returns on the sorted list
   (find_isort), the first minimal element satisfying p (best_some_iff). *)
From Coq Require Import List Bool Permutation Sorted.
Import ListNotations.

Section StableSort.
  Variable A : Type.
  Variable leb : A -> A -> bool.

  Fixpoint insert (x : A) (l : list A) : list A :=
    match l with
    | [] => [x]
    | y :: r => if leb x y then x :: y :: r else y :: insert x r
    end.

  (* the head of the input is inserted last, in front of everything it is <= to,
     so it stays in front of the elements it is tied with *)
  Fixpoint isort (l : list A) : list A :=
    match l with
    | [] => []
    | x :: r => insert x (isort r)
    end.

  (* left element first on ties *)
  Fixpoint merge (l1 : list A) : list A -> list A :=
    fix aux (l2 : list A) : list A :=
      match l1, l2 with
      | [], _ => l2
      | _, [] => l1
      | a1 :: r1, a2 :: r2 => if leb a1 a2 then a1 :: merge r1 l2 else a2 :: aux r2
      end.

  (* fuel = length is always enough; when it runs out the remainder is sorted by [isort],
     so the function is a stable sort for every fuel *)
  Fixpoint msort_fuel (n : nat) (l : list A) : list A :=
    match n with
    | O => isort l
    | S n' =>
        match l with
        | [] => []
        | [x] => [x]
        | _ => let k := Nat.div2 (length l) in
               merge (msort_fuel n' (firstn k l)) (msort_fuel n' (skipn k l))
        end
    end.
  Definition msort (l : list A) : list A := msort_fuel (length l) l.

  Definition equivb (a b : A) : bool := leb a b && leb b a.

  Fixpoint sorted (l : list A) : Prop :=
    match l with
    | [] => True
    | x :: r => (forall y, In y r -> leb x y = true) /\ sorted r
    end.

  (* l' keeps, for every x, the elements tied with x in the order they have in l *)
  Definition stable_of (l l' : list A) : Prop :=
    forall x, filter (equivb x) l' = filter (equivb x) l.

  Definition is_stable_sort (l l' : list A) : Prop :=
    sorted l' /\ Permutation l' l /\ stable_of l l'.

  Lemma insert_perm : forall x l, Permutation (insert x l) (x :: l).
  Proof.
    intros x l; induction l as [|y r IH]; simpl.
    - apply Permutation_refl.
    - destruct (leb x y).
      + apply Permutation_refl.
      + eapply Permutation_trans; [apply perm_skip, IH | apply perm_swap].
  Qed.

  Lemma isort_perm : forall l, Permutation (isort l) l.
  Proof.
    induction l as [|x r IH]; simpl.
    - apply Permutation_refl.
    - eapply Permutation_trans; [apply insert_perm | apply perm_skip, IH].
  Qed.

  Lemma isort_In : forall l x, In x (isort l) <-> In x l.
  Proof.
    intros l x; split; intro H.
    - eapply Permutation_in; [apply isort_perm | exact H].
    - eapply Permutation_in; [apply Permutation_sym, isort_perm | exact H].
  Qed.

  Lemma isort_length : forall l, length (isort l) = length l.
  Proof. intro l. apply Permutation_length, isort_perm. Qed.

  Lemma merge_nil_r : forall l, merge l [] = l.
  Proof. destruct l; reflexivity. Qed.

  Lemma merge_nil_l : forall l, merge [] l = l.
  Proof. destruct l; reflexivity. Qed.

  Lemma merge_cons : forall a1 r1 a2 r2,
      merge (a1 :: r1) (a2 :: r2) =
      if leb a1 a2 then a1 :: merge r1 (a2 :: r2) else a2 :: merge (a1 :: r1) r2.
  Proof. reflexivity. Qed.

  Lemma merge_perm : forall l1 l2, Permutation (merge l1 l2) (l1 ++ l2).
  Proof.
    induction l1 as [|a1 r1 IH1]; intro l2.
    - rewrite merge_nil_l. apply Permutation_refl.
    - induction l2 as [|a2 r2 IH2].
      + rewrite merge_nil_r, app_nil_r. apply Permutation_refl.
      + rewrite merge_cons. destruct (leb a1 a2).
        * simpl. apply perm_skip, IH1.
        * eapply Permutation_trans; [apply perm_skip, IH2|].
          change ((a1 :: r1) ++ a2 :: r2) with (a1 :: (r1 ++ a2 :: r2)).
          eapply Permutation_trans; [|apply perm_skip, Permutation_middle].
          simpl. apply perm_swap.
  Qed.

  Lemma filter_cons_eq : forall (f : A -> bool) a l,
      filter f (a :: l) = if f a then a :: filter f l else filter f l.
  Proof. reflexivity. Qed.

  Lemma filter_head_in : forall (f : A -> bool) l a r, filter f l = a :: r -> In a l /\ f a = true.
  Proof.
    intros f l a r H. assert (Hin : In a (filter f l)) by (rewrite H; left; reflexivity).
    apply filter_In in Hin. exact Hin.
  Qed.

  Lemma isort_Forall : forall (Q : A -> Prop) l, Forall Q l -> Forall Q (isort l).
  Proof. intros Q l Ql. eapply Permutation_Forall; [apply Permutation_sym, isort_perm|exact Ql]. Qed.

  Lemma sorted_StronglySorted : forall l, sorted l <-> StronglySorted (fun a b => leb a b = true) l.
  Proof.
    induction l as [|x r IH]; cbn [sorted]; [split; constructor|].
    rewrite IH, <- Forall_forall. split; [intros [H1 H2]; constructor; assumption|intros H; inversion H; auto].
  Qed.

  (* a model that writes its insertion sort as a fold is tied to [isort] by its insertion step alone *)
  Lemma isort_fold : forall ins : A -> list A -> list A,
      (forall x l, ins x l = insert x l) -> forall l, fold_right ins [] l = isort l.
  Proof.
    intros ins Hins l. induction l as [|x r IH]; [reflexivity|].
    cbn [fold_right isort]. rewrite IH. apply Hins.
  Qed.

  Lemma sorted_perm_unique :
      (forall a b, leb a b = true -> leb b a = true -> a = b) ->
      forall l1 l2, sorted l1 -> sorted l2 -> Permutation l1 l2 -> l1 = l2.
  Proof.
    intros antisym. induction l1 as [|x r IH]; intros l2 H1 H2 HP.
    - apply Permutation_nil in HP. subst; reflexivity.
    - destruct l2 as [|y r2]; [apply Permutation_sym, Permutation_nil in HP; discriminate|].
      destruct H1 as [Hx Hr]. destruct H2 as [Hy Hr2].
      assert (Exy : x = y).
      { assert (Hin1 : In y (x :: r)) by (eapply Permutation_in; [apply Permutation_sym, HP|left; reflexivity]).
        assert (Hin2 : In x (y :: r2)) by (eapply Permutation_in; [apply HP|left; reflexivity]).
        destruct Hin1 as [E|Hin1]; [exact E|]. destruct Hin2 as [E|Hin2]; [symmetry; exact E|].
        apply antisym; [apply Hx, Hin1|apply Hy, Hin2]. }
      subst y. f_equal. apply IH; try assumption. eapply Permutation_cons_inv, HP.
  Qed.

  Definition total_on (P : A -> Prop) : Prop :=
    forall a b, P a -> P b -> leb a b = true \/ leb b a = true.
  Definition trans_on (P : A -> Prop) : Prop :=
    forall a b c, P a -> P b -> P c -> leb a b = true -> leb b c = true -> leb a c = true.

  Lemma leb_refl_on : forall P a, total_on P -> P a -> leb a a = true.
  Proof. intros P a T Pa. destruct (T a a Pa Pa); assumption. Qed.

  Lemma equivb_refl_on : forall P a, total_on P -> P a -> equivb a a = true.
  Proof. intros P a T Pa. unfold equivb. rewrite (leb_refl_on P a T Pa). reflexivity. Qed.

  Lemma insert_sorted_on : forall P x l,
      total_on P -> trans_on P -> P x -> Forall P l -> sorted l -> sorted (insert x l).
  Proof.
    intros P x l T R Px Pl. induction Pl as [|y r Py Pr IH]; simpl; intro Hs.
    - split; [intros y []|exact I].
    - destruct Hs as [Hy Hr]. rewrite Forall_forall in Pr. destruct (leb x y) eqn:E; simpl.
      + split; [|split; assumption].
        intros z [Hz|Hz]; [subst; assumption|].
        exact (R x y z Px Py (Pr z Hz) E (Hy z Hz)).
      + split; [|apply IH, Hr].
        intros z Hz. apply (Permutation_in _ (insert_perm x r)) in Hz.
        destruct Hz as [Hz|Hz]; [subst z|apply Hy, Hz].
        destruct (T x y Px Py) as [H|H]; [congruence|exact H].
  Qed.

  Lemma isort_sorted_on : forall P l, total_on P -> trans_on P -> Forall P l -> sorted (isort l).
  Proof.
    intros P l T R Pl. induction Pl as [|x r Px Pr IH]; simpl; [exact I|].
    apply (insert_sorted_on P); [exact T|exact R|exact Px|apply isort_Forall, Pr|exact IH].
  Qed.

  (* x is moved past y only when leb x y fails, and then x and y are not tied with the same z *)
  Lemma insert_filter_on : forall P z x l,
      trans_on P -> P z -> P x -> Forall P l ->
      filter (equivb z) (insert x l) = filter (equivb z) (x :: l).
  Proof.
    intros P z x l R Pz Px Pl. induction Pl as [|y r Py Pr IH]; cbn [insert]; [reflexivity|].
    destruct (leb x y) eqn:E; [reflexivity|].
    rewrite (filter_cons_eq _ y (insert x r)), IH.
    rewrite (filter_cons_eq _ x (y :: r)), (filter_cons_eq _ y r), (filter_cons_eq _ x r).
    destruct (equivb z x) eqn:Ex; destruct (equivb z y) eqn:Ey; try reflexivity.
    unfold equivb in Ex, Ey. apply andb_true_iff in Ex; apply andb_true_iff in Ey.
    destruct Ex as [_ Hxz]; destruct Ey as [Hzy _].
    rewrite (R x z y Px Pz Py Hxz Hzy) in E. discriminate.
  Qed.

  Lemma isort_stable_on : forall P z l,
      trans_on P -> P z -> Forall P l -> filter (equivb z) (isort l) = filter (equivb z) l.
  Proof.
    intros P z l R Pz Pl. induction Pl as [|x r Px Pr IH]; cbn [isort]; [reflexivity|].
    rewrite (insert_filter_on P) by (try apply isort_Forall; assumption).
    rewrite !filter_cons_eq, IH. reflexivity.
  Qed.

  Lemma sorted_head_le : forall P a l1 b l2,
      total_on P -> P a -> P b -> sorted (a :: l1) ->
      filter (equivb b) (a :: l1) = filter (equivb b) (b :: l2) -> leb a b = true.
  Proof.
    intros P a l1 b l2 T Pa Pb [Ha _] Hf.
    rewrite (filter_cons_eq _ b l2), (equivb_refl_on P b T Pb) in Hf.
    apply filter_head_in in Hf. destruct Hf as [[E|Hin] _].
    - subst b. exact (leb_refl_on P a T Pa).
    - apply Ha, Hin.
  Qed.

  (* uniqueness: a sorted list is determined by its tie classes *)
  Lemma sorted_stable_unique_on : forall P l1 l2,
      total_on P -> Forall P l1 -> Forall P l2 -> sorted l1 -> sorted l2 ->
      (forall z, P z -> filter (equivb z) l1 = filter (equivb z) l2) -> l1 = l2.
  Proof.
    intros P l1 l2 T P1; revert l2. induction P1 as [|a l1 Pa P1 IH]; intros l2 P2 S1 S2 Hf.
    - destruct P2 as [|b l2 Pb P2]; [reflexivity|].
      specialize (Hf b Pb). rewrite filter_cons_eq, (equivb_refl_on P b T Pb) in Hf. discriminate.
    - destruct P2 as [|b l2 Pb P2].
      + specialize (Hf a Pa). rewrite filter_cons_eq, (equivb_refl_on P a T Pa) in Hf. discriminate.
      + assert (Hab : leb a b = true) by exact (sorted_head_le P a l1 b l2 T Pa Pb S1 (Hf b Pb)).
        assert (Hba : leb b a = true)
          by exact (sorted_head_le P b l2 a l1 T Pb Pa S2 (eq_sym (Hf a Pa))).
        assert (Eab : equivb a b = true) by (unfold equivb; rewrite Hab, Hba; reflexivity).
        assert (a = b).
        { pose proof (Hf a Pa) as H. rewrite !filter_cons_eq, (equivb_refl_on P a T Pa), Eab in H.
          injection H as H _. exact H. }
        subst b. f_equal. apply IH; [exact P2|apply S1|apply S2|].
        intros z Pz. specialize (Hf z Pz). rewrite !filter_cons_eq in Hf.
        destruct (equivb z a); [injection Hf as Hf; exact Hf|exact Hf].
  Qed.

  Theorem stable_sort_unique_on : forall P l l',
      total_on P -> trans_on P -> Forall P l -> Forall P l' -> sorted l' ->
      (forall z, P z -> filter (equivb z) l' = filter (equivb z) l) -> l' = isort l.
  Proof.
    intros P l l' T R Pl Pl' S' Hst. apply (sorted_stable_unique_on P); try assumption.
    - apply isort_Forall, Pl.
    - apply (isort_sorted_on P); assumption.
    - intros z Pz. rewrite (Hst z Pz), (isort_stable_on P) by assumption. reflexivity.
  Qed.

  (* merging commutes with insertion into the left run, sorted or not: whatever x passes in
     [insert x l1] or in l2 is strictly below it, and on a tie with l2 the left run goes first *)
  Lemma merge_insert_on : forall P x l1 l2,
      total_on P -> trans_on P -> P x -> Forall P l1 -> Forall P l2 ->
      merge (insert x l1) l2 = insert x (merge l1 l2).
  Proof.
    intros P x l1 l2 T R Px P1; revert l2. induction P1 as [|a1 r1 Pa1 P1 IH1]; intros l2 P2.
    - rewrite merge_nil_l. change (insert x []) with [x].
      induction P2 as [|a2 r2 Pa2 P2 IH2]; [reflexivity|].
      cbn [insert]. rewrite merge_cons, merge_nil_l, IH2. reflexivity.
    - induction P2 as [|a2 r2 Pa2 P2 IH2]; [rewrite !merge_nil_r; reflexivity|].
      rewrite (merge_cons a1 r1 a2 r2). cbn [insert] in *.
      destruct (leb x a1) eqn:E1; destruct (leb a1 a2) eqn:E12.
      + rewrite merge_cons, (R x a1 a2 Px Pa1 Pa2 E1 E12), merge_cons, E12. cbn [insert]. rewrite E1. reflexivity.
      + rewrite merge_cons. cbn [insert]. destruct (leb x a2) eqn:E2.
        * rewrite merge_cons, E12. reflexivity.
        * rewrite IH2. reflexivity.
      + rewrite merge_cons, E12. cbn [insert]. rewrite E1, IH1 by exact (Forall_cons a2 Pa2 P2). reflexivity.
      + rewrite merge_cons, E12. cbn [insert].
        (* a2 < a1 < x *)
        destruct (leb x a2) eqn:E2.
        * destruct (T a1 a2 Pa1 Pa2) as [H|H]; [congruence|].
          rewrite (R x a2 a1 Px Pa2 Pa1 E2 H) in E1. discriminate.
        * rewrite IH2. reflexivity.
  Qed.

  Lemma merge_isort_on : forall P l1 l2,
      total_on P -> trans_on P -> Forall P l1 -> Forall P l2 ->
      merge (isort l1) (isort l2) = isort (l1 ++ l2).
  Proof.
    intros P l1 l2 T R P1 P2. induction P1 as [|x r Px Pr IH]; cbn [isort app]; [apply merge_nil_l|].
    rewrite (merge_insert_on P x (isort r) (isort l2) T R Px (isort_Forall P r Pr) (isort_Forall P l2 P2)).
    rewrite IH. reflexivity.
  Qed.

  Theorem msort_fuel_eq_isort_on : forall P n l,
      total_on P -> trans_on P -> Forall P l -> msort_fuel n l = isort l.
  Proof.
    intros P n l T R. revert l. induction n as [|n IH]; intros l Pl; [reflexivity|].
    destruct l as [|x [|y r]]; [reflexivity|reflexivity|].
    cbn [msort_fuel]. set (k := Nat.div2 (length (x :: y :: r))).
    rewrite <- (firstn_skipn k (x :: y :: r)) in Pl. apply Forall_app in Pl. destruct Pl as [Pa Pb].
    rewrite (IH _ Pa), (IH _ Pb), (merge_isort_on P), firstn_skipn by assumption. reflexivity.
  Qed.

  Hypothesis leb_total : forall a b, leb a b = true \/ leb b a = true.
  Hypothesis leb_trans : forall a b c, leb a b = true -> leb b c = true -> leb a c = true.

  Definition everything (_ : A) : Prop := True.

  Lemma total_all : total_on everything.
  Proof. intros a b _ _. apply leb_total. Qed.

  Lemma trans_all : trans_on everything.
  Proof. intros a b c _ _ _. apply leb_trans. Qed.

  Lemma Forall_all : forall l, Forall everything l.
  Proof. intro l. apply Forall_forall. intros x _. exact I. Qed.

  Lemma leb_refl : forall a, leb a a = true.
  Proof. intro a. apply (leb_refl_on everything); [apply total_all|exact I]. Qed.

  Lemma leb_false_flip : forall a b, leb a b = false -> leb b a = true.
  Proof. intros a b H. destruct (leb_total a b) as [H'|H']; congruence. Qed.

  Lemma equivb_refl : forall a, equivb a a = true.
  Proof. intro a. apply (equivb_refl_on everything); [apply total_all|exact I]. Qed.

  Lemma sorted_cons_cons : forall a b l, sorted (a :: b :: l) <-> leb a b = true /\ sorted (b :: l).
  Proof.
    intros a b l. cbn [sorted]. split.
    - intros [Ha Hs]. split; [apply Ha; left; reflexivity|exact Hs].
    - intros [Hab [Hb Hs]]. split; [|split; assumption].
      intros y [<-|Hy]; [exact Hab|eapply leb_trans; [exact Hab|apply Hb, Hy]].
  Qed.

  Lemma insert_sorted : forall x l, sorted l -> sorted (insert x l).
  Proof. intros x l. apply (insert_sorted_on everything); [apply total_all|apply trans_all|exact I|apply Forall_all]. Qed.

  Lemma isort_sorted : forall l, sorted (isort l).
  Proof. intro l. apply (isort_sorted_on everything); [apply total_all|apply trans_all|apply Forall_all]. Qed.

  Lemma equiv_both_leb : forall z x y, equivb z x = true -> equivb z y = true -> leb x y = true.
  Proof.
    unfold equivb; intros z x y Hx Hy.
    apply andb_true_iff in Hx; apply andb_true_iff in Hy.
    destruct Hx as [_ Hx]; destruct Hy as [Hy _]. eapply leb_trans; eassumption.
  Qed.

  Lemma insert_filter : forall z x l,
      filter (equivb z) (insert x l) =
      if equivb z x then x :: filter (equivb z) l else filter (equivb z) l.
  Proof. intros z x l. apply (insert_filter_on everything); [apply trans_all|exact I|exact I|apply Forall_all]. Qed.

  Lemma isort_stable : forall l, stable_of l (isort l).
  Proof. intros l x. apply (isort_stable_on everything); [apply trans_all|exact I|apply Forall_all]. Qed.

  Theorem isort_is_stable_sort : forall l, is_stable_sort l (isort l).
  Proof. intro l. split; [apply isort_sorted|split; [apply isort_perm|apply isort_stable]]. Qed.

  Lemma sorted_stable_unique : forall l1 l2,
      sorted l1 -> sorted l2 ->
      (forall x, filter (equivb x) l1 = filter (equivb x) l2) -> l1 = l2.
  Proof.
    intros l1 l2 S1 S2 Hf.
    apply (sorted_stable_unique_on everything); [apply total_all|apply Forall_all|apply Forall_all|exact S1|exact S2|].
    intros z _. apply Hf.
  Qed.

  Theorem stable_sort_unique : forall l l',
      sorted l' -> stable_of l l' -> l' = isort l.
  Proof.
    intros l l' Hs Hst.
    apply (stable_sort_unique_on everything); [apply total_all|apply trans_all|apply Forall_all|apply Forall_all|exact Hs|].
    intros z _. apply Hst.
  Qed.

  Corollary is_stable_sort_unique : forall l l', is_stable_sort l l' -> l' = isort l.
  Proof. intros l l' (Hs & _ & Hst). apply stable_sort_unique; assumption. Qed.

  Lemma sorted_isort_id : forall l, sorted l -> isort l = l.
  Proof. intros l Hs. symmetry. apply stable_sort_unique; [assumption|intro x; reflexivity]. Qed.

  Lemma isort_idem : forall l, isort (isort l) = isort l.
  Proof. intro l. apply sorted_isort_id, isort_sorted. Qed.

  Lemma sorted_filter : forall (f : A -> bool) l, sorted l -> sorted (filter f l).
  Proof.
    intros f l. induction l as [|a r IH]; cbn [filter sorted]; [trivial|]. intros [Ha Hr].
    destruct (f a); [split|]; try apply IH, Hr. intros y Hy. apply filter_In in Hy. apply Ha, Hy.
  Qed.

  Lemma filter_comm : forall (f g : A -> bool) l, filter f (filter g l) = filter g (filter f l).
  Proof.
    intros f g l. induction l as [|a r IH]; [reflexivity|]. cbn [filter].
    destruct (f a) eqn:Ef, (g a) eqn:Eg; cbn [filter]; rewrite ?Ef, ?Eg, IH; reflexivity.
  Qed.

  (* each tie class is filtered in place *)
  Lemma filter_isort : forall (f : A -> bool) l, filter f (isort l) = isort (filter f l).
  Proof.
    intros f l. apply stable_sort_unique; [apply sorted_filter, isort_sorted|].
    intro x. rewrite filter_comm, isort_stable. apply filter_comm.
  Qed.

  Lemma merge_isort : forall l1 l2, merge (isort l1) (isort l2) = isort (l1 ++ l2).
  Proof.
    intros l1 l2. apply (merge_isort_on everything); [apply total_all|apply trans_all|apply Forall_all|apply Forall_all].
  Qed.

  (* a sorted run is its own [isort]: what holds of merged sorts holds of merged sorted runs *)
  Lemma merge_sorted : forall l1 l2, sorted l1 -> sorted l2 -> sorted (merge l1 l2).
  Proof.
    intros l1 l2 H1 H2. rewrite <- (sorted_isort_id l1 H1), <- (sorted_isort_id l2 H2), merge_isort.
    apply isort_sorted.
  Qed.

  (* the two facts about merging sorted runs that need no totality *)
  Lemma sorted_filter_nil : forall z a r,
      sorted (a :: r) -> leb a z = false -> filter (equivb z) (a :: r) = [].
  Proof.
    intros z a r [Ha _] E.
    assert (forall y, In y (a :: r) -> equivb z y = false) as Hall.
    { intros y Hy. unfold equivb. destruct (leb y z) eqn:Eyz; [|apply andb_false_r].
      exfalso. destruct Hy as [Hy|Hy]; [subst; congruence|].
      rewrite (leb_trans a y z (Ha y Hy) Eyz) in E. discriminate. }
    generalize dependent (a :: r). intro l. induction l as [|y l IH]; intro Hall; simpl; [reflexivity|].
    rewrite (Hall y (or_introl eq_refl)). apply IH. intros w Hw. apply Hall. right; exact Hw.
  Qed.

  Lemma merge_filter : forall z l1 l2, sorted l1 -> sorted l2 ->
      filter (equivb z) (merge l1 l2) = filter (equivb z) l1 ++ filter (equivb z) l2.
  Proof.
    intros z; induction l1 as [|a1 r1 IH1]; intros l2 H1 H2.
    - destruct l2; reflexivity.
    - induction l2 as [|a2 r2 IH2].
      + rewrite merge_nil_r, app_nil_r. reflexivity.
      + rewrite merge_cons. destruct (leb a1 a2) eqn:E.
        * rewrite (filter_cons_eq (equivb z) a1 (merge r1 (a2 :: r2))).
          rewrite IH1; [|apply H1|exact H2].
          rewrite (filter_cons_eq (equivb z) a1 r1).
          destruct (equivb z a1); reflexivity.
        * rewrite (filter_cons_eq (equivb z) a2 (merge (a1 :: r1) r2)).
          rewrite IH2; [|apply H2].
          rewrite (filter_cons_eq (equivb z) a2 r2).
          destruct (equivb z a2) eqn:Ez; [|reflexivity].
          (* a2 tied with z, a2 strictly before a1: nothing of l1 is tied with z *)
          assert (leb a1 z = false) as Hz.
          { destruct (leb a1 z) eqn:E1; [|reflexivity].
            unfold equivb in Ez. apply andb_true_iff in Ez. destruct Ez as [Ez _].
            rewrite (leb_trans a1 z a2 E1 Ez) in E. discriminate. }
          rewrite (sorted_filter_nil z a1 r1 H1 Hz). reflexivity.
  Qed.

  Theorem msort_fuel_eq_isort : forall n l, msort_fuel n l = isort l.
  Proof.
    intros n l. apply (msort_fuel_eq_isort_on everything); [apply total_all|apply trans_all|apply Forall_all].
  Qed.

  Theorem msort_eq_isort : forall l, msort l = isort l.
  Proof. intro l. apply msort_fuel_eq_isort. Qed.

  Corollary msort_is_stable_sort : forall l, is_stable_sort l (msort l).
  Proof. intro l. rewrite msort_eq_isort. apply isort_is_stable_sort. Qed.

  Variable p : A -> bool.

  (* one pass, right to left: keeps the earlier element unless the later one is strictly smaller *)
  Fixpoint best (l : list A) : option A :=
    match l with
    | [] => None
    | x :: r =>
        if p x then
          match best r with
          | None => Some x
          | Some y => if leb x y then Some x else Some y
          end
        else best r
    end.

  Lemma find_insert : forall x l, sorted l ->
      find p (insert x l) =
      if p x then match find p l with
                  | None => Some x
                  | Some y => if leb x y then Some x else Some y
                  end
      else find p l.
  Proof.
    intros x l; induction l as [|y r IH]; intro Hs.
    - simpl. destruct (p x); reflexivity.
    - destruct Hs as [Hy Hr]. cbn [insert]. destruct (leb x y) eqn:E.
      + cbn [find]. destruct (p x) eqn:Px; [|reflexivity].
        destruct (p y) eqn:Py; [rewrite E; reflexivity|].
        destruct (find p r) as [w|] eqn:F; [|reflexivity].
        apply find_some in F. destruct F as [Hin _].
        rewrite (leb_trans x y w E (Hy w Hin)). reflexivity.
      + cbn [find]. destruct (p y) eqn:Py.
        * rewrite E. destruct (p x); reflexivity.
        * apply IH, Hr.
  Qed.

  Theorem find_isort : forall l, find p (isort l) = best l.
  Proof.
    induction l as [|x r IH]; [reflexivity|].
    cbn [isort best]. rewrite find_insert by apply isort_sorted. rewrite IH. reflexivity.
  Qed.

  Lemma best_none_iff : forall l, best l = None <-> forall d, In d l -> p d = false.
  Proof.
    induction l as [|x r IH]; simpl.
    - split; [intros _ d []|reflexivity].
    - destruct (p x) eqn:Px.
      + split.
        * destruct (best r) as [y|]; [destruct (leb x y)|]; discriminate.
        * intro H. rewrite (H x (or_introl eq_refl)) in Px. discriminate.
      + rewrite IH. split.
        * intros H d [Hd|Hd]; [subst; exact Px|apply H, Hd].
        * intros H d Hd. apply H. right; exact Hd.
  Qed.

  Lemma best_in : forall l c, best l = Some c -> In c l /\ p c = true.
  Proof.
    induction l as [|x r IH]; simpl; intros c H; [discriminate|].
    destruct (p x) eqn:Px.
    - destruct (best r) as [y|] eqn:B.
      + destruct (leb x y); inversion H; subst.
        * split; [left; reflexivity|exact Px].
        * destruct (IH c eq_refl) as [Hin Hp]. split; [right; exact Hin|exact Hp].
      + inversion H; subst. split; [left; reflexivity|exact Px].
    - destruct (IH c H) as [Hin Hp]. split; [right; exact Hin|exact Hp].
  Qed.

  (* c is the FIRST (in l) among the p-elements that are minimal for leb *)
  Theorem best_some_iff : forall l c,
      best l = Some c <->
      exists l1 l2, l = l1 ++ c :: l2 /\ p c = true /\
                    (forall d, In d l1 -> p d = true -> leb d c = false) /\
                    (forall d, In d l2 -> p d = true -> leb c d = true).
  Proof.
    intros l c; split.
    - revert c; induction l as [|x r IH]; intros c H; [discriminate|].
      cbn [best] in H. destruct (p x) eqn:Px.
      + destruct (best r) as [y|] eqn:B.
        * destruct (IH y eq_refl) as (l1 & l2 & Hr & Py & Hb & Ha).
          destruct (leb x y) eqn:E; inversion H; subst c.
          -- exists [], r. split; [reflexivity|]. split; [exact Px|]. split; [intros d []|].
             intros d Hd Pd. rewrite Hr in Hd. apply in_app_or in Hd.
             destruct Hd as [Hd|[Hd|Hd]].
             ++ eapply leb_trans; [exact E|apply leb_false_flip, Hb; assumption].
             ++ subst; exact E.
             ++ eapply leb_trans; [exact E|apply Ha; assumption].
          -- exists (x :: l1), l2. split; [rewrite Hr; reflexivity|]. split; [exact Py|].
             split; [|exact Ha].
             intros d [Hd|Hd] Pd; [subst; exact E|apply Hb; assumption].
        * inversion H; subst c. exists [], r. split; [reflexivity|]. split; [exact Px|].
          split; [intros d []|].
          intros d Hd Pd. rewrite (proj1 (best_none_iff r) B d Hd) in Pd. discriminate.
      + destruct (IH c H) as (l1 & l2 & Hr & Pc & Hb & Ha).
        exists (x :: l1), l2. split; [rewrite Hr; reflexivity|]. split; [exact Pc|].
        split; [|exact Ha].
        intros d [Hd|Hd] Pd; [subst; congruence|apply Hb; assumption].
    - intros (l1 & l2 & Hl & Pc & Hb & Ha). subst l.
      induction l1 as [|d l1 IH]; cbn [app best].
      + rewrite Pc. destruct (best l2) as [y|] eqn:B; [|reflexivity].
        apply best_in in B. destruct B as [Hin Py]. rewrite (Ha y Hin Py). reflexivity.
      + rewrite IH by (intros d' Hd'; apply Hb; right; exact Hd').
        destruct (p d) eqn:Pd; [|reflexivity].
        rewrite (Hb d (or_introl eq_refl) Pd). reflexivity.
  Qed.

End StableSort.

Arguments insert {A} leb x l.
Arguments isort {A} leb l.
Arguments merge {A} leb l1 l2.
Arguments msort {A} leb l.
Arguments msort_fuel {A} leb n l.
Arguments equivb {A} leb a b.
Arguments sorted {A} leb l.
Arguments stable_of {A} leb l l'.
Arguments is_stable_sort {A} leb l l'.
Arguments best {A} leb p l.
Arguments total_on {A} leb P.
Arguments trans_on {A} leb P.
Arguments everything {A} _.
