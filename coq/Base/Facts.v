(* Facts that are about no particular model: lists (with filter_some, Iterator::filter_map, and
   StronglySorted under the list operations: the SS_ lemmas), slices and buffers laid out as
   consecutive fields, the Prelude definitions (list_eqb, bytes_ok, little-endian blocks, i64 as
   u64, mismatches), and `post`: what a fallible function guarantees in each of its three outcomes. *)
From MV Require Import Base.Prelude.
From Coq Require Import Sorting.Sorted.
Require Import ZifyBool ZifyNat ZifyN.

Lemma firstn_app_exact {A} (a b : list A) n : n = length a -> firstn n (a ++ b) = a.
Proof. intros ->. rewrite firstn_app, Nat.sub_diag, firstn_all. apply app_nil_r. Qed.

Lemma skipn_app_exact {A} (a b : list A) n : n = length a -> skipn n (a ++ b) = b.
Proof. intros ->. rewrite skipn_app, Nat.sub_diag, skipn_all. reflexivity. Qed.

Lemma skipn_skipn {A} (l : list A) a b : skipn a (skipn b l) = skipn (b + a) l.
Proof. revert l; induction b as [|b IH]; intros [|x l]; cbn [skipn Nat.add]; auto using skipn_nil. Qed.

Lemma In_firstn {A} (l : list A) n x : In x (firstn n l) -> In x l.
Proof. intros H. rewrite <- (firstn_skipn n l). apply in_or_app. left; exact H. Qed.

Lemma In_skipn {A} (l : list A) n x : In x (skipn n l) -> In x l.
Proof. intros H. rewrite <- (firstn_skipn n l). apply in_or_app. right; exact H. Qed.

Lemma nth_firstn_lt {A} (b : list A) n i d : i < n -> nth i (firstn n b) d = nth i b d.
Proof.
  revert b i; induction n as [|n IH]; intros b i Hi; [lia|].
  destruct b as [|x b]; [destruct i; reflexivity|].
  destruct i as [|i]; [reflexivity|]. cbn [firstn nth]. apply IH. lia.
Qed.

Lemma nth_skipn {A} (b : list A) n i d : nth i (skipn n b) d = nth (n + i) b d.
Proof.
  revert b; induction n as [|n IH]; intros b; [reflexivity|].
  destruct b as [|x b]; [destruct i; reflexivity|]. apply IH.
Qed.

Lemma firstn_add {A} (l : list A) a b : firstn (a + b) l = firstn a l ++ firstn b (skipn a l).
Proof.
  revert l; induction a as [|a IH]; intros l; [reflexivity|].
  destruct l as [|x l]; [destruct b; reflexivity|]. cbn [Nat.add firstn skipn app]. f_equal. apply IH.
Qed.

Lemma app_inv_length {A} (a a' b b' : list A) :
  length a = length a' -> a ++ b = a' ++ b' -> a = a' /\ b = b'.
Proof.
  revert a'; induction a as [|x a IH]; intros [|x' a'] Hl E; try discriminate; [split; auto|].
  injection E as -> E. injection Hl as Hl. destruct (IH _ Hl E) as [-> ->]. split; reflexivity.
Qed.

Lemma filter_all {A} (f : A -> bool) l : (forall x, In x l -> f x = true) -> filter f l = l.
Proof.
  induction l as [|x l IH]; intros H; cbn [filter]; [reflexivity|].
  rewrite (H x) by (left; reflexivity). f_equal. apply IH. intros; apply H; right; assumption.
Qed.

Lemma filter_none {A} (f : A -> bool) l : (forall x, In x l -> f x = false) -> filter f l = [].
Proof.
  induction l as [|x l IH]; intros H; cbn [filter]; [reflexivity|].
  rewrite (H x) by (left; reflexivity). apply IH. intros; apply H; right; assumption.
Qed.

Lemma filter_filter {A} (p q : A -> bool) l : filter q (filter p l) = filter (fun x => p x && q x) l.
Proof.
  induction l as [|x l IH]; [reflexivity|]. cbn [filter].
  destruct (p x); cbn [filter andb]; rewrite IH; reflexivity.
Qed.

Lemma map_filter {A B} (f : A -> B) (p : B -> bool) l : map f (filter (fun x => p (f x)) l) = filter p (map f l).
Proof.
  induction l as [|x l IH]; [reflexivity|]. cbn [filter map].
  destruct (p (f x)); cbn [map]; rewrite IH; reflexivity.
Qed.

(* Iterator::filter_map.  The filter_map of Model/Memories.v and of Model/Query.v are convertible
   to it; normalize_some of Model/Acl.v, which closes over its function, is equal to it by induction. *)
Fixpoint filter_some {A B} (f : A -> option B) (l : list A) : list B :=
  match l with
  | [] => []
  | x :: r => match f x with Some y => y :: filter_some f r | None => filter_some f r end
  end.

Lemma in_filter_some {A B} (f : A -> option B) l y : In y (filter_some f l) <-> exists x, In x l /\ f x = Some y.
Proof.
  induction l as [|a l IH]; cbn [filter_some].
  - split; [contradiction | intros (x & [] & _)].
  - destruct (f a) as [z|] eqn:E; cbn [In]; rewrite IH; split.
    + intros [<-|(x & Hx & Hf)]; [exists a | exists x]; auto.
    + intros (x & [<-|Hx] & Hf); [left; congruence | right; exists x; auto].
    + intros (x & Hx & Hf). exists x; auto.
    + intros (x & [<-|Hx] & Hf); [congruence | exists x; auto].
Qed.

Lemma Forall_filter {A} (P : A -> Prop) (f : A -> bool) l : Forall P l -> Forall P (filter f l).
Proof. rewrite !Forall_forall. intros H x Hx. apply filter_In in Hx. apply H, Hx. Qed.

Lemma Forall_firstn {A} (P : A -> Prop) (l : list A) n : Forall P l -> Forall P (firstn n l).
Proof. rewrite !Forall_forall. intros H x Hx. apply H. eapply In_firstn, Hx. Qed.

Lemma find_first {A} (f : A -> bool) l x :
  find f l = Some x -> exists l1 l2, l = l1 ++ x :: l2 /\ f x = true /\ forall y, In y l1 -> f y = false.
Proof.
  induction l as [|a l IH]; cbn [find]; [discriminate|]. destruct (f a) eqn:E.
  - intros [= <-]. exists [], l. repeat split; [exact E|intros y []].
  - intros H. destruct (IH H) as (l1 & l2 & -> & Hx & Hn). exists (a :: l1), l2. repeat split; [exact Hx|].
    intros y [<-|Hy]; [exact E|apply Hn, Hy].
Qed.

Lemma fold_left_invariant_In {A B} (f : A -> B -> A) (P : A -> Prop) l :
  (forall a x, In x l -> P a -> P (f a x)) -> forall a, P a -> P (fold_left f l a).
Proof.
  induction l as [|x l IH]; intros Hf a Ha; cbn [fold_left]; [exact Ha|]. apply IH.
  - intros b y Hy. apply Hf. right; exact Hy.
  - apply Hf; [left; reflexivity | exact Ha].
Qed.

Lemma fold_left_invariant {A B} (f : A -> B -> A) (P : A -> Prop) l :
  (forall a x, P a -> P (f a x)) -> forall a, P a -> P (fold_left f l a).
Proof. intros Hf. apply fold_left_invariant_In. intros a x _. apply Hf. Qed.

Lemma existsb_false {A} (f : A -> bool) l : existsb f l = false -> forall x, In x l -> f x = false.
Proof.
  intros Hf x Hx. destruct (f x) eqn:E; [|reflexivity].
  rewrite <- Hf. symmetry. apply existsb_exists. exists x. auto.
Qed.

(* the `mem`s of the models (of frame ids, strings, file names) are instances, by N.eqb_eq or bytes_eqb_spec *)
Lemma existsb_eqb_In {A} (e : A -> A -> bool) :
  (forall x y, e x y = true <-> x = y) -> forall x l, existsb (e x) l = true <-> In x l.
Proof.
  intros He x l. rewrite existsb_exists. split.
  - intros (y & Hy & E). apply He in E. subst y. exact Hy.
  - intros H. exists x. split; [exact H | apply He; reflexivity].
Qed.

Lemma option_test_spec {A} (f : A -> bool) (P : A -> Prop) (b : bool) (o : option A) :
  (forall a, f a = b <-> P a) ->
  match o with Some a => f a | None => b end = b <-> forall a, o = Some a -> P a.
Proof.
  intros H. destruct o as [a|].
  - rewrite H. split; [intros Ha x [= <-]; exact Ha | intros Ha; exact (Ha a eq_refl)].
  - split; [intros _ x [=] | reflexivity].
Qed.

Lemma forallb_rev {A} (f : A -> bool) l : forallb f (rev l) = forallb f l.
Proof.
  induction l as [|x l IH]; cbn [rev forallb]; [reflexivity|].
  rewrite forallb_app, IH. cbn [forallb]. rewrite andb_true_r. apply andb_comm.
Qed.

Lemma combine_map_fst {A B} (a : list A) (b : list B) : length a = length b -> map fst (combine a b) = a.
Proof. revert b; induction a as [|x a IH]; intros [|y b] H; try discriminate; [reflexivity|]. cbn. f_equal. apply IH. injection H; auto. Qed.

Lemma combine_map_snd {A B} (a : list A) (b : list B) : length a = length b -> map snd (combine a b) = b.
Proof. revert b; induction a as [|x a IH]; intros [|y b] H; try discriminate; [reflexivity|]. cbn. f_equal. apply IH. injection H; auto. Qed.

Lemma SS_app {A} (R : A -> A -> Prop) l1 l2 : StronglySorted R (l1 ++ l2) ->
  StronglySorted R l1 /\ StronglySorted R l2 /\ (forall x y, In x l1 -> In y l2 -> R x y).
Proof.
  induction l1 as [|a l1 IH]; cbn [app]; intros H.
  - split; [constructor|]. split; [exact H|intros x y []].
  - inversion H as [|? ? Hr Ha]; subst. destruct (IH Hr) as (H1 & H2 & H3).
    apply Forall_app in Ha as [Ha1 Ha2]. split; [constructor; assumption|]. split; [exact H2|].
    rewrite Forall_forall in Ha2. intros x y [<-|Hx] Hy; [apply Ha2, Hy|apply H3; assumption].
Qed.

Lemma SS_app_intro {A} (R : A -> A -> Prop) l1 l2 :
  StronglySorted R l1 -> StronglySorted R l2 -> (forall a b, In a l1 -> In b l2 -> R a b) ->
  StronglySorted R (l1 ++ l2).
Proof.
  intros H1 H2 H. induction H1 as [|x r Hr IH Hx]; cbn [app]; [exact H2|].
  constructor.
  - apply IH. intros a b Ha Hb. apply H; [right; exact Ha|exact Hb].
  - apply Forall_app; split; [exact Hx|]. apply Forall_forall. intros b Hb. apply H; [left; reflexivity|exact Hb].
Qed.

Lemma SS_split {A} (R : A -> A -> Prop) l1 c l2 : StronglySorted R (l1 ++ c :: l2) ->
  (forall d, In d l1 -> R d c) /\ (forall d, In d l2 -> R c d).
Proof.
  intros H. apply SS_app in H as (_ & Hc & H). split.
  - intros d Hd. apply H; [exact Hd|left; reflexivity].
  - apply Forall_forall. inversion Hc; assumption.
Qed.

Lemma SS_firstn {A} (R : A -> A -> Prop) (l : list A) n : StronglySorted R l -> StronglySorted R (firstn n l).
Proof. intros H. rewrite <- (firstn_skipn n l) in H. apply (SS_app _ _ _ H). Qed.

Lemma SS_snoc {A} (R : A -> A -> Prop) (l : list A) x :
  StronglySorted R l -> Forall (fun y => R y x) l -> StronglySorted R (l ++ [x]).
Proof.
  induction l as [|y r IH]; cbn [app]; intros Hs Hf; [constructor; constructor|].
  inversion Hs as [|? ? Hr Hy]; subst. inversion Hf as [|? ? Hyx Hrx]; subst.
  constructor; [apply IH; assumption|]. apply Forall_app; split; [exact Hy|constructor; [exact Hyx|constructor]].
Qed.

Lemma SS_rev {A} (R : A -> A -> Prop) (l : list A) :
  StronglySorted R l -> StronglySorted (fun a b => R b a) (rev l).
Proof.
  induction 1 as [|x r Hr IH Hx]; cbn [rev]; [constructor|].
  apply SS_snoc; [exact IH|]. apply Forall_rev. exact Hx.
Qed.

Lemma SS_filter {A} (R : A -> A -> Prop) f (l : list A) : StronglySorted R l -> StronglySorted R (filter f l).
Proof.
  induction 1 as [|x r Hr IH Hx]; cbn [filter]; [constructor|].
  destruct (f x); [|exact IH]. constructor; [exact IH|].
  rewrite Forall_forall in *. intros y Hy. apply filter_In in Hy. apply Hx, Hy.
Qed.

Lemma SS_map {A B} (f : A -> B) (R : B -> B -> Prop) (l : list A) :
  StronglySorted (fun a b => R (f a) (f b)) l -> StronglySorted R (map f l).
Proof.
  induction 1 as [|x r Hr IH Hx]; cbn [map]; [constructor|].
  constructor; [exact IH|]. apply Forall_map. exact Hx.
Qed.

Lemma SS_of_nth {A} (R : A -> A -> Prop) (l : list A) :
  (forall i j a b, i < j -> nth_error l i = Some a -> nth_error l j = Some b -> R a b) -> StronglySorted R l.
Proof.
  induction l as [|x r IH]; intros H; constructor.
  - apply IH. intros i j a b Hij. apply (H (S i) (S j)). lia.
  - apply Forall_forall. intros y Hy. apply In_nth_error in Hy as [j Hj]. apply (H 0 (S j)); [lia|reflexivity|exact Hj].
Qed.

Lemma SS_impl_In {A} (R R' : A -> A -> Prop) (l : list A) :
  StronglySorted R l -> (forall a b, In a l -> In b l -> R a b -> R' a b) -> StronglySorted R' l.
Proof.
  intros Hs H. induction Hs as [|x r Hr IH Hx]; constructor.
  - apply IH. intros a b Ha Hb. apply H; right; assumption.
  - rewrite Forall_forall in *. intros y Hy. apply H; [left; reflexivity|right; exact Hy|apply Hx, Hy].
Qed.

Lemma SS_NoDup {A} (R : A -> A -> Prop) (l : list A) : (forall a, ~ R a a) -> StronglySorted R l -> NoDup l.
Proof.
  intros Hi. induction 1 as [|x r Hr IH Hx]; constructor; [|exact IH].
  rewrite Forall_forall in Hx. intros Hin. apply (Hi x), Hx, Hin.
Qed.

Lemma list_eqb_spec {A} (e : A -> A -> bool) :
  (forall x y, e x y = true <-> x = y) ->
  forall a b, list_eqb e a b = true <-> a = b.
Proof.
  intros He a; induction a as [|x a IH]; intros [|y b]; cbn [list_eqb]; try (split; congruence).
  rewrite andb_true_iff, He, IH. split; [intros [-> ->]; reflexivity | intros E; inversion E; auto].
Qed.

Lemma bytes_eqb_spec a b : bytes_eqb a b = true <-> a = b.
Proof. apply list_eqb_spec. intros; apply N.eqb_eq. Qed.

Lemma bytes_eqb_refl a : bytes_eqb a a = true.
Proof. apply bytes_eqb_spec; reflexivity. Qed.

Lemma slice_length {A} (b : list A) off len :
  off + len <= length b -> length (slice b off len) = len.
Proof. intros Hl. unfold slice. rewrite firstn_length, skipn_length. lia. Qed.

Lemma slice_length_le {A} (b : list A) off len : length (slice b off len) <= len.
Proof. unfold slice. rewrite firstn_length. lia. Qed.

Lemma slice_app_exact {A} (a b c : list A) :
  slice (a ++ b ++ c) (length a) (length b) = b.
Proof.
  unfold slice. rewrite skipn_app, skipn_all, Nat.sub_diag. cbn [skipn app].
  rewrite firstn_app, firstn_all, Nat.sub_diag. cbn [firstn]. apply app_nil_r.
Qed.

Lemma slice_app_tail {A} (a b : list A) : slice (a ++ b) (length a) (length b) = b.
Proof. rewrite <- (app_nil_r b) at 1. apply slice_app_exact. Qed.

Lemma slice_app_l {A} (l1 l2 : list A) a n :
  (a + n <= length l1)%nat -> slice (l1 ++ l2) a n = slice l1 a n.
Proof.
  intros Hle. unfold slice. rewrite skipn_app, firstn_app.
  replace (n - length (skipn a l1))%nat with 0%nat by (rewrite skipn_length; lia).
  apply app_nil_r.
Qed.

Lemma nth_slice {A} (b : list A) off len i d : i < len -> nth i (slice b off len) d = nth (off + i) b d.
Proof. intros Hi. unfold slice. rewrite nth_firstn_lt by exact Hi. apply nth_skipn. Qed.

Lemma slice_S {A} (b : list A) off len d :
  off < length b -> slice b off (S len) = nth off b d :: slice b (S off) len.
Proof.
  unfold slice. revert b; induction off as [|off IH]; intros [|x b] Hlt; cbn [length] in Hlt; try lia.
  - reflexivity.
  - apply IH. lia.
Qed.

Lemma slice_firstn {A} (b : list A) n off len :
  off + len <= n -> slice (firstn n b) off len = slice b off len.
Proof.
  intros Hle. unfold slice. rewrite skipn_firstn_comm, firstn_firstn.
  replace (Nat.min len (n - off)) with len by lia. reflexivity.
Qed.

Lemma slice_cat {A} (b : list A) off l1 l2 : slice b off l1 ++ slice b (off + l1) l2 = slice b off (l1 + l2).
Proof. unfold slice. rewrite <- skipn_skipn. symmetry. apply firstn_add. Qed.

(* Encoders concatenate fields of fixed lengths, decoders slice them out again at fixed offsets.
   fields_at and chop are used on literal lists, where cbn turns the offsets into numerals. *)
Fixpoint fields_at {A} (xs : list (list A)) (off : nat) (b : list A) : Prop :=
  match xs with
  | [] => True
  | x :: xs' => slice b off (length x) = x /\ fields_at xs' (off + length x) b
  end.

Lemma fields_at_app {A} (xs : list (list A)) : forall p z,
  fields_at xs (length p) (p ++ fold_right (@app A) z xs).
Proof.
  induction xs as [|x xs IH]; intros p z; cbn [fields_at fold_right]; [exact I|]. split.
  - apply slice_app_exact.
  - rewrite <- app_length, app_assoc. apply IH.
Qed.

Fixpoint chop {A} (ns : list nat) (off : nat) (b : list A) : list (list A) :=
  match ns with
  | [] => []
  | n :: ns' => slice b off n :: chop ns' (off + n) b
  end.

Lemma chop_app {A} ns : forall off (b z : list A),
  fold_right (@app A) z (chop ns off b) = slice b off (list_sum ns) ++ z.
Proof.
  induction ns as [|n ns IH]; intros off b z; cbn [chop fold_right list_sum].
  - unfold slice. reflexivity.
  - rewrite IH, app_assoc, slice_cat. reflexivity.
Qed.

(* off and n are parameters because decoders read at literal offsets; the two equations on them
   hold by computation *)
Lemma field_at {A} (fs : list (list A)) ws k off n :
  map (@length A) fs = ws -> list_sum (firstn k ws) = off -> nth k ws 0 = n ->
  slice (concat fs) off n = nth k fs [].
Proof.
  intros <- <- <-. revert k. induction fs as [|f r IH]; intros [|k]; try reflexivity.
  - exact (slice_app_exact [] f (concat r)).
  - cbn [map firstn nth concat]. rewrite <- IH. unfold slice.
    change (list_sum (length f :: ?t)) with (length f + list_sum t).
    rewrite skipn_app, (@skipn_all2 _ _ f), Nat.add_comm, Nat.add_sub by lia. reflexivity.
Qed.

Lemma nth_of_slice {A} (l : list A) off x d : slice l off 1 = [x] -> nth off l d = x.
Proof.
  unfold slice. revert l; induction off as [|off IH]; intros [|y l]; cbn; try discriminate; [congruence | apply IH].
Qed.

Lemma bytes_ok_firstn n b : bytes_ok b = true -> bytes_ok (firstn n b) = true.
Proof. unfold bytes_ok. rewrite !forallb_forall. intros H x Hx. eapply H, In_firstn, Hx. Qed.

Lemma bytes_ok_skipn n b : bytes_ok b = true -> bytes_ok (skipn n b) = true.
Proof. unfold bytes_ok. rewrite !forallb_forall. intros H x Hx. eapply H, In_skipn, Hx. Qed.

Lemma bytes_ok_slice b off len : bytes_ok b = true -> bytes_ok (slice b off len) = true.
Proof. intros Hb. apply bytes_ok_firstn, bytes_ok_skipn, Hb. Qed.

Local Open Scope N_scope.

Lemma le_encode_length n v : length (le_encode n v) = n.
Proof. revert v; induction n as [|n IH]; intros v; cbn [le_encode length]; [reflexivity|]. rewrite IH; reflexivity. Qed.

Lemma le_decode_encode n v : v < 256 ^ N.of_nat n -> le_decode (le_encode n v) = v.
Proof.
  revert v; induction n as [|n IH]; intros v Hv.
  - cbn [le_encode le_decode]. change (N.of_nat 0) with 0 in Hv. rewrite N.pow_0_r in Hv. lia.
  - cbn [le_encode le_decode].
    rewrite IH.
    + pose proof (N.div_mod v 256). lia.
    + rewrite Nat2N.inj_succ, N.pow_succ_r' in Hv.
      apply N.div_lt_upper_bound; lia.
Qed.

Lemma le_encode_bytes_ok n v : bytes_ok (le_encode n v) = true.
Proof.
  revert v; induction n as [|n IH]; intros v; cbn [le_encode bytes_ok forallb]; [reflexivity|].
  apply andb_true_iff; split; [|apply IH].
  unfold byte_ok. apply N.ltb_lt. apply N.mod_lt. lia.
Qed.

Lemma le_decode_bound bs : bytes_ok bs = true -> le_decode bs < 256 ^ N.of_nat (length bs).
Proof.
  induction bs as [|b r IH]; intros Hok.
  - cbn. lia.
  - cbn [bytes_ok forallb] in Hok. apply andb_true_iff in Hok as [Hb Hr].
    unfold byte_ok in Hb. apply N.ltb_lt in Hb.
    cbn [le_decode length]. rewrite Nat2N.inj_succ, N.pow_succ_r'.
    specialize (IH Hr). lia.
Qed.

Lemma le_encode_decode_n bs n : length bs = n -> bytes_ok bs = true -> le_encode n (le_decode bs) = bs.
Proof.
  intros <-. induction bs as [|b r IH]; intros Hok; [reflexivity|].
  cbn [bytes_ok forallb] in Hok. apply andb_true_iff in Hok as [Hb Hr].
  unfold byte_ok in Hb. apply N.ltb_lt in Hb.
  cbn [le_decode length le_encode].
  replace ((b + 256 * le_decode r) mod 256) with b by lia.
  replace ((b + 256 * le_decode r) / 256) with (le_decode r) by lia.
  rewrite IH; auto.
Qed.

Lemma le_decode_lt bs n : length bs = n -> bytes_ok bs = true -> le_decode bs < 256 ^ N.of_nat n.
Proof. intros <-. apply le_decode_bound. Qed.

Lemma le_encode_decode_slice b off len :
  bytes_ok b = true -> (off + len <= length b)%nat -> le_encode len (le_decode (slice b off len)) = slice b off len.
Proof.
  intros Hb Hle. apply le_encode_decode_n; [apply slice_length, Hle | apply bytes_ok_slice, Hb].
Qed.

Local Close Scope N_scope.

(* i64 as u64: two's complement, on the expressions by which the bincode model and the
   time-index model each define the pair of conversions.  lia wants the powers as numerals. *)
Lemma i64_wrap_bound z : (Z.to_N (z mod 2 ^ 64) < 2 ^ 64)%N.
Proof. change (2 ^ 64)%N with 18446744073709551616%N. change (2 ^ 64)%Z with 18446744073709551616%Z. lia. Qed.

Lemma i64_unwrap_wrap z :
  (- 2 ^ 63 <= z < 2 ^ 63)%Z ->
  (if (Z.to_N (z mod 2 ^ 64) <? 2 ^ 63)%N
   then Z.of_N (Z.to_N (z mod 2 ^ 64)) else Z.of_N (Z.to_N (z mod 2 ^ 64)) - 2 ^ 64)%Z = z.
Proof.
  intros Hz.
  change (2 ^ 63)%N with 9223372036854775808%N. change (2 ^ 64)%Z with 18446744073709551616%Z.
  change (2 ^ 63)%Z with 9223372036854775808%Z in Hz.
  destruct (Z.to_N (z mod 18446744073709551616) <? 9223372036854775808)%N eqn:E; lia.
Qed.

Lemma i64_unwrap_range u :
  (u < 2 ^ 64)%N -> (- 2 ^ 63 <= (if (u <? 2 ^ 63)%N then Z.of_N u else Z.of_N u - 2 ^ 64) < 2 ^ 63)%Z.
Proof.
  intros Hu. change (2 ^ 63)%N with 9223372036854775808%N.
  change (2 ^ 64)%N with 18446744073709551616%N in Hu. change (2 ^ 64)%Z with 18446744073709551616%Z.
  change (2 ^ 63)%Z with 9223372036854775808%Z.
  destruct (u <? 9223372036854775808)%N eqn:E; lia.
Qed.

Lemma i64_wrap_unwrap u :
  (u < 2 ^ 64)%N -> Z.to_N ((if (u <? 2 ^ 63)%N then Z.of_N u else Z.of_N u - 2 ^ 64) mod 2 ^ 64) = u.
Proof.
  intros Hu. change (2 ^ 63)%N with 9223372036854775808%N.
  change (2 ^ 64)%N with 18446744073709551616%N in Hu. change (2 ^ 64)%Z with 18446744073709551616%Z.
  destruct (u <? 9223372036854775808)%N eqn:E; lia.
Qed.

Lemma Ok_inj {A} (a b : A) : Ok a = Ok b -> a = b.
Proof. intros [= E]; exact E. Qed.

(* The models write `match o with Ok x => f x | Err k => Err k | Panic s => Panic s end` for `?`;
   post_then is the rule for that shape. *)
Definition post {A} (o : outcome A) (Q : A -> Prop) (E : N -> Prop) (P : Prop) : Prop :=
  match o with Ok x => Q x | Err k => E k | Panic _ => P end.

Lemma post_then {A B} {o : outcome A} {f : A -> outcome B} {Q1 : A -> Prop} {Q : B -> Prop} {E P} :
  post o Q1 E P -> (forall x, o = Ok x -> Q1 x -> post (f x) Q E P) ->
  post (match o with Ok x => f x | Err k => Err k | Panic s => Panic s end) Q E P.
Proof. destruct o as [x|k|s]; intros H Hf; [exact (Hf x eq_refl H) | exact H | exact H]. Qed.

Lemma post_impl {A} {o : outcome A} {Q Q' : A -> Prop} {E P} :
  post o Q E P -> (forall x, o = Ok x -> Q x -> Q' x) -> post o Q' E P.
Proof. destruct o as [x|k|s]; intros H HQ; [exact (HQ x eq_refl H) | exact H | exact H]. Qed.

Lemma post_ok {A} {o : outcome A} {Q E P x} : post o Q E P -> o = Ok x -> Q x.
Proof. intros H ->. exact H. Qed.

Lemma post_err {A} {o : outcome A} {Q E P k} : post o Q E P -> o = Err k -> E k.
Proof. intros H ->. exact H. Qed.

Lemma post_no_err {A} {o : outcome A} {Q P} k : post o Q (fun _ => False) P -> o <> Err k.
Proof. intros H ->. exact H. Qed.

Lemma post_panic {A} {o : outcome A} {Q E P s} : post o Q E P -> o = Panic s -> P.
Proof. intros H ->. exact H. Qed.

Lemma post_no_panic {A} {o : outcome A} {Q E} s : post o Q E False -> o <> Panic s.
Proof. intros H ->. exact H. Qed.

Lemma mismatches_from_nil {A B} `{Eqb B} (f : A -> B) i cs :
  mismatches_from f i cs = [] <-> Forall (fun c => eqb (f (fst c)) (snd c) = true) cs.
Proof.
  revert i; induction cs as [|[a b] r IH]; intros i; cbn [mismatches_from].
  - split; auto.
  - destruct (eqb (f a) b) eqn:E.
    + rewrite IH. split; [intros Hf; constructor; auto | intros Hf; inversion Hf; auto].
    + split; [discriminate | intros Hf; inversion Hf as [|? ? Hx]; cbn in Hx; congruence].
Qed.
